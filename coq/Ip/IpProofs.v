(* Ip/IpProofs.v -- the model of std's IP address codec: what Display prints for an address,
   FromStr reads back as that address (ipv4_roundtrip, ipv6_roundtrip), and which characters
   Display prints (show_v4_chars, show_v6_chars). *)
From RV Require Import Base.Prelude Base.PreludeFacts Name.NameModel Name.NameProofs Ip.IpModel.
From Coq Require Import ZArith Lia.

Definition nondigit_head (radix : N) (s : list N) : Prop :=
  match s with [] => True | c :: _ => to_digit radix c = None end.

Fixpoint digits_of (radix : N) (ds : list N) : option (list N) :=
  match ds with
  | [] => Some []
  | c :: t => match to_digit radix c, digits_of radix t with
              | Some d, Some vs => Some (d :: vs)
              | _, _ => None
              end
  end.

Definition gval (radix : N) (vs : list N) (r : N) : N := fold_left (fun acc d => acc * radix + d) vs r.

Lemma read_digits_gen radix maxd ds : forall vs rest r cnt,
  digits_of radix ds = Some vs -> nondigit_head radix rest -> cnt + llen ds <= maxd ->
  read_digits radix maxd (ds ++ rest) r cnt = Some (gval radix vs r, cnt + llen ds, rest).
Proof.
  induction ds as [|d ds IH]; intros vs rest r cnt Hd Hn Hc.
  - injection Hd as <-. cbn [app gval fold_left]. rewrite llen_nil, N.add_0_r.
    destruct rest as [|c t]; cbn [read_digits]; [reflexivity|].
    cbn [nondigit_head] in Hn. rewrite Hn. reflexivity.
  - cbn [digits_of] in Hd. destruct (to_digit radix d) as [v|] eqn:Ev; [|discriminate].
    destruct (digits_of radix ds) as [vs'|] eqn:Evs; [|discriminate]. injection Hd as <-.
    rewrite llen_cons in Hc. cbn [app read_digits]. rewrite Ev.
    assert (maxd <? cnt + 1 = false) as -> by (apply N.ltb_ge; lia).
    rewrite (IH vs' rest _ _ eq_refl Hn) by lia.
    rewrite llen_cons. cbn [gval fold_left]. f_equal. f_equal. f_equal. lia.
Qed.

(* everything the proof needs to know about the decimal rendering of an octet,
   as one boolean checked over all 256 octets *)
Definition octet_ok (o : N) : bool :=
  let ds := show_dec o in
  match digits_of 10 ds with
  | Some vs => (gval 10 vs 0 =? o) && (llen ds <=? 3) && (1 <=? llen ds)
               && (negb (match ds with 48 :: _ => true | _ => false end) || (llen ds =? 1))
  | None => false
  end.

Lemma read_number_octet o rest : o < 256 -> nondigit_head 10 rest ->
  read_number 10 3 false 255 (show_dec o ++ rest) = Some (o, rest).
Proof.
  intros Ho Hn. assert (K : octet_ok o = true) by (apply (N_lt_sweep octet_ok 256); [vm_compute; reflexivity|exact Ho]).
  unfold octet_ok in K. cbv zeta in K. destruct (digits_of 10 (show_dec o)) as [vs|] eqn:Ed; [|discriminate].
  rewrite !andb_true_iff, N.eqb_eq, !N.leb_le in K. destruct K as [[[Ev Hl3] Hl1] K5].
  unfold read_number. rewrite (read_digits_gen 10 3 _ vs rest 0 0 Ed Hn) by lia.
  rewrite N.add_0_l, Ev.
  assert (llen (show_dec o) =? 0 = false) as -> by (apply N.eqb_neq; lia).
  assert (o <=? 255 = true) as -> by (apply N.leb_le; lia).
  destruct (show_dec o) as [|d ds]; [rewrite llen_nil in Hl1; lia|].
  cbn [app negb andb]. apply orb_true_iff in K5 as [K5|K5].
  - apply negb_true_iff in K5. rewrite K5. reflexivity.
  - apply N.eqb_eq in K5. rewrite K5, andb_false_r. reflexivity.
Qed.

Lemma dot_nondigit t : nondigit_head 10 (46 :: t).
Proof. reflexivity. Qed.

Lemma read_octet_0 o rest : o < 256 -> nondigit_head 10 rest ->
  read_octet 0 (show_dec o ++ rest) = Some (o, rest).
Proof.
  intros. unfold read_octet, read_separator.
  assert (0 <? 0 = false) as -> by reflexivity. apply read_number_octet; assumption.
Qed.

Lemma read_octet_sep i o rest : 0 < i -> o < 256 -> nondigit_head 10 rest ->
  read_octet i (46 :: show_dec o ++ rest) = Some (o, rest).
Proof.
  intros Hi ? ?. unfold read_octet, read_separator.
  assert (0 <? i = true) as -> by (apply N.ltb_lt; exact Hi).
  assert (46 =? 46 = true) as -> by reflexivity. apply read_number_octet; assumption.
Qed.

(* x written with three digits in base b and what is left above them *)
Lemma div_mod3 b x : b <> 0 ->
  x = ((x / b / b / b * b + (x / b / b) mod b) * b + (x / b) mod b) * b + x mod b.
Proof.
  intros Hb. rewrite (N.div_mod x b Hb) at 1. rewrite (N.div_mod (x / b) b Hb) at 1.
  rewrite (N.div_mod (x / b / b) b Hb) at 1. ring.
Qed.

Lemma u32_be_bytes a : a < 4294967296 ->
  u32_be ((a / 16777216) mod 256) ((a / 65536) mod 256) ((a / 256) mod 256) (a mod 256) = a.
Proof.
  intros Ha. unfold u32_be.
  change 16777216 with (256 * 256 * 256). change 65536 with (256 * 256).
  rewrite <- !N.div_div by discriminate.
  rewrite (N.mod_small (a / 256 / 256 / 256)) by (repeat (apply N.div_lt_upper_bound; [discriminate|]); exact Ha).
  symmetry. apply div_mod3. discriminate.
Qed.

Lemma read_ipv4_show a rest : a < 4294967296 -> nondigit_head 10 rest ->
  read_ipv4_addr (show_v4 a ++ rest) = Some (a, rest).
Proof.
  intros Ha Hn. unfold show_v4, read_ipv4_addr.
  assert (H : forall x, x mod 256 < 256) by (intros x; apply N.mod_lt; discriminate).
  repeat (rewrite <- app_assoc || rewrite <- app_comm_cons).
  rewrite (read_octet_0 _ _ (H _) (dot_nondigit _)). cbv beta iota.
  rewrite (read_octet_sep 1 _ _ eq_refl (H _) (dot_nondigit _)). cbv beta iota.
  rewrite (read_octet_sep 2 _ _ eq_refl (H _) (dot_nondigit _)). cbv beta iota.
  rewrite (read_octet_sep 3 _ _ eq_refl (H _) Hn). cbv beta iota.
  rewrite (u32_be_bytes a Ha). reflexivity.
Qed.

Lemma show_v4_chars a : Forall (fun c => is_digit c = true \/ c = 46) (show_v4 a).
Proof.
  assert (D : forall o, Forall (fun c => is_digit c = true \/ c = 46) (show_dec o)).
  { intros o. eapply Forall_impl; [|apply show_dec_digits]. cbv beta. intros c Hc. left. exact Hc. }
  unfold show_v4.
  repeat (apply Forall_app; split; [apply D|]; apply Forall_cons; [right; reflexivity|]).
  apply D.
Qed.

Theorem ipv4_roundtrip a : a < 4294967296 -> parse_v4 (show_v4 a) = Some a.
Proof.
  intros Ha. unfold parse_v4.
  rewrite utf8_ascii by (eapply Forall_impl; [|apply show_v4_chars]; intros c [H| ->]; [apply is_digit_range in H|]; lia).
  rewrite <- (app_nil_r (show_v4 a)). rewrite read_ipv4_show by (auto; exact I). reflexivity.
Qed.

Lemma parse_v4_ip s a : parse_v4 s = Some a -> parse_ip s = Some (V4 a).
Proof.
  unfold parse_v4, parse_ip, parse_ip_bytes. destruct (read_ipv4_addr (utf8 s)) as [[a' r]|]; [|discriminate].
  destruct (is_nil r); [|discriminate]. intros [= ->]. reflexivity.
Qed.

Theorem ipv4_roundtrip_ip a : a < 4294967296 -> parse_ip (show_v4 a) = Some (V4 a).
Proof. intros Ha. apply parse_v4_ip, ipv4_roundtrip, Ha. Qed.

(* the hypotheses are satisfiable, and the statement is not vacuous *)
Example ipv4_roundtrip_example : parse_v4 (show_v4 3232235777) = Some 3232235777 /\ show_v4 3232235777 = [49;57;50;46;49;54;56;46;49;46;49].
Proof. vm_compute. split; reflexivity. Qed.

(* a leading zero is rejected, as is a fifth group or an octet above 255 *)
Example ipv4_rejects : parse_v4 [48;49;46;50;46;51;46;52] = None
                       /\ parse_v4 [49;46;50;46;51;46;52;46;53] = None
                       /\ parse_v4 [49;46;50;46;51;46;50;53;54] = None.
Proof. vm_compute. repeat split; reflexivity. Qed.

Definition hexc (c : N) : bool := is_digit c || ((97 <=? c) && (c <=? 102)).

Lemma hex_digit_ok d : d < 16 -> to_digit 16 (hex_digit d) = Some d /\ hexc (hex_digit d) = true.
Proof.
  intros H.
  pose proof (N_lt_sweep (fun d => match to_digit 16 (hex_digit d) with
                              | Some v => (v =? d) && hexc (hex_digit d)
                              | None => false
                              end) 16 eq_refl d H) as S. cbv beta in S.
  destruct (to_digit 16 (hex_digit d)) as [v|]; [|discriminate].
  apply andb_true_iff in S as [E ->]. apply N.eqb_eq in E. subst v. auto.
Qed.

Lemma digits_of_hex vs : Forall (fun d => d < 16) vs -> digits_of 16 (map hex_digit vs) = Some vs.
Proof.
  induction 1 as [|d vs Hd _ IH]; [reflexivity|]. cbn [map digits_of].
  rewrite (proj1 (hex_digit_ok d Hd)), IH. reflexivity.
Qed.

(* the nibbles "{:x}" prints: no leading zeros, at least one digit *)
Definition nibbles (n : N) : list N :=
  if n <? 16 then [n]
  else if n <? 256 then [n / 16; n mod 16]
  else if n <? 4096 then [n / 256; (n / 16) mod 16; n mod 16]
  else [(n / 4096) mod 16; (n / 256) mod 16; (n / 16) mod 16; n mod 16].

Lemma show_hex16_nibbles n : show_hex16 n = map hex_digit (nibbles n).
Proof.
  unfold show_hex16, nibbles. destruct (n <? 16); [reflexivity|].
  destruct (n <? 256); [reflexivity|]. destruct (n <? 4096); reflexivity.
Qed.

Lemma nibbles_spec x : x < 65536 ->
  Forall (fun d => d < 16) (nibbles x) /\ gval 16 (nibbles x) 0 = x
  /\ (1 <= length (nibbles x) <= 4)%nat.
Proof.
  intros Hx. unfold nibbles.
  change 4096 with (16 * 16 * 16). change 256 with (16 * 16).
  rewrite <- !N.div_div by discriminate.
  pose proof (N.div_mod x 16 ltac:(discriminate)) as E0.
  pose proof (N.div_mod (x / 16) 16 ltac:(discriminate)) as E1.
  pose proof (N.div_mod (x / 16 / 16) 16 ltac:(discriminate)) as E2.
  pose proof (N.div_mod (x / 16 / 16 / 16) 16 ltac:(discriminate)) as E3.
  pose proof (N.mod_lt x 16 ltac:(discriminate)) as B0.
  pose proof (N.mod_lt (x / 16) 16 ltac:(discriminate)) as B1.
  pose proof (N.mod_lt (x / 16 / 16) 16 ltac:(discriminate)) as B2.
  pose proof (N.mod_lt (x / 16 / 16 / 16) 16 ltac:(discriminate)) as B3.
  generalize dependent (x mod 16). generalize dependent ((x / 16) mod 16).
  generalize dependent ((x / 16 / 16) mod 16). generalize dependent ((x / 16 / 16 / 16) mod 16).
  generalize dependent (x / 16 / 16 / 16 / 16). generalize dependent (x / 16 / 16 / 16).
  generalize dependent (x / 16 / 16). generalize dependent (x / 16). intros.
  destruct (N.ltb_spec x 16); [|destruct (N.ltb_spec x (16 * 16)); [|destruct (N.ltb_spec x (16 * 16 * 16))]];
    (split; [repeat constructor; lia|]); cbn [gval fold_left length]; lia.
Qed.

Lemma read_number_hex x rest : x < 65536 -> nondigit_head 16 rest ->
  read_number 16 4 true 65535 (show_hex16 x ++ rest) = Some (x, rest).
Proof.
  intros Hx Hn. destruct (nibbles_spec x Hx) as (Hd & Hv & Hl).
  unfold read_number. rewrite show_hex16_nibbles.
  rewrite (read_digits_gen 16 4 _ _ rest 0 0 (digits_of_hex _ Hd) Hn)
    by (unfold llen; rewrite map_length; lia).
  rewrite N.add_0_l, Hv. unfold llen. rewrite map_length.
  assert (N.of_nat (length (nibbles x)) =? 0 = false) as -> by (apply N.eqb_neq; lia).
  assert (x <=? 65535 = true) as -> by (apply N.leb_le; lia).
  reflexivity.
Qed.

Lemma show_hex16_chars x : x < 65536 -> Forall (fun c => hexc c = true) (show_hex16 x).
Proof.
  intros Hx. rewrite show_hex16_nibbles. apply Forall_map.
  eapply Forall_impl; [|apply (nibbles_spec x Hx)]. intros d Hd. apply (hex_digit_ok d Hd).
Qed.

Lemma show_hex16_nonempty x : show_hex16 x <> [].
Proof.
  unfold show_hex16. destruct (x <? 16); [discriminate|].
  destruct (x <? 256); [discriminate|]. destruct (x <? 4096); discriminate.
Qed.

Lemma read_digits_suffix radix maxd s : forall r c v n rest,
  read_digits radix maxd s r c = Some (v, n, rest) -> exists pre, s = pre ++ rest.
Proof.
  induction s as [|x s IH]; intros r c v n rest H; cbn [read_digits] in H.
  - injection H as _ _ <-. exists []. reflexivity.
  - destruct (to_digit radix x).
    + destruct (maxd <? c + 1); [discriminate|]. destruct (IH _ _ _ _ _ H) as (pre & ->). exists (x :: pre). reflexivity.
    + injection H as _ _ <-. exists []. reflexivity.
Qed.

Lemma read_number_suffix radix maxd az bound s v rest :
  read_number radix maxd az bound s = Some (v, rest) -> exists pre, s = pre ++ rest.
Proof.
  unfold read_number. destruct (read_digits radix maxd s 0 0) as [[[r cnt] rest']|] eqn:E; [|discriminate].
  destruct (cnt =? 0); [discriminate|]. destruct (negb az && _ && _); [discriminate|].
  destruct (r <=? bound); [|discriminate]. intros [= <- <-]. eapply read_digits_suffix. exact E.
Qed.

Lemma read_ipv4_nodot s : ~ In 46 s -> read_ipv4_addr s = None.
Proof.
  intros H. unfold read_ipv4_addr.
  destruct (read_octet 0 s) as [[a s1]|] eqn:E0; [|reflexivity].
  unfold read_octet, read_separator in E0. assert (0 <? 0 = false) as X by reflexivity. rewrite X in E0.
  apply read_number_suffix in E0 as (pre & ->).
  unfold read_octet at 1. unfold read_separator. assert (0 <? 1 = true) as -> by reflexivity.
  destruct s1 as [|c t]; [reflexivity|].
  destruct (N.eqb_spec c 46) as [->|]; [|reflexivity].
  exfalso. apply H. apply in_or_app. right. left. reflexivity.
Qed.

Lemma v4_attempt_none i limit s : ~ In 46 s ->
  (if i + 1 <? limit then read_separator 58 i read_ipv4_addr s else None) = None.
Proof.
  intros H. destruct (i + 1 <? limit); [|reflexivity]. unfold read_separator.
  destruct (0 <? i); [|apply read_ipv4_nodot; exact H].
  destruct s as [|c t]; [reflexivity|]. destruct (c =? 58); [|reflexivity].
  apply read_ipv4_nodot. intros X. apply H. right. exact X.
Qed.

Definition colon_groups (xs : list N) : list N := flat_map (fun x => 58 :: show_hex16 x) xs.

Lemma fmt_subslice_cons x xs : fmt_subslice (x :: xs) = show_hex16 x ++ colon_groups xs.
Proof.
  revert x. induction xs as [|y xs IH]; intros x.
  - cbn [fmt_subslice colon_groups flat_map]. rewrite app_nil_r. reflexivity.
  - change (fmt_subslice (x :: y :: xs)) with (show_hex16 x ++ 58 :: fmt_subslice (y :: xs)).
    rewrite IH. reflexivity.
Qed.

(* where reading stops: at the end of the text or before "::" *)
Definition stop (rest : list N) : Prop := rest = [] \/ exists t, rest = 58 :: 58 :: t.

Lemma colon_nondigit xs rest : stop rest -> nondigit_head 16 (colon_groups xs ++ rest).
Proof. intros [->|(t & ->)]; destruct xs; reflexivity. Qed.

Lemma read_group_stop i rest : stop rest ->
  read_separator 58 i (read_number 16 4 true 65535) rest = None.
Proof.
  intros [->|(t & ->)]; unfold read_separator; destruct (0 <? i); reflexivity.
Qed.

Lemma nodot_hex x : x < 65536 -> ~ In 46 (show_hex16 x).
Proof.
  intros Hx Hin. pose proof (show_hex16_chars x Hx) as H. rewrite Forall_forall in H.
  specialize (H 46 Hin). discriminate H.
Qed.

Lemma nodot_colon xs : Forall (fun x => x < 65536) xs -> ~ In 46 (colon_groups xs).
Proof.
  induction 1 as [|x xs Hx _ IH]; [intros []|]. cbn [colon_groups flat_map]. fold (colon_groups xs).
  intros [E|Hin]; [discriminate|]. apply in_app_or in Hin as [Hin|Hin]; [exact (nodot_hex x Hx Hin)|exact (IH Hin)].
Qed.

Lemma nodot_groups x xs rest : x < 65536 -> Forall (fun x => x < 65536) xs -> ~ In 46 rest ->
  ~ In 46 (show_hex16 x ++ colon_groups xs ++ rest).
Proof.
  intros Hx Hxs Hd Hin. apply in_app_or in Hin as [Hin|Hin]; [exact (nodot_hex x Hx Hin)|].
  apply in_app_or in Hin as [Hin|Hin]; [exact (nodot_colon xs Hxs Hin)|exact (Hd Hin)].
Qed.

(* one turn of the loop: the group [x], after a ':' unless it is the first *)
Lemma read_groups_step k i limit acc x rest :
  x < 65536 -> nondigit_head 16 rest -> ~ In 46 (show_hex16 x ++ rest) ->
  read_groups (S k) i limit acc ((if 0 <? i then [58] else []) ++ show_hex16 x ++ rest)
  = read_groups k (i + 1) limit (acc ++ [x]) rest.
Proof.
  intros Hx Hn Hd. cbn [read_groups]. rewrite v4_attempt_none.
  - unfold read_separator. destruct (0 <? i); cbn [app]; rewrite ?N.eqb_refl, (read_number_hex x rest Hx Hn); reflexivity.
  - destruct (0 <? i); cbn [app]; [intros [E|H]; [discriminate E|exact (Hd H)]|exact Hd].
Qed.

Lemma read_groups_colon xs : forall k i limit acc rest,
  0 < i -> Forall (fun x => x < 65536) xs -> stop rest -> ~ In 46 rest ->
  read_groups (length xs + k) i limit acc (colon_groups xs ++ rest)
  = read_groups k (i + llen xs) limit (acc ++ xs) rest.
Proof.
  induction xs as [|x xs IH]; intros k i limit acc rest Hi Hx Hs Hd.
  - cbn [length plus colon_groups flat_map app]. rewrite llen_nil, N.add_0_r, app_nil_r. reflexivity.
  - inversion Hx as [|? ? Hx0 Hx']; subst.
    pose proof (read_groups_step (length xs + k) i limit acc x _ Hx0 (colon_nondigit xs rest Hs)
                  (nodot_groups x xs rest Hx0 Hx' Hd)) as S.
    apply N.ltb_lt in Hi. rewrite Hi in S. apply N.ltb_lt in Hi.
    cbn [length plus colon_groups flat_map]. fold (colon_groups xs). rewrite <- !app_assoc. cbn [app] in S |- *.
    rewrite S, (IH k (i + 1) limit (acc ++ [x]) rest) by (assumption || lia).
    rewrite llen_cons, <- app_assoc. cbn [app]. f_equal. lia.
Qed.

Lemma read_groups_list xs : forall k limit rest,
  Forall (fun x => x < 65536) xs -> stop rest -> ~ In 46 rest ->
  read_groups (length xs + k) 0 limit [] (fmt_subslice xs ++ rest)
  = read_groups k (llen xs) limit xs rest.
Proof.
  intros k limit rest Hx Hs Hd. destruct xs as [|x xs]; [reflexivity|].
  inversion Hx as [|? ? Hx0 Hx']; subst.
  rewrite fmt_subslice_cons, <- app_assoc. cbn [length plus].
  rewrite (read_groups_step _ 0 limit [] x _ Hx0 (colon_nondigit xs rest Hs) (nodot_groups x xs rest Hx0 Hx' Hd)).
  rewrite (read_groups_colon xs k (0 + 1) limit ([] ++ [x]) rest) by (assumption || lia).
  cbn [app]. rewrite llen_cons. f_equal; lia.
Qed.

Lemma read_groups_stop k i limit acc rest : stop rest -> ~ In 46 rest ->
  read_groups k i limit acc rest = (acc, false, rest).
Proof.
  intros Hs Hd. destruct k as [|k]; [reflexivity|]. cbn [read_groups].
  rewrite (v4_attempt_none i limit rest Hd), (read_group_stop i rest Hs). reflexivity.
Qed.

Definition of_pat (pat : list bool) : list N := map (fun b : bool => if b then 0 else 1) pat.

Lemma zero_span_pat g : forall i a b c d,
  zero_span g i a b c d = zero_span (of_pat (map (fun x => x =? 0) g)) i a b c d.
Proof.
  induction g as [|x g IH]; intros i a b c d; [reflexivity|].
  cbn [map of_pat zero_span]. fold (of_pat (map (fun x => x =? 0) g)).
  destruct (x =? 0); cbn [N.eqb]; [change (0 =? 0) with true|change (1 =? 0) with false]; cbv iota;
    [destruct (b <? d + 1)|]; apply IH.
Qed.

Fixpoint pats (n : nat) : list (list bool) :=
  match n with
  | O => [[]]
  | S m => flat_map (fun p => [true :: p; false :: p]) (pats m)
  end.

Lemma in_pats l : In l (pats (length l)).
Proof.
  induction l as [|b l IH]; [left; reflexivity|]. cbn [length pats]. apply in_flat_map. exists l. split; [exact IH|].
  destruct b; [left|right; left]; reflexivity.
Qed.

Definition span_ok (pat : list bool) : bool :=
  let '(s, l) := zero_span (of_pat pat) 0 0 0 0 0 in
  (l <=? 1) || ((s + l <=? 8) && forallb (fun b : bool => b) (firstn (N.to_nat l) (skipn (N.to_nat s) pat))).

Lemma span_ok_sweep : forallb span_ok (pats 8) = true.
Proof. vm_compute. reflexivity. Qed.

Lemma all_zero_zeros m : Forall (fun x => x = 0) m -> m = zeros (length m).
Proof. induction 1 as [|x m -> _ IH]; [reflexivity|]. cbn [length zeros]. rewrite <- IH. reflexivity. Qed.

(* the span is a run of zeros inside the address (when it is used at all) *)
Lemma zero_span_facts g s l : length g = 8%nat -> zero_span g 0 0 0 0 0 = (s, l) -> 1 < l ->
  (N.to_nat s + N.to_nat l <= 8)%nat
  /\ g = firstn (N.to_nat s) g ++ zeros (N.to_nat l) ++ skipn (N.to_nat (s + l)) g.
Proof.
  intros Hlen Hz Hl. rewrite zero_span_pat in Hz.
  pose proof span_ok_sweep as S. rewrite forallb_forall in S.
  assert (Hin : In (map (fun x => x =? 0) g) (pats 8)).
  { rewrite <- Hlen, <- (map_length (fun x => x =? 0) g). apply in_pats. }
  specialize (S _ Hin). unfold span_ok in S. rewrite Hz in S.
  apply orb_true_iff in S as [S|S]; [apply N.leb_le in S; lia|].
  apply andb_true_iff in S as [S1 S2]. apply N.leb_le in S1.
  assert (Hb : (N.to_nat s + N.to_nat l <= 8)%nat) by lia.
  split; [exact Hb|].
  rewrite skipn_map, firstn_map in S2.
  assert (Hmid : Forall (fun x => x = 0) (firstn (N.to_nat l) (skipn (N.to_nat s) g))).
  { apply Forall_forall. intros x Hx. rewrite forallb_forall in S2.
    specialize (S2 (x =? 0) (in_map (fun x => x =? 0) _ x Hx)). apply N.eqb_eq. exact S2. }
  apply all_zero_zeros in Hmid.
  rewrite firstn_length, skipn_length, Hlen in Hmid.
  replace (Nat.min (N.to_nat l) (8 - N.to_nat s)) with (N.to_nat l) in Hmid by lia.
  rewrite <- Hmid.
  replace (N.to_nat (s + l)) with (N.to_nat s + N.to_nat l)%nat by lia.
  rewrite skipn_add, firstn_skipn, firstn_skipn. reflexivity.
Qed.

Definition wf_v6 (g : list N) : Prop := length g = 8%nat /\ Forall (fun x => x < 65536) g.

Definition addrc (c : N) : Prop := hexc c = true \/ c = 58 \/ c = 46.

Lemma fmt_subslice_chars xs : Forall (fun x => x < 65536) xs -> Forall addrc (fmt_subslice xs).
Proof.
  intros H. destruct xs as [|x xs]; [constructor|]. rewrite fmt_subslice_cons.
  inversion H as [|? ? Hx Hxs]; subst. apply Forall_app. split.
  - eapply Forall_impl; [|apply show_hex16_chars; exact Hx]. intros c Hc. left. exact Hc.
  - clear Hx H. induction Hxs as [|y ys Hy _ IH]; [constructor|]. cbn [colon_groups flat_map]. fold (colon_groups ys).
    constructor; [right; left; reflexivity|]. apply Forall_app. split; [|exact IH].
    eapply Forall_impl; [|apply show_hex16_chars; exact Hy]. intros c Hc. left. exact Hc.
Qed.

Lemma fmt_subslice_nodot xs : Forall (fun x => x < 65536) xs -> ~ In 46 (fmt_subslice xs).
Proof.
  intros H. destruct xs as [|x xs]; [intros []|]. rewrite fmt_subslice_cons. inversion H; subst.
  intros Hin. apply in_app_or in Hin as [Hin|Hin]; [eapply nodot_hex; eassumption|eapply nodot_colon; eassumption].
Qed.

Lemma addrc_ascii c : addrc c -> c < 128.
Proof.
  intros [H|[->| ->]]; [|reflexivity|reflexivity]. unfold hexc in H. apply orb_true_iff in H as [H|H].
  - apply is_digit_range in H. lia.
  - apply andb_true_iff in H as [_ H]. apply N.leb_le in H. lia.
Qed.

Lemma forall_firstn {A} (P : A -> Prop) n l : Forall P l -> Forall P (firstn n l).
Proof. intros H. rewrite <- (firstn_skipn n l) in H. apply Forall_app in H. tauto. Qed.

Lemma parse_compressed (A B : list N) :
  Forall (fun x => x < 65536) A -> Forall (fun x => x < 65536) B -> (length A + length B <= 6)%nat ->
  parse_ip_bytes (fmt_subslice A ++ [58; 58] ++ fmt_subslice B)
  = Some (V6 (A ++ zeros (8 - length A - length B) ++ B)).
Proof.
  intros HA HB Hlen. unfold parse_ip_bytes.
  assert (Hnd2 : ~ In 46 ([58; 58] ++ fmt_subslice B)).
  { cbn [app]. intros [E|[E|Hin]]; try discriminate. exact (fmt_subslice_nodot B HB Hin). }
  rewrite read_ipv4_nodot by (intros Hin; apply in_app_or in Hin as [Hin|Hin]; [exact (fmt_subslice_nodot A HA Hin)|exact (Hnd2 Hin)]).
  unfold read_ipv6_addr.
  assert (Hstop : stop ([58; 58] ++ fmt_subslice B)) by (right; eexists; reflexivity).
  replace 8%nat with (length A + (8 - length A))%nat at 1 by lia.
  rewrite (read_groups_list A _ 8 _ HA Hstop Hnd2), (read_groups_stop _ _ _ _ _ Hstop Hnd2).
  assert (LA : llen A = N.of_nat (length A)) by reflexivity.
  assert (llen A =? 8 = false) as -> by (apply N.eqb_neq; lia).
  cbn [app].
  assert (Hstop0 : stop []) by (left; reflexivity).
  set (limit := 8 - (llen A + 1)).
  assert (Hlim : N.to_nat limit = (length B + (7 - length A - length B))%nat) by (unfold limit; lia).
  rewrite Hlim, <- (app_nil_r (fmt_subslice B)).
  rewrite (read_groups_list B _ limit [] HB Hstop0 (fun x => x)), (read_groups_stop _ _ _ _ _ Hstop0 (fun x => x)).
  cbn [is_nil]. reflexivity.
Qed.

Lemma parse_full (g : list N) : wf_v6 g -> parse_ip_bytes (fmt_subslice g) = Some (V6 g).
Proof.
  intros [Hlen Hg]. unfold parse_ip_bytes.
  rewrite (read_ipv4_nodot _ (fmt_subslice_nodot g Hg)). unfold read_ipv6_addr.
  assert (Hstop0 : stop []) by (left; reflexivity).
  rewrite <- (app_nil_r (fmt_subslice g)).
  replace 8%nat with (length g + 0)%nat at 1 by lia.
  rewrite (read_groups_list g 0 8 [] Hg Hstop0 (fun x => x)). cbn [read_groups].
  unfold llen. rewrite Hlen. reflexivity.
Qed.

Lemma mapped_shape g v : ipv4_mapped g = Some v ->
  exists g6 g7, g = [0; 0; 0; 0; 0; 65535; g6; g7] /\ v = g6 * 65536 + g7.
Proof.
  unfold ipv4_mapped.
  destruct g as [|a [|b [|c [|d [|e [|f [|g6 [|g7 [|x t]]]]]]]]]; try discriminate.
  destruct ((a =? 0) && (b =? 0) && (c =? 0) && (d =? 0) && (e =? 0) && (f =? 65535)) eqn:E; [|discriminate].
  rewrite !andb_true_iff, !N.eqb_eq in E. destruct E as [[[[[-> ->] ->] ->] ->] ->].
  intros [= <-]. exists g6, g7. split; reflexivity.
Qed.

Lemma parse_mapped g6 g7 : g6 < 65536 -> g7 < 65536 ->
  parse_ip_bytes ([58; 58; 102; 102; 102; 102; 58] ++ show_v4 (g6 * 65536 + g7))
  = Some (V6 [0; 0; 0; 0; 0; 65535; g6; g7]).
Proof.
  intros H6 H7. set (v := g6 * 65536 + g7). assert (Hv : v < 4294967296) by (unfold v; lia).
  unfold parse_ip_bytes. cbn [app].
  assert (read_ipv4_addr (58 :: 58 :: 102 :: 102 :: 102 :: 102 :: 58 :: show_v4 v) = None) as -> by reflexivity.
  unfold read_ipv6_addr.
  assert (read_groups 8 0 8 [] (58 :: 58 :: 102 :: 102 :: 102 :: 102 :: 58 :: show_v4 v)
          = ([], false, 58 :: 58 :: 102 :: 102 :: 102 :: 102 :: 58 :: show_v4 v)) as -> by reflexivity.
  change (llen (@nil N) =? 8) with false. cbv iota.
  change (N.to_nat (8 - (llen (@nil N) + 1))) with 7%nat. change (8 - (llen (@nil N) + 1)) with 7.
  assert (R : read_groups 7 0 7 [] (102 :: 102 :: 102 :: 102 :: 58 :: show_v4 v)
              = ([65535; v / 65536; v mod 65536], true, [])).
  { cbn [read_groups].
    assert ((if 0 + 1 <? 7 then read_separator 58 0 read_ipv4_addr (102 :: 102 :: 102 :: 102 :: 58 :: show_v4 v) else None) = None) as -> by reflexivity.
    unfold read_separator at 1. change (0 <? 0) with false. cbv iota.
    change (102 :: 102 :: 102 :: 102 :: 58 :: show_v4 v) with (show_hex16 65535 ++ 58 :: show_v4 v).
    rewrite (read_number_hex 65535 (58 :: show_v4 v) eq_refl eq_refl).
    change (0 + 1 + 1 <? 7) with true. cbv iota.
    unfold read_separator at 1. change (0 <? 0 + 1) with true. change (58 =? 58) with true. cbv iota.
    rewrite <- (app_nil_r (show_v4 v)). rewrite (read_ipv4_show v [] Hv I). reflexivity. }
  rewrite R. cbn [length zeros app is_nil Nat.sub].
  assert (E1 : v / 65536 = g6) by (unfold v; rewrite N.div_add_l by discriminate; rewrite (N.div_small g7) by exact H7; lia).
  assert (E2 : v mod 65536 = g7) by (unfold v; rewrite N.add_comm, N.mod_add by discriminate; apply N.mod_small; exact H7).
  rewrite E1, E2. reflexivity.
Qed.

Lemma show_v4_addrc a : Forall addrc (show_v4 a).
Proof.
  eapply Forall_impl; [|apply show_v4_chars].
  intros c [Hc| ->]; [left; unfold hexc; rewrite Hc; reflexivity|right; right; reflexivity].
Qed.

Theorem show_v6_chars g : wf_v6 g -> Forall addrc (show_v6 g) /\ show_v6 g <> [].
Proof.
  intros [Hlen Hg]. unfold show_v6. destruct (ipv4_mapped g) as [v|].
  - split; [|discriminate]. cbn [app]. repeat (constructor; [first [right; left; reflexivity | left; reflexivity]|]). apply show_v4_addrc.
  - destruct (zero_span g 0 0 0 0 0) as [s l]. destruct (1 <? l).
    + split; [apply Forall_app; split; [|do 2 (constructor; [right; left; reflexivity|])];
              apply fmt_subslice_chars; [apply forall_firstn|apply Forall_skipn]; exact Hg|].
      intros E. apply app_eq_nil in E as [_ E]. discriminate.
    + split; [apply fmt_subslice_chars; exact Hg|].
      destruct g as [|x g]; [discriminate|]. rewrite fmt_subslice_cons.
      intros E. apply app_eq_nil in E as [E _]. exact (show_hex16_nonempty x E).
Qed.

(* what Display prints for an IPv6 address reads back as that address *)
Theorem ipv6_roundtrip g : wf_v6 g -> parse_ip (show_v6 g) = Some (V6 g).
Proof.
  intros Hwf. pose proof Hwf as [Hlen Hg]. unfold parse_ip.
  rewrite utf8_ascii by (eapply Forall_impl; [|apply (show_v6_chars g Hwf)]; apply addrc_ascii).
  unfold show_v6. destruct (ipv4_mapped g) as [v|] eqn:Em.
  - destruct (mapped_shape g v Em) as (g6 & g7 & -> & ->).
    rewrite Forall_forall in Hg. apply parse_mapped; apply Hg; cbn [In]; tauto.
  - destruct (zero_span g 0 0 0 0 0) as [s l] eqn:Ez.
    destruct (1 <? l) eqn:El; [|apply parse_full; exact Hwf].
    apply N.ltb_lt in El. destruct (zero_span_facts g s l Hlen Ez El) as [Hb Hdec].
    set (A := firstn (N.to_nat s) g) in *. set (B := skipn (N.to_nat (s + l)) g) in *.
    assert (LA : length A = N.to_nat s) by (unfold A; rewrite firstn_length; lia).
    assert (LB : length B = (8 - N.to_nat s - N.to_nat l)%nat) by (unfold B; rewrite skipn_length; lia).
    rewrite (parse_compressed A B (forall_firstn _ _ _ Hg) (Forall_skipn _ _ _ Hg)) by lia. rewrite LA, LB.
    replace (8 - N.to_nat s - (8 - N.to_nat s - N.to_nat l))%nat with (N.to_nat l) by lia.
    rewrite <- Hdec. reflexivity.
Qed.
