(* Server/ServerProofs.v -- lemmas connecting Server/ServerModel.v with Server/ServerSpec.v
   (property C09). *)
From RV Require Import Base.Prelude Base.Cursor Name.NameModel Wire.WireTypes Wire.WireModel
     Wire.WireDecodeProofs Zone.ZoneModel Resolver.LocalModel Server.ServerModel Server.ServerSpec.
From RV Require Base.PreludeFacts Wire.WireGrammar Wire.WireEncodeProofs Resolver.LocalProofs.

Lemma id_of_prefix_wire_id bs : id_of_prefix bs = wire_id bs.
Proof. destruct bs as [|a [|b t]]; reflexivity. Qed.

Lemma wire_id_none bs : wire_id bs = None <-> llen bs < 2.
Proof.
  destruct bs as [|a [|b t]]; unfold llen; cbn [wire_id length]; split; intro H;
    try reflexivity; try discriminate; lia.
Qed.

(* a message that decodes carries the first two octets as its id *)
Lemma decode_ok_id bs m : decode bs = Ok m -> wire_id bs = Some (h_id (m_header m)).
Proof.
  intro H. pose proof (decode_header_id bs) as Hid. unfold decode in H.
  destruct (decode_header (cur_new bs)) as [[h c0]| | |]; cbn [bind] in H; try discriminate.
  cbv zeta in H.
  repeat match type of H with
         | bind ?r _ = Ok _ => destruct r as [[? ?]| | |]; cbn [bind] in H; try discriminate
         end.
  injection H as <-. exact Hid.
Qed.

Lemma existsb_code_In {B} (t : N) (tbl : list (N * B)) :
  existsb (fun p => N.eqb (fst p) t) tbl = true <-> In t (map fst tbl).
Proof.
  rewrite existsb_exists, in_map_iff.
  split; intros (p & H1 & H2); exists p; [apply N.eqb_eq in H2|apply N.eqb_eq in H1]; auto.
Qed.

(* KNOWN_QTYPES is the codes of the two tables, in that order *)
Lemma qtype_unknown_spec t : qtype_is_unknown t = true <-> ~ In t KNOWN_QTYPES.
Proof.
  change KNOWN_QTYPES with (map fst rtype_table ++ map fst qtype_table).
  unfold qtype_is_unknown, rtype_is_unknown, rtype_known.
  rewrite in_app_iff, andb_true_iff, !negb_true_iff, <- !not_true_iff_false, !existsb_code_In. tauto.
Qed.

Lemma qclass_unknown_spec c : qclass_is_unknown c = true <-> ~ In c KNOWN_QCLASSES.
Proof.
  unfold qclass_is_unknown, rclass_is_unknown, QC_Wildcard, RC_IN, KNOWN_QCLASSES.
  rewrite andb_true_iff, !negb_true_iff, !N.eqb_neq. cbn [In]. intuition auto.
Qed.

Lemma question_unknown_spec q :
  question_is_unknown q = true <-> (~ In (q_type q) KNOWN_QTYPES \/ ~ In (q_class q) KNOWN_QCLASSES).
Proof.
  unfold question_is_unknown. rewrite orb_true_iff, qtype_unknown_spec, qclass_unknown_spec. reflexivity.
Qed.

Lemma triage_spec m :
  match triage m with
  | TRefused _ => must_refuse m
  | TNone => ~ must_refuse m /\ m_questions m = []
  | TOne q => ~ must_refuse m /\ m_questions m = [q]
  end.
Proof.
  unfold triage, must_refuse. destruct (m_questions m) as [|q [|q2 rest]].
  - split; [|reflexivity]. intros [(a & b & r & H)|(a & H & _)]; discriminate H.
  - pose proof (question_unknown_spec q) as Hu. destruct (question_is_unknown q).
    + right. exists q. split; [reflexivity|]. apply Hu. reflexivity.
    + split; [|reflexivity]. intros [(a & b & r & H)|(a & H & Ha)]; [discriminate H|].
      injection H as <-. apply Hu in Ha. discriminate Ha.
  - left. eauto.
Qed.

Lemma triage_one m q : m_questions m = [q] -> ~ must_refuse m -> triage m = TOne q.
Proof.
  intros Hqs Hn. pose proof (triage_spec m) as Ht.
  destruct (triage m) as [|q'|why]; [| |contradiction]; destruct Ht as [_ Ht]; congruence.
Qed.

Lemma triage_one_inv m q : triage m = TOne q -> ~ must_refuse m.
Proof. intro H. pose proof (triage_spec m) as Ht. rewrite H in Ht. apply Ht. Qed.

(* Every reply to a query [query] has this form: id, opcode, RD and the questions echoed, QR set,
   TC clear, no additional records; what varies is RA and the four things [outcome_of] reads. *)
Definition reply_with (query : message) (ra : bool) (o : outcome) : message :=
  {| m_header := {| h_id := h_id (m_header query); h_qr := true; h_opcode := h_opcode (m_header query);
                    h_aa := snd (fst o); h_tc := false; h_rd := h_rd (m_header query); h_ra := ra;
                    h_rcode := snd o |};
     m_questions := m_questions query; m_answers := fst (fst (fst o)); m_authority := snd (fst (fst o));
     m_additional := [] |}.

Lemma outcome_of_reply_with query ra o : outcome_of (reply_with query ra o) = o.
Proof. destruct o as [[[an au] aa] rc]. reflexivity. Qed.

Lemma spec_outcome_not_refused x : snd (spec_outcome x) <> RCODE_Refused.
Proof.
  destruct x as [[rrs soa|soa|[|r rrs] [soa|]]|e| |]; cbn; discriminate.
Qed.

Section Srv.
  Variable authoritative_only : bool.
  Variable resolve : bool -> question -> res rerror resolved.
  (* A panic inside the resolver kills the task that handles the message.  reply_or_silence (and
     udp_served_or_silence below, through it) needs a resolver that returns; the other theorems of
     this section carry the premise only because their statements are written inside it: their
     proofs go through handle_query / handle_standard, which do not use it. *)
  Hypothesis resolve_returns : forall r q, resolve r q <> Panic /\ resolve r q <> OutOfFuel.

  Notation rabr := (resolve_and_build_response authoritative_only resolve).
  Notation handle := (handle_raw_message authoritative_only resolve).

  (* answers, authority, AA and RCODE of the reply to a standard query *)
  Definition outcome_for (query : message) : res unit outcome :=
    match triage query with
    | TRefused _ => Ok ([], [], false, RCODE_Refused)
    | TNone => Ok ([], [], false, RCODE_ServerFailure)
    | TOne q => match resolve (h_rd (m_header query) && negb authoritative_only) q with
                | Panic => Panic
                | OutOfFuel => OutOfFuel
                | x => Ok (spec_outcome x)
                end
    end.

  Lemma rabr_nf query :
    rabr query = let* o := outcome_for query in Ok (reply_with query (negb authoritative_only) o).
  Proof.
    unfold resolve_and_build_response, outcome_for.
    destruct (triage query) as [|q|why]; [reflexivity| |reflexivity].
    cbn [set_ra make_response with_header m_header h_ra].
    destruct (resolve _ q) as [[rrs soa|soa|rrs [soa|]]|e| |]; try reflexivity; destruct rrs; reflexivity.
  Qed.

  Lemma outcome_for_spec m o :
    outcome_for m = Ok o ->
    match triage m with
    | TRefused _ => o = ([], [], false, RCODE_Refused)
    | TNone => o = ([], [], false, RCODE_ServerFailure)
    | TOne q => o = spec_outcome (resolve (h_rd (m_header m) && negb authoritative_only) q)
    end.
  Proof.
    unfold outcome_for. destruct (triage m) as [|q|why]; [congruence| |congruence].
    destruct (resolve _ q); congruence.
  Qed.

  Lemma outcome_for_returns m : exists o, outcome_for m = Ok o.
  Proof using resolve_returns.
    unfold outcome_for. destruct (triage m) as [|q|why]; eauto.
    destruct (resolve_returns (h_rd (m_header m) && negb authoritative_only) q) as [Hp Hf].
    destruct (resolve _ q); eauto; contradiction.
  Qed.

  (* handle_raw_message on a parseable query; the NOTIMP reply has RA set, left there by
     make_response *)
  Lemma handle_query bs m :
    query_of bs m ->
    handle bs = if h_opcode (m_header m) =? OPCODE_Standard
                then let* o := outcome_for m in Ok (Some (reply_with m (negb authoritative_only) o))
                else Ok (Some (reply_with m true ([], [], false, RCODE_NotImplemented))).
  Proof.
    intros [Hd Hq]. unfold handle_raw_message. rewrite Hd, Hq, rabr_nf.
    destruct (h_opcode (m_header m) =? OPCODE_Standard); [|reflexivity].
    destruct (outcome_for m); reflexivity.
  Qed.

  Lemma handle_standard bs m r :
    query_of bs m -> h_opcode (m_header m) = OPCODE_Standard -> handle bs = Ok (Some r) ->
    exists o, outcome_for m = Ok o /\ r = reply_with m (negb authoritative_only) o.
  Proof.
    intros Hq Ho H. rewrite (handle_query _ _ Hq), Ho, N.eqb_refl in H.
    destruct (outcome_for m) as [o| | |]; try discriminate H. injection H as <-. eauto.
  Qed.

  (* ... on one question of known type and class, as a function of what the resolver returns *)
  Lemma handle_one bs m q :
    query_of bs m -> h_opcode (m_header m) = OPCODE_Standard -> m_questions m = [q] -> ~ must_refuse m ->
    handle bs = match resolve (h_rd (m_header m) && negb authoritative_only) q with
                | Panic => Panic
                | OutOfFuel => OutOfFuel
                | x => Ok (Some (reply_with m (negb authoritative_only) (spec_outcome x)))
                end.
  Proof.
    intros Hq Ho Hqs Hnr. rewrite (handle_query _ _ Hq), Ho, N.eqb_refl. unfold outcome_for.
    rewrite (triage_one m q Hqs Hnr). destruct (resolve _ q); reflexivity.
  Qed.

  (* ... on input that does not decode *)
  Lemma handle_garbage bs e :
    decode bs = Err e -> handle bs = Ok (option_map make_format_error_response (wire_id bs)).
  Proof.
    intro E. unfold handle_raw_message. rewrite E, (decode_err_first _ _ E). reflexivity.
  Qed.

  (* the three kinds of reply *)
  Lemma handle_cases bs r :
    handle bs = Ok (Some r) ->
    (exists m, query_of bs m
               /\ ((h_opcode (m_header m) = OPCODE_Standard
                    /\ exists o, outcome_for m = Ok o /\ r = reply_with m (negb authoritative_only) o)
                   \/ (h_opcode (m_header m) <> OPCODE_Standard
                       /\ r = reply_with m true ([], [], false, RCODE_NotImplemented))))
    \/ (exists e id, decode bs = Err e /\ wire_id bs = Some id /\ r = make_format_error_response id).
  Proof.
    intro H. destruct (decode bs) as [m|e| |] eqn:E;
      [|right|unfold handle_raw_message in H; rewrite E in H; discriminate H..].
    - destruct (h_qr (m_header m)) eqn:Eq;
        [unfold handle_raw_message in H; rewrite E, Eq in H; discriminate H|].
      assert (Hq : query_of bs m) by (split; assumption).
      left. exists m. split; [exact Hq|].
      destruct (N.eqb_spec (h_opcode (m_header m)) OPCODE_Standard) as [Ho|Ho];
        [left|right]; (split; [exact Ho|]).
      + exact (handle_standard bs m r Hq Ho H).
      + apply N.eqb_neq in Ho. rewrite (handle_query _ _ Hq), Ho in H. injection H as <-. reflexivity.
    - rewrite (handle_garbage _ _ E) in H.
      destruct (wire_id bs) as [id|]; [|discriminate H]. injection H as <-. eauto.
  Qed.

  Theorem reply_or_silence bs :
    bytes_ok bs ->
    (silent_input bs /\ handle bs = Ok None)
    \/ (~ silent_input bs
        /\ exists r, handle bs = Ok (Some r)
                     /\ h_qr (m_header r) = true
                     /\ wire_id bs = Some (h_id (m_header r))).
  Proof.
    intro Hbs. destruct (decode_total bs Hbs) as [Hp Hf].
    destruct (decode bs) as [m|e| |] eqn:E; [| |congruence|congruence].
    - destruct (h_qr (m_header m)) eqn:Eqr.
      + left. split; [right; eauto|]. unfold handle_raw_message. rewrite E, Eqr. reflexivity.
      + assert (Hq : query_of bs m) by (split; assumption).
        right. rewrite (handle_query _ _ Hq), (decode_ok_id _ _ E).
        split; [intros [Hs|(m' & Hm' & Hq')]; [apply wire_id_none in Hs; rewrite (decode_ok_id _ _ E) in Hs|]; congruence|].
        destruct (h_opcode (m_header m) =? OPCODE_Standard);
          [destruct (outcome_for_returns m) as (o & ->)|]; eexists; (split; [reflexivity|]); cbn; auto.
    - rewrite (handle_garbage _ _ E). destruct (wire_id bs) as [id|] eqn:Ew; cbn [option_map].
      + right. split; [|eexists; split; [reflexivity|]; cbn; auto].
        intros [Hs|(m' & Hm' & _)]; [apply wire_id_none in Hs|]; congruence.
      + left. split; [left; apply wire_id_none; exact Ew|reflexivity].
  Qed.

  (* opcode, RD and the questions of a parseable query come back *)
  Theorem reply_echo bs m r :
    query_of bs m -> handle bs = Ok (Some r) ->
    h_opcode (m_header r) = h_opcode (m_header m)
    /\ h_rd (m_header r) = h_rd (m_header m)
    /\ m_questions r = m_questions m.
  Proof using resolve_returns.
    intros Hq H. rewrite (handle_query _ _ Hq) in H.
    destruct (h_opcode (m_header m) =? OPCODE_Standard);
      [destruct (outcome_for m); try discriminate H|]; injection H as <-; cbn; auto.
  Qed.

  Theorem formerr_on_garbage bs e :
    decode bs = Err e -> 2 <= llen bs ->
    exists r, handle bs = Ok (Some r)
              /\ h_rcode (m_header r) = RCODE_FormatError
              /\ h_qr (m_header r) = true
              /\ wire_id bs = Some (h_id (m_header r))
              /\ m_questions r = [] /\ m_answers r = [] /\ m_authority r = [] /\ m_additional r = [].
  Proof.
    intros E Hl. rewrite (handle_garbage _ _ E). destruct (wire_id bs) as [id|] eqn:Ew.
    - eexists. split; [reflexivity|]. cbn. auto 10.
    - apply wire_id_none in Ew. lia.
  Qed.

  Theorem notimp_on_opcode bs m :
    query_of bs m -> h_opcode (m_header m) <> OPCODE_Standard ->
    exists r, handle bs = Ok (Some r)
              /\ h_rcode (m_header r) = RCODE_NotImplemented
              /\ m_answers r = [] /\ m_authority r = [] /\ m_additional r = [].
  Proof.
    intros Hq Ho. rewrite (handle_query _ _ Hq).
    apply N.eqb_neq in Ho. rewrite Ho. eexists. split; [reflexivity|]. cbn. auto.
  Qed.

  (* REFUSED exactly for several questions or an unknown type or class *)
  Theorem refused_rules bs m r :
    query_of bs m -> h_opcode (m_header m) = OPCODE_Standard -> handle bs = Ok (Some r) ->
    (h_rcode (m_header r) = RCODE_Refused <-> must_refuse m)
    /\ (must_refuse m -> m_answers r = [] /\ m_authority r = [] /\ h_aa (m_header r) = false).
  Proof using resolve_returns.
    intros Hq Ho H. destruct (handle_standard _ _ _ Hq Ho H) as (o & Hoc & ->).
    apply outcome_for_spec in Hoc. pose proof (triage_spec m) as Ht.
    cbn [reply_with m_header h_rcode h_aa m_answers m_authority].
    destruct (triage m) as [|q|why]; subst o.
    - destruct Ht as [Hn _]. split; [split; [discriminate|contradiction]|contradiction].
    - destruct Ht as [Hn _]. split; [split; [|contradiction]|contradiction].
      intro Hrc. elim (spec_outcome_not_refused _ Hrc).
    - repeat split; auto.
  Qed.

  (* on replies to standard queries RA says whether recursion is offered *)
  Theorem ra_iff_recursion bs m r :
    query_of bs m -> h_opcode (m_header m) = OPCODE_Standard -> handle bs = Ok (Some r) ->
    h_ra (m_header r) = negb authoritative_only.
  Proof using resolve_returns.
    intros Hq Ho H. destruct (handle_standard _ _ _ Hq Ho H) as (o & _ & ->). reflexivity.
  Qed.

  (* for one question of known type and class the answer and
     authority sections, AA and RCODE are the table [spec_outcome] of what the resolver returned,
     and the resolver was asked to recurse exactly when the query wanted it and it is offered *)
  Theorem sections_are_resolver_output bs m q r :
    query_of bs m -> h_opcode (m_header m) = OPCODE_Standard ->
    m_questions m = [q] -> ~ must_refuse m -> handle bs = Ok (Some r) ->
    outcome_of r = spec_outcome (resolve (h_rd (m_header m) && negb authoritative_only) q).
  Proof using resolve_returns.
    intros Hq Ho Hqs Hnr H. destruct (handle_standard _ _ _ Hq Ho H) as (o & Hoc & ->).
    apply outcome_for_spec in Hoc. rewrite (triage_one m q Hqs Hnr) in Hoc.
    rewrite outcome_of_reply_with. exact Hoc.
  Qed.

  (* no questions: nothing to resolve, SERVFAIL *)
  Lemma no_question_servfail bs m r :
    query_of bs m -> h_opcode (m_header m) = OPCODE_Standard -> m_questions m = [] ->
    handle bs = Ok (Some r) -> outcome_of r = ([], [], false, RCODE_ServerFailure).
  Proof using resolve_returns.
    intros Hq Ho Hqs H. destruct (handle_standard _ _ _ Hq Ho H) as (o & Hoc & ->).
    apply outcome_for_spec in Hoc. unfold triage in Hoc. rewrite Hqs in Hoc.
    rewrite outcome_of_reply_with. exact Hoc.
  Qed.
End Srv.

(* what [lor 2] and [land 253] do to an octet: checked on the 256 octets *)
Lemma tc_byte_facts f (v : bool) :
  forallb (fun c => Bool.eqb (N.testbit (f c) 1) v && (N.ldiff (f c) 2 =? N.ldiff c 2))
          (map N.of_nat (seq 0 256)) = true ->
  forall c, c < 256 -> N.testbit (f c) 1 = v /\ N.ldiff (f c) 2 = N.ldiff c 2.
Proof.
  intros H c Hc. pose proof (PreludeFacts.N_lt_sweep _ 256 H c Hc) as S. cbv beta in S.
  rewrite andb_true_iff, Bool.eqb_true_iff, N.eqb_eq in S. exact S.
Qed.

Lemma llen_firstn_exact {A} k (l : list A) : k <= llen l -> llen (firstn (N.to_nat k) l) = k.
Proof. unfold llen. rewrite firstn_length. lia. Qed.

Lemma firstn_map_byte2 f n bs : (3 <= n)%nat -> firstn n (map_byte2 f bs) = map_byte2 f (firstn n bs).
Proof.
  intro Hn. destruct n as [|[|[|n]]]; try lia.
  destruct bs as [|x [|y [|c t]]]; reflexivity.
Qed.

Lemma llen_map_byte2 f bs : llen (map_byte2 f bs) = llen bs.
Proof. destruct bs as [|x [|y [|c t]]]; reflexivity. Qed.

Lemma map_byte2_tc f (v : bool) l :
  bytes_ok l -> 3 <= llen l ->
  (forall c, c < 256 -> N.testbit (f c) 1 = v /\ N.ldiff (f c) 2 = N.ldiff c 2) ->
  same_but_tc (map_byte2 f l) l /\ tc_of (map_byte2 f l) = v.
Proof.
  intros Hl H3 Hf. destruct l as [|x [|y [|c t]]]; try (unfold llen in H3; cbn [length] in H3; lia).
  assert (Hc : c < 256) by (apply Forall_inv_tail, Forall_inv_tail, Forall_inv in Hl; exact Hl).
  destruct (Hf c Hc) as [Ht Hd]. split; [right; exists x, y, (f c), c, t; auto|exact Ht].
Qed.

(* both senders cut at some [k] and set TC, or send everything with TC cleared *)
Definition framed (k : N) (bs : list byte) : list byte :=
  if k <? llen bs then firstn (N.to_nat k) (set_tc bs) else clear_tc bs.

Lemma framed_spec k bs :
  bytes_ok bs -> 3 <= k -> 3 <= llen bs ->
  llen (framed k bs) = N.min k (llen bs)
  /\ same_but_tc (framed k bs) (firstn (N.to_nat k) bs)
  /\ (tc_of (framed k bs) = true <-> k < llen bs).
Proof.
  intros Hb Hk H3. unfold framed, set_tc, clear_tc. destruct (N.ltb_spec k (llen bs)) as [E|E].
  - rewrite firstn_map_byte2, llen_map_byte2, llen_firstn_exact, N.min_l by lia.
    destruct (map_byte2_tc (fun c => N.lor c TC_SET) true (firstn (N.to_nat k) bs)) as [Hs Ht];
      [apply PreludeFacts.Forall_firstn, Hb|rewrite llen_firstn_exact; lia|exact (tc_byte_facts (fun c => N.lor c TC_SET) true eq_refl)|].
    rewrite Ht. tauto.
  - rewrite llen_map_byte2, N.min_r, firstn_all2 by (unfold llen in *; lia).
    destruct (map_byte2_tc (fun c => N.land c TC_CLEAR) false bs Hb H3
                (tc_byte_facts (fun c => N.land c TC_CLEAR) false eq_refl)) as [Hs Ht].
    rewrite Ht. repeat split; [exact Hs|discriminate|lia].
Qed.

Lemma send_udp_framed bs : 12 <= llen bs -> send_udp_bytes_to bs = Ok (framed 512 bs).
Proof.
  intro H12. unfold send_udp_bytes_to, MIN_MESSAGE, UDP_MAX, framed.
  rewrite (proj2 (N.ltb_ge _ _) H12). destruct (512 <? llen bs); reflexivity.
Qed.

Lemma send_tcp_framed bs :
  12 <= llen bs -> send_tcp_bytes bs = Ok (u16_bytes (N.min 65535 (llen bs)) ++ framed 65535 bs).
Proof.
  intro H12. unfold send_tcp_bytes, MIN_MESSAGE, TCP_MAX, framed.
  rewrite (proj2 (N.ltb_ge _ _) H12).
  destruct (N.ltb_spec (llen bs) 65536), (N.ltb_spec 65535 (llen bs)); try lia;
    [rewrite N.min_r by lia|rewrite N.min_l by lia]; reflexivity.
Qed.

Theorem udp_512_tc_exact bs :
  bytes_ok bs -> 12 <= llen bs ->
  exists out, send_udp_bytes_to bs = Ok out /\ udp_framed bs out.
Proof.
  intros Hb H12. exists (framed 512 bs). split; [exact (send_udp_framed bs H12)|].
  destruct (framed_spec 512 bs Hb) as (Hl & Hs & Ht); [lia..|].
  unfold udp_framed. rewrite Hl. split; [lia|auto].
Qed.

Theorem tcp_prefix_exact bs :
  bytes_ok bs -> 12 <= llen bs ->
  exists out, send_tcp_bytes bs = Ok out /\ tcp_framed bs out.
Proof.
  intros Hb H12. eexists. split; [exact (send_tcp_framed bs H12)|].
  destruct (framed_spec 65535 bs Hb) as (Hl & Hs & Ht); [lia..|].
  pose proof (WireEncodeProofs.u16_bytes_val (N.min 65535 (llen bs))) as Hv.
  unfold tcp_framed, u16_bytes. do 3 eexists. split; [reflexivity|]. rewrite Hl.
  split; [apply WireEncodeProofs.u16_hi_lt|]. split; [apply WireEncodeProofs.u16_lo_lt|].
  split; [symmetry; apply Hv; lia|auto].
Qed.

(* Every serialised message has at least 12 octets: the panic!() sites of util/net.rs are
   unreachable from the listen loops.  No writer of the encoder shortens the buffer. *)

Definition wl (b : wbuf) : nat := length (wb_rev b).

Lemma wl_write_octets a os b : (wl a <= wl b -> wl a <= wl (write_octets os b))%nat.
Proof. unfold wl, write_octets. cbn [wb_rev]. rewrite rev_append_rev, app_length. lia. Qed.

Lemma wl_memoise a n b : (wl a <= wl b -> wl a <= wl (memoise_name n b))%nat.
Proof.
  unfold memoise_name. destruct (negb (is_root n) && _); [|auto].
  destruct ((wb_len b <? 65536) && (wb_len b <? 16384)); auto.
Qed.

Lemma wl_patch a at_ v b : (wl a <= wl b -> wl a <= wl (patch_u16 at_ v b))%nat.
Proof.
  unfold wl, patch_u16. cbn [wb_rev]. rewrite app_length. cbn [length].
  rewrite firstn_length, skipn_length. lia.
Qed.

Create HintDb wl.
#[local] Hint Resolve wl_write_octets wl_memoise wl_patch : wl.

Lemma wl_write_labels a ls : forall b, (wl a <= wl b -> wl a <= wl (write_labels ls b))%nat.
Proof.
  unfold write_labels, write_u8. induction ls as [|l ls IH]; intros b H; cbn [fold_left]; auto with wl.
Qed.
#[local] Hint Resolve wl_write_labels : wl.

Lemma wl_encode_name a n c b : (wl a <= wl b -> wl a <= wl (encode_name n c b))%nat.
Proof.
  unfold encode_name, write_u16. destruct (if c then alookup dname_eqb n (wb_ptrs b) else None); auto with wl.
Qed.
#[local] Hint Resolve wl_encode_name : wl.

Lemma wl_encode_questions a qs :
  forall b, (wl a <= wl b -> wl a <= wl (fold_left (fun acc q => encode_question q acc) qs b))%nat.
Proof.
  unfold encode_question, write_u16. induction qs as [|q qs IH]; intros b H; cbn [fold_left]; auto with wl.
Qed.

Lemma wl_encode_rr a r b b' : encode_rr r b = Ok b' -> (wl a <= wl b -> wl a <= wl b')%nat.
Proof.
  unfold encode_rr. cbv zeta.
  match goal with |- (if ?c then _ else _) = _ -> _ => destruct c end; [|discriminate].
  intros H Ha. injection H as <-.
  destruct (rr_data r); cbn [encode_rdata]; unfold write_u32, write_u16; auto 20 with wl.
Qed.

Lemma wl_encode_rrs a rs : forall b b', encode_rrs rs b = Ok b' -> (wl a <= wl b -> wl a <= wl b')%nat.
Proof.
  induction rs as [|r rs IH]; intros b b' H Ha; cbn [encode_rrs] in H.
  - injection H as <-. exact Ha.
  - destruct (encode_rr r b) as [b1| | |] eqn:E; cbn [bind] in H; try discriminate.
    exact (IH _ _ H (wl_encode_rr a r b b1 E Ha)).
Qed.

Theorem encode_at_least_12 m bs : encode m = Ok bs -> 12 <= llen bs.
Proof.
  unfold encode. intro H. cbv zeta in H.
  repeat match type of H with
         | bind ?r _ = Ok _ =>
           let E := fresh "E" in destruct r eqn:E; cbn [bind] in H; try discriminate
         end.
  injection H as <-.
  match goal with
  | E : encode_rrs _ (fold_left _ _ ?b0) = Ok _ |- _ <= llen (wb_octets ?w) =>
    unfold wb_octets, llen; rewrite rev_append_rev, app_nil_r, rev_length; fold (wl w);
      enough (Hw : (wl b0 <= wl w)%nat) by (change (wl b0) with 12%nat in Hw; lia)
  end.
  repeat match goal with
         | E : encode_rrs _ _ = Ok ?x |- (_ <= wl ?x)%nat => apply (wl_encode_rrs _ _ _ _ E)
         end.
  apply wl_encode_questions, le_n.
Qed.

(* the encoder itself has no panic site and no fuel *)
Lemma encode_rr_fine r b : fine (encode_rr r b).
Proof. unfold encode_rr. cbv zeta. match goal with |- fine (if ?c then _ else _) => destruct c end; [apply fine_ok|apply fine_err]. Qed.

Lemma encode_rrs_fine rs : forall b, fine (encode_rrs rs b).
Proof.
  induction rs as [|r rs IH]; intro b; cbn [encode_rrs]; [apply fine_ok|].
  apply fine_bind; [apply encode_rr_fine|]. intros b1 _. apply IH.
Qed.

Lemma usize_to_u16_fine n : fine (usize_to_u16 n).
Proof. unfold usize_to_u16. destruct (n <? 65536); [apply fine_ok|apply fine_err]. Qed.

Lemma encode_fine m : fine (encode m).
Proof.
  unfold encode.
  repeat (apply fine_bind; [apply usize_to_u16_fine|]; intros ? _).
  cbv zeta.
  repeat (apply fine_bind; [apply encode_rrs_fine|]; intros ? _).
  apply fine_ok.
Qed.

(* a reply that serialises is always sent, framed as the spec says *)
Theorem framing_never_panics m bs :
  encode m = Ok bs -> bytes_ok bs ->
  (exists out, send_udp_bytes_to bs = Ok out /\ udp_framed bs out)
  /\ (exists out, send_tcp_bytes bs = Ok out /\ tcp_framed bs out).
Proof.
  intros E Hb. pose proof (encode_at_least_12 _ _ E) as H12.
  split; [apply udp_512_tc_exact|apply tcp_prefix_exact]; assumption.
Qed.

Section Tcp.
  Variable authoritative_only : bool.
  Variable resolve : bool -> question -> res rerror resolved.

  (* the peer announced more octets than it delivered before closing its side: FORMERR carrying
     the first two delivered octets as id, silence if fewer than two arrived; an incomplete length
     prefix: silence; while the peer stays connected and silent nothing is sent *)
  Theorem tcp_short_read :
    (forall hi lo rest, llen rest < hi * 256 + lo ->
       tcp_reply_message authoritative_only resolve (hi :: lo :: rest) EndEof
       = Ok (option_map make_format_error_response (wire_id rest))
       /\ tcp_reply_message authoritative_only resolve (hi :: lo :: rest) EndIoError
          = Ok (option_map make_format_error_response (wire_id rest))
       /\ tcp_reply_message authoritative_only resolve (hi :: lo :: rest) EndOpen = Ok None)
    /\ (forall stream e, llen stream < 2 -> tcp_reply_message authoritative_only resolve stream e = Ok None)
    /\ (forall hi lo rest e, hi * 256 + lo <= llen rest ->
          tcp_reply_message authoritative_only resolve (hi :: lo :: rest) e
          = handle_raw_message authoritative_only resolve (firstn (N.to_nat (hi * 256 + lo)) rest)).
  Proof.
    split; [|split].
    - intros hi lo rest Hs. unfold tcp_reply_message, read_tcp_bytes, u16_be. cbv beta iota zeta.
      match goal with |- context[if ?c then _ else _] => destruct c eqn:E end;
        [apply N.leb_le in E; unfold byte in *; lia|].
      rewrite id_of_prefix_wire_id. cbn [tcp_error_id]. auto.
    - intros stream e Hs. apply wire_id_none in Hs.
      destruct stream as [|a [|b t]]; [destruct e; reflexivity..|discriminate Hs].
    - intros hi lo rest e Hs. unfold tcp_reply_message, read_tcp_bytes, u16_be. cbv beta iota zeta.
      match goal with |- context[if ?c then _ else _] => destruct c eqn:E end;
        [reflexivity|apply N.leb_gt in E; unfold byte in *; lia].
  Qed.
End Tcp.

(* A reply that cannot be serialised: its SERVFAIL stand-in (unserialisable_fallback of main.rs)
   always can, so every reply message reaches the wire. *)

Lemma fallback_shape r : servfail_of r (unserialisable_fallback r).
Proof. unfold servfail_of, unserialisable_fallback. cbn. auto 20. Qed.

Lemma servfail_of_unique r f : servfail_of r f -> f = unserialisable_fallback r.
Proof.
  intros (H1 & H2 & H3 & H4 & H5 & H6 & H7 & H8 & H9 & H10 & H11 & H12).
  destruct f as [[fid fqr fop faa ftc frd fra frc] fq fa fau fad]. cbn in *. subst.
  reflexivity.
Qed.

(* all the stand-in needs of the reply it replaces: a 16-bit id, a 4-bit opcode and a question
   section that fits the wire format *)
Definition fallback_ok (r : message) : Prop :=
  h_id (m_header r) < 65536 /\ h_opcode (m_header r) < 16
  /\ Forall WireGrammar.wf_question (m_questions r) /\ llen (m_questions r) < 65536.

Lemma fallback_wf r : fallback_ok r -> WireGrammar.wf_message (unserialisable_fallback r).
Proof.
  intros (Hid & Hop & Hq & _). unfold WireGrammar.wf_message, WireGrammar.wf_header, unserialisable_fallback. cbn.
  repeat split; try assumption; try constructor; try (unfold RCODE_ServerFailure; lia).
Qed.

Theorem fallback_encodes r : fallback_ok r -> exists bs, encode (unserialisable_fallback r) = Ok bs.
Proof.
  intros H. apply WireEncodeProofs.encode_succeeds; [apply fallback_wf; exact H|].
  destruct H as (_ & _ & _ & Hn). unfold WireEncodeProofs.encodable, unserialisable_fallback. cbn.
  repeat split; try exact Hn; try constructor.
Qed.

(* ... and what is sent decodes to exactly that message *)
Theorem fallback_roundtrip r bs : fallback_ok r -> encode (unserialisable_fallback r) = Ok bs ->
  bytes_ok bs /\ decode bs = Ok (unserialisable_fallback r).
Proof.
  intros H E. pose proof (fallback_wf r H) as Hwf.
  assert (Hb : bytes_ok bs) by (eapply WireEncodeProofs.encode_bytes; eauto).
  split; [exact Hb|]. apply decode_complete; [exact Hb|]. eapply WireEncodeProofs.encode_parses; eauto.
Qed.

(* whatever decodes has a question section that can be written again *)
Lemma decoded_fallback_ok bs m : bytes_ok bs -> decode bs = Ok m -> fallback_ok m.
Proof.
  intros Hb Hd.
  pose proof (decode_wf bs m Hb Hd) as ((Hid & Hop & _) & Hq & _).
  pose proof (WireEncodeProofs.parses_encodable bs m Hb (decode_sound bs m Hb Hd)) as (Hn & _).
  unfold fallback_ok. auto.
Qed.

(* a FORMERR reply carries two received octets as its id *)
Lemma formerr_fallback_ok bs r :
  bytes_ok bs -> option_map make_format_error_response (wire_id bs) = Some r -> fallback_ok r.
Proof.
  intros Hb H. destruct bs as [|a [|b t]]; try discriminate H. injection H as <-.
  apply Forall_inv_tail in Hb as Hb2. apply Forall_inv in Hb, Hb2.
  unfold fallback_ok. cbn. repeat split; try constructor; lia.
Qed.

Section Served.
  Variable authoritative_only : bool.
  Variable resolve : bool -> question -> res rerror resolved.
  Hypothesis resolve_returns : forall r q, resolve r q <> Panic /\ resolve r q <> OutOfFuel.

  Notation handle := (handle_raw_message authoritative_only resolve).

  (* every reply handle_raw_message builds has a stand-in that serialises: a reply to a query has
     the id, opcode and questions of the decoded query *)
  Lemma handle_fallback_ok bs r : bytes_ok bs -> handle bs = Ok (Some r) -> fallback_ok r.
  Proof.
    intros Hb H.
    destruct (handle_cases _ _ bs r H)
      as [(m & [Hd _] & [(_ & o & _ & ->)|(_ & ->)])|(e & id & _ & Hid & ->)].
    1, 2: exact (decoded_fallback_ok bs m Hb Hd).
    apply (formerr_fallback_ok bs _ Hb). rewrite Hid. reflexivity.
  Qed.

  Lemma tcp_reply_fallback_ok stream e r :
    bytes_ok stream -> tcp_reply_message authoritative_only resolve stream e = Ok (Some r) -> fallback_ok r.
  Proof.
    intros Hb H. unfold tcp_reply_message, read_tcp_bytes in H.
    destruct stream as [|hi [|lo rest]]; try (destruct e; discriminate).
    assert (Hr : bytes_ok rest) by (apply Forall_inv_tail, Forall_inv_tail in Hb; exact Hb).
    cbv zeta in H. destruct (u16_be hi lo <=? llen rest).
    - exact (handle_fallback_ok _ r (PreludeFacts.Forall_firstn _ _ _ Hr) H).
    - rewrite id_of_prefix_wire_id in H.
      destruct e; cbn [tcp_error_id] in H; try discriminate H;
        injection H as H; exact (formerr_fallback_ok rest r Hr H).
  Qed.

  (* the framing step never drops a reply: it sends the reply or, if that cannot be
     serialised, its SERVFAIL stand-in *)
  Lemma frame_with_sends (send : list byte -> res unit (list byte)) r :
    (forall bs, 12 <= llen bs -> exists out, send bs = Ok out) -> fallback_ok r ->
    exists sent wire out,
      sent_for r sent /\ encode sent = Ok wire /\ send wire = Ok out
      /\ frame_with send (Some r) = Ok (Some out).
  Proof.
    intros Hsend Hok. cbn [frame_with].
    destruct (encode_fine r) as [Hp Hf].
    destruct (encode r) as [bs|e| |] eqn:E; try congruence.
    - destruct (Hsend bs (encode_at_least_12 _ _ E)) as (out & Ho).
      exists r, bs, out. rewrite Ho. cbn [bind].
      split; [left; split; [eauto|reflexivity]|]. auto.
    - destruct (fallback_encodes r Hok) as (bs & Eb). rewrite Eb.
      destruct (Hsend bs (encode_at_least_12 _ _ Eb)) as (out & Ho).
      exists (unserialisable_fallback r), bs, out. rewrite Ho. cbn [bind].
      split; [right; split; [eauto|apply fallback_shape]|]. auto.
  Qed.

  (* reply_or_silence at the level of datagrams.  No premise about `to_octets`: a datagram that is
     not silent input gets exactly one datagram back, carrying the reply handle_raw_message built
     or its SERVFAIL stand-in *)
  Theorem udp_served_or_silence datagram :
    bytes_ok datagram ->
    let bs := firstn (N.to_nat 512) datagram in
    (silent_input bs /\ serve_udp authoritative_only resolve datagram = Ok None)
    \/ (~ silent_input bs
        /\ exists r sent wire out,
             handle bs = Ok (Some r)
             /\ h_qr (m_header r) = true /\ wire_id bs = Some (h_id (m_header r))
             /\ sent_for r sent /\ encode sent = Ok wire /\ send_udp_bytes_to wire = Ok out
             /\ serve_udp authoritative_only resolve datagram = Ok (Some out)).
  Proof.
    intros Hb bs. assert (Hbs : bytes_ok bs) by (apply PreludeFacts.Forall_firstn; exact Hb).
    unfold serve_udp, udp_reply_message. change (N.to_nat UDP_MAX) with (N.to_nat 512). fold bs.
    destruct (reply_or_silence authoritative_only resolve resolve_returns bs Hbs)
      as [[Hs Hn]|(Hs & r & Hr & Hq & Hi)].
    - left. rewrite Hn. split; [exact Hs|reflexivity].
    - right. split; [exact Hs|]. rewrite Hr. cbn [bind].
      destruct (frame_with_sends send_udp_bytes_to r (fun w H => ex_intro _ _ (send_udp_framed w H))
                                 (handle_fallback_ok bs r Hbs Hr))
        as (sent & wire & out & H1 & H2 & H3 & H4).
      exists r, sent, wire, out. auto 10.
  Qed.

  (* the same for one connection, in terms of the reply message tcp_reply_message determines
     (tcp_short_read / reply_or_silence say which) *)
  Theorem tcp_served stream e :
    bytes_ok stream ->
    (tcp_reply_message authoritative_only resolve stream e = Ok None ->
     serve_tcp authoritative_only resolve stream e = Ok None)
    /\ (forall r, tcp_reply_message authoritative_only resolve stream e = Ok (Some r) ->
          exists sent wire out,
            sent_for r sent /\ encode sent = Ok wire /\ send_tcp_bytes wire = Ok out
            /\ serve_tcp authoritative_only resolve stream e = Ok (Some out)).
  Proof using resolve_returns.
    intros Hb. unfold serve_tcp. split.
    - intros ->. reflexivity.
    - intros r Hr. rewrite Hr. cbn [bind].
      exact (frame_with_sends send_tcp_bytes r (fun w H => ex_intro _ _ (send_tcp_framed w H))
                              (tcp_reply_fallback_ok stream e r Hb Hr)).
  Qed.
End Served.

Definition lresult_rrs (l : lresult) : list rr :=
  match l with
  | LDone r => resolved_rrs r
  | LPartial rrs => rrs
  | LDelegation rrs _ _ => rrs
  | LCname rrs _ => rrs
  end.

Lemma spec_outcome_answers r : fst (fst (fst (spec_outcome (Ok r)))) = resolved_rrs r.
Proof. destruct r as [rrs s|s|[|a rrs] [s|]]; reflexivity. Qed.

Section Referral.
  Variable zs : zones.
  Variable cget : dname -> N -> list rr.

  (* The chain property of the local resolver, in the terms of ServerSpec, for every result but
     the delegation.  It stays a premise: LocalProofs.local_chain_ok (C10) proves [chain_ok], for
     questions of a type other than CNAME and * and for zones and a cache read function meeting
     zones_answers_ok / cget_ok, and no lemma takes [chain_ok] to [answers_on_chain]. *)
  Hypothesis local_chain_ok : forall q l,
      resolve_local zs cget LOCAL_FUEL [] q = Ok l ->
      (forall a b c, l <> LDelegation a b c) ->
      answers_on_chain q (lresult_rrs l).
  Hypothesis local_returns : forall q,
      resolve_authoritative_only zs cget q <> Panic /\ resolve_authoritative_only zs cget q <> OutOfFuel.

  Theorem answers_on_chain_unless_referral bs m q r :
    query_of bs m -> h_opcode (m_header m) = OPCODE_Standard ->
    m_questions m = [q] -> ~ must_refuse m ->
    ~ Known_referral zs q ->
    handle_raw_message true (fun _ => resolve_authoritative_only zs cget) bs = Ok (Some r) ->
    answers_on_chain q (m_answers r).
  Proof.
    intros Hq Ho Hqs Hnr Hk H.
    pose proof (sections_are_resolver_output true (fun _ => resolve_authoritative_only zs cget)
                  (fun _ q => local_returns q) bs m q r Hq Ho Hqs Hnr H) as Hout.
    change (m_answers r) with (fst (fst (fst (outcome_of r)))). rewrite Hout.
    unfold resolve_authoritative_only.
    destruct (resolve_local zs cget LOCAL_FUEL [] q) as [l|e| |] eqn:El;
      try (cbn; apply Forall_nil).
    rewrite spec_outcome_answers, LocalProofs.resolved_of_lresult_rrs. apply (local_chain_ok q l El).
    (* resolve_local returns a Delegation only where the zone lookup of the question itself
       gave one and the zone is authoritative *)
    intros a b c ->. apply Hk.
    apply LocalProofs.referral_only_direct in El as (z & s & Hz & Hs & _). exists z, a, s. auto.
  Qed.
End Referral.

(* witnesses, evaluated by vm_compute on the executable model *)

Module Witness.
  Definition nm (ls : list label) : dname :=
    match from_labels ls with Some n => n | None => root_domain end.
  Definition L_example := [101;120;97;109;112;108;101].
  Definition L_com := [99;111;109].
  Definition example_com := nm [L_example; L_com; []].
  Definition sub_example_com := nm [[115;117;98]; L_example; L_com; []].
  Definition ns_sub_example_com := nm [[110;115]; [115;117;98]; L_example; L_com; []].
  Definition www_sub_example_com := nm [[119;119;119]; [115;117;98]; L_example; L_com; []].
  Definition big_example_com := nm [[98;105;103]; L_example; L_com; []].

  Definition the_soa : soa :=
    {| soa_mname := nm [[110;115;49]; L_example; L_com; []]; soa_rname := nm [[97;100;109;105;110]; L_example; L_com; []];
       soa_serial := 1; soa_refresh := 3600; soa_retry := 600; soa_expire := 86400; soa_minimum := 300 |}.

  Definition ins (z : zone) (name : dname) (ty : N) (d : rdata) : zone :=
    match zone_insert false z name ty d 300 with Ok z' => z' | _ => z end.

  (* [l] repeated 2^k times *)
  Fixpoint doubled (k : nat) (l : list byte) : list byte :=
    match k with O => l | S k' => doubled k' (l ++ l) end.

  (* zone example.com: sub.example.com is delegated *)
  Definition zone_example : zone :=
    ins (zone_new example_com (Some the_soa)) sub_example_com RT_NS (RD_Name ns_sub_example_com).
  Definition zs : zones := zones_insert [] zone_example.
  (* the same zone where big.example.com has a TXT record of the octets [os] *)
  Definition zs_big (os : list byte) : zones :=
    zones_insert [] (ins zone_example big_example_com RT_TXT (RD_Octets os)).
  Definition cget : dname -> N -> list rr := fun _ _ => [].

  Definition question_for (n : dname) (t : N) : question := {| q_name := n; q_type := t; q_class := RC_IN |}.
  Definition query_bytes (n : dname) (t : N) : list byte :=
    match encode (from_question 7 (question_for n t)) with Ok bs => bs | _ => [] end.

  Definition big_query : list byte := query_bytes big_example_com RT_TXT.
End Witness.

(* the known finding F12 is real in the model: the reply to `www.sub.example.com A` has AA set
   and an answer section that is not on the question's CNAME chain *)
Theorem known_referral_witness :
  exists zs cget bs m q r,
    query_of bs m /\ h_opcode (m_header m) = OPCODE_Standard /\ m_questions m = [q] /\ ~ must_refuse m
    /\ Known_referral zs q
    /\ handle_raw_message true (fun _ => resolve_authoritative_only zs cget) bs = Ok (Some r)
    /\ h_aa (m_header r) = true
    /\ ~ answers_on_chain q (m_answers r).
Proof.
  exists Witness.zs, Witness.cget, (Witness.query_bytes Witness.www_sub_example_com RT_A).
  exists (from_question 7 (Witness.question_for Witness.www_sub_example_com RT_A)).
  exists (Witness.question_for Witness.www_sub_example_com RT_A).
  eexists.
  split; [split; [vm_compute; reflexivity|reflexivity]|].
  split; [reflexivity|]. split; [reflexivity|].
  split; [apply (triage_one_inv _ (Witness.question_for Witness.www_sub_example_com RT_A)); reflexivity|].
  split.
  { unfold Known_referral. do 3 eexists. split; vm_compute; reflexivity. }
  split; [vm_compute; reflexivity|].
  split; [reflexivity|].
  cbn [m_answers]. intro H. inversion H as [|r0 l Hhd _]; subst. clear H.
  cbn [rr_name Witness.question_for q_name] in Hhd.
  (* oc_start would make the owner of the NS record the question name; oc_step needs a CNAME
     record in the section *)
  inversion Hhd;
    try match goal with Hin : In _ _ |- _ => destruct Hin as [<-|[]] end;
    match goal with
    | Hty : rr_type _ = RT_CNAME |- _ => vm_compute in Hty; discriminate Hty
    | Hd : _ = _ |- _ => vm_compute in Hd; discriminate Hd
    end.
Qed.

(* `to_octets` can fail on a reply: RDATA of 65536 octets or more makes it refuse the record ... *)
Lemma encode_rr_too_large r b os :
  rr_data r = RD_Octets os -> 65536 <= llen os -> exists e, encode_rr r b = Err e.
Proof.
  intros Hd Hl. unfold encode_rr. cbv zeta. rewrite Hd. cbn [encode_rdata].
  match goal with |- exists e, (if ?c then _ else _) = _ => assert (Hc : c = false) end.
  { apply N.ltb_ge. unfold write_octets, write_u16, write_u32, write_octets. cbn [wb_len].
    change (llen (u16_bytes 0)) with 2. lia. }
  rewrite Hc. eauto.
Qed.

Lemma encode_too_large m r rest os :
  m_answers m = r :: rest -> rr_data r = RD_Octets os -> 65536 <= llen os -> exists e, encode m = Err e.
Proof.
  intros Ha Hd Hl. unfold encode, usize_to_u16.
  repeat match goal with
         | |- exists e, bind (if ?c then _ else _) _ = _ => destruct c; cbn [bind]; [|eauto]
         end.
  cbv zeta. rewrite Ha. cbn [encode_rrs].
  match goal with |- context[encode_rr r ?b] => destruct (encode_rr_too_large r b os Hd Hl) as (e & He); rewrite He end.
  cbn [bind]. eauto.
Qed.

Lemma llen_doubled k : forall l, llen (Witness.doubled k l) = 2 ^ N.of_nat k * llen l.
Proof.
  induction k as [|k IH]; intro l; cbn [Witness.doubled].
  - change (N.of_nat 0) with 0. rewrite N.pow_0_r. lia.
  - rewrite IH. unfold llen at 1. rewrite app_length, Nat2N.inj_add. fold (llen l).
    rewrite Nat2N.inj_succ, N.pow_succ_r'. lia.
Qed.

(* ... the reply to `big.example.com TXT` (id 7) is built, carries such a record and cannot be
   serialised; both listen loops answer with its SERVFAIL stand-in -- id 7, QR set, the question
   echoed, no records -- framed as usual *)
Theorem unserialisable_reply_servfail_witness :
  exists zs cget bs q r e f wire,
    handle_raw_message true (fun _ => resolve_authoritative_only zs cget) bs = Ok (Some r)
    /\ encode r = Err e
    /\ servfail_of r f /\ encode f = Ok wire /\ decode wire = Ok f
    /\ wire_id bs = Some 7 /\ h_id (m_header f) = 7 /\ h_qr (m_header f) = true
    /\ h_rcode (m_header f) = RCODE_ServerFailure /\ h_aa (m_header f) = false
    /\ m_questions f = [q] /\ m_answers f = [] /\ m_authority f = [] /\ m_additional f = []
    /\ serve_udp true (fun _ => resolve_authoritative_only zs cget) bs = Ok (Some wire)
    /\ serve_tcp true (fun _ => resolve_authoritative_only zs cget) (u16_bytes (llen bs) ++ bs) EndEof
       = Ok (Some (u16_bytes (llen wire) ++ wire)).
Proof.
  set (os := Witness.doubled 16 [120]).
  assert (Hos : 65536 <= llen os).
  { unfold os. rewrite llen_doubled. change (llen [120]) with 1. change (N.of_nat 16) with 16. vm_compute. discriminate. }
  clearbody os.
  exists (Witness.zs_big os), Witness.cget, Witness.big_query, (Witness.question_for Witness.big_example_com RT_TXT).
  assert (Hh : exists r, handle_raw_message true (fun _ => resolve_authoritative_only (Witness.zs_big os) Witness.cget)
                           Witness.big_query = Ok (Some r)
                         /\ (exists a rest, m_answers r = a :: rest /\ rr_data a = RD_Octets os)
                         /\ exists wire, encode (unserialisable_fallback r) = Ok wire
                              /\ decode wire = Ok (unserialisable_fallback r)
                              /\ h_id (m_header (unserialisable_fallback r)) = 7
                              /\ h_qr (m_header (unserialisable_fallback r)) = true
                              /\ m_questions (unserialisable_fallback r) = [Witness.question_for Witness.big_example_com RT_TXT]
                              /\ send_udp_bytes_to wire = Ok wire
                              /\ send_tcp_bytes wire = Ok (u16_bytes (llen wire) ++ wire)).
  { eexists. split; [vm_compute; reflexivity|]. split; [cbn [m_answers]; do 2 eexists; split; reflexivity|].
    eexists. split; [vm_compute; reflexivity|]. repeat split; vm_compute; reflexivity. }
  destruct Hh as (r & Hr & (a & rest & Ha & Hd) & wire & Ew & Dw & Hid & Hqr & Hqs & Su & St).
  destruct (encode_too_large r a rest os Ha Hd Hos) as (e & He).
  exists r, e, (unserialisable_fallback r), wire.
  assert (Hu : serve_udp true (fun _ => resolve_authoritative_only (Witness.zs_big os) Witness.cget)
                         Witness.big_query = Ok (Some wire)).
  { unfold serve_udp, udp_reply_message.
    replace (firstn (N.to_nat UDP_MAX) Witness.big_query) with Witness.big_query by (vm_compute; reflexivity).
    rewrite Hr. cbn [bind frame_with]. rewrite He, Ew, Su. reflexivity. }
  assert (Ht : serve_tcp true (fun _ => resolve_authoritative_only (Witness.zs_big os) Witness.cget)
                         (u16_bytes (llen Witness.big_query) ++ Witness.big_query) EndEof
               = Ok (Some (u16_bytes (llen wire) ++ wire))).
  { unfold serve_tcp, tcp_reply_message.
    replace (read_tcp_bytes (u16_bytes (llen Witness.big_query) ++ Witness.big_query) EndEof)
      with (ReadOk Witness.big_query) by (vm_compute; reflexivity).
    rewrite Hr. cbn [bind frame_with]. rewrite He, Ew, St. reflexivity. }
  pose proof (fallback_shape r) as Hs.
  repeat (split; [first [assumption|reflexivity]|]). exact Ht.
Qed.

(* the hypotheses of the theorems above are satisfiable *)

Example ex_silent_short : silent_input [7].
Proof. left. reflexivity. Qed.

Example ex_silent_response :
  exists bs m, bytes_ok bs /\ decode bs = Ok m /\ h_qr (m_header m) = true /\ silent_input bs.
Proof.
  exists [0;7;128;0;0;0;0;0;0;0;0;0]. eexists.
  split; [repeat constructor|].
  split; [vm_compute; reflexivity|]. split; [reflexivity|].
  right. eexists. split; [vm_compute; reflexivity|reflexivity].
Qed.

Example ex_garbage : exists bs e, bytes_ok bs /\ decode bs = Err e /\ 2 <= llen bs.
Proof.
  exists [18;52;1], (HeaderTooShort, Some 4660). split; [repeat constructor|].
  split; [vm_compute; reflexivity|]. vm_compute. discriminate.
Qed.

Example ex_notimp : exists bs m, query_of bs m /\ h_opcode (m_header m) <> OPCODE_Standard.
Proof.
  exists [0;7;16;0;0;0;0;0;0;0;0;0]. eexists.
  split; [split; [vm_compute; reflexivity|reflexivity]|]. vm_compute. discriminate.
Qed.

Example ex_must_refuse :
  must_refuse (from_question 1 {| q_name := root_domain; q_type := 99; q_class := RC_IN |}).
Proof.
  exact (triage_spec (from_question 1 {| q_name := root_domain; q_type := 99; q_class := RC_IN |})).
Qed.

Example ex_udp_cut : exists bs, bytes_ok bs /\ 12 <= llen bs /\ 512 < llen bs.
Proof.
  exists (repeat 0 600). split; [apply Forall_forall; intros x Hx; apply repeat_spec in Hx; subst; reflexivity|].
  unfold llen. rewrite repeat_length. split; lia.
Qed.
