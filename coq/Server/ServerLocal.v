(* Server/ServerLocal.v -- the server of Server/ServerModel.v composed with the local resolver of
   Resolver/LocalModel.v in authoritative-only mode (ListenArgs.authoritative_only = true, the
   executable instance [fun _ => resolve_authoritative_only zs cget]): ties C09 to C01/C02. *)
From RV Require Import Base.Prelude Name.NameModel Wire.WireTypes Wire.WireModel
     Zone.ZoneModel Resolver.LocalModel Resolver.LocalSpec Resolver.LocalProofs
     Server.ServerModel Server.ServerSpec Server.ServerProofs.

(* the server as it runs with `--authoritative-only` over zones [zs] and a cache whose read
   function is [cget] *)
Definition ao_handle (zs : zones) (cget : dname -> N -> list rr) : list byte -> res unit (option message) :=
  handle_raw_message true (fun _ => resolve_authoritative_only zs cget).

(* resolve_and_build_response with authoritative_only = true calls the resolver with
   is_recursive = RD && RA = RD && false = false: two resolvers that agree on is_recursive = false
   give the same reply, whatever they do when asked to recurse *)
Theorem ao_never_recurses (resolve resolve' : bool -> question -> res rerror resolved) bs :
  (forall q, resolve false q = resolve' false q) ->
  handle_raw_message true resolve bs = handle_raw_message true resolve' bs.
Proof.
  intro H. unfold handle_raw_message. destruct (decode bs) as [m|e| |]; try reflexivity.
  destruct (h_qr (m_header m)); [reflexivity|].
  destruct (h_opcode (m_header m) =? OPCODE_Standard); [|reflexivity].
  unfold resolve_and_build_response. destruct (triage m) as [|q|why]; try reflexivity.
  cbn [negb set_ra make_response with_header m_header h_ra]. rewrite andb_false_r, H. reflexivity.
Qed.

(* in particular ServerModel's instance with a dead upstream ([resolve_dead_upstream]: the
   recursive resolver when asked to recurse) is, in authoritative-only mode, the local resolver *)
Corollary ao_dead_upstream_is_local zs cget bs :
  handle_raw_message true (resolve_dead_upstream zs cget) bs = ao_handle zs cget bs.
Proof. apply ao_never_recurses. intro q. reflexivity. Qed.

(* the reply depends on the cache only through its read function, and not even on that for the
   names inside authoritative zones (C01_cache_noninterference_local lifted to replies) *)
Theorem ao_reply_cache_noninterference zs c1 c2 bs :
  cache_agree_outside (in_auth_zone zs) c1 c2 -> ao_handle zs c1 bs = ao_handle zs c2 bs.
Proof.
  intro H. unfold ao_handle. apply ao_never_recurses. intro q.
  unfold resolve_authoritative_only. rewrite (cache_noninterference zs c1 c2 H). reflexivity.
Qed.

(* RA = 0 on every reply to a standard query: no premise on the resolver is needed, a reply that
   exists was built by resolve_and_build_response *)
Theorem ao_ra_clear zs cget bs m r :
  query_of bs m -> h_opcode (m_header m) = OPCODE_Standard -> ao_handle zs cget bs = Ok (Some r) ->
  h_ra (m_header r) = false.
Proof.
  intros Hq Ho H. destruct (handle_standard _ _ bs m r Hq Ho H) as (o & _ & ->). reflexivity.
Qed.

(* what the local resolver returns for an owned name the zone answers or denies (auth_zone_alone
   at the fuel and stack of resolve_authoritative_only) *)
Lemma owned_resolved zs cget q z r :
  owned_by zs (q_name q) z -> zones_resolve zs (q_name q) (q_type q) = Some (z, Ok r) ->
  exists s, zone_soa_rr z = Some s
            /\ match r with
               | ZAnswer rrs => resolve_authoritative_only zs cget q = Ok (Authoritative rrs s)
               | ZNameError => resolve_authoritative_only zs cget q = Ok (AuthoritativeNameError s)
               | _ => True
               end.
Proof.
  intros Hown Hz.
  destruct (auth_zone_alone zs cget (pred LOCAL_FUEL) [] q z Hown (guards_pass_nil q))
    as (s & Hs & r0 & Hr0 & Hres).
  rewrite Hz in Hr0. inversion Hr0; subst r0. change (S (pred LOCAL_FUEL)) with LOCAL_FUEL in Hres.
  exists s. split; [exact Hs|]. unfold resolve_authoritative_only.
  destruct r; try exact I; rewrite Hres; reflexivity.
Qed.

(* For EVERY input (any octets: no premise that they decode, that the opcode is standard, that
   the resolver returns): if the server replies with RCODE 3 then the input is a standard query with
   exactly one question, and the zone Zones::get selects for the question NAME is authoritative and
   returned NameError for that name and type; the reply has AA set, no answers, and that zone's SOA
   as its authority section.  In particular never through an alias and never from the cache. *)
Theorem nxdomain_reply_only_from_auth_zone zs cget bs r :
  ao_handle zs cget bs = Ok (Some r) -> h_rcode (m_header r) = RCODE_NameError ->
  exists m q z s,
    query_of bs m /\ h_opcode (m_header m) = OPCODE_Standard /\ m_questions m = [q]
    /\ zones_resolve zs (q_name q) (q_type q) = Some (z, Ok ZNameError) /\ zone_soa_rr z = Some s
    /\ in_auth_zone zs (q_name q)
    /\ h_aa (m_header r) = true /\ m_answers r = [] /\ m_authority r = [s].
Proof.
  intros H Hrc.
  destruct (handle_cases _ _ bs r H) as [(m & Hq & [(Ho & o & Hoc & ->)|(_ & ->)])|(e & id & _ & _ & ->)];
    [|discriminate Hrc..].
  (* of the outcomes of a standard query only the resolver's AuthoritativeNameError has RCODE 3 *)
  apply outcome_for_spec in Hoc. pose proof (triage_spec m) as Ht. cbn [reply_with m_header h_rcode] in Hrc.
  destruct (triage m) as [|q|why]; subst o; try discriminate Hrc. destruct Ht as [_ Hqs].
  destruct (resolve_authoritative_only zs cget q) as [[rrs s|s|[|a rrs] [s|]]|e| |] eqn:Er;
    try discriminate Hrc.
  destruct (nxdomain_resolved zs cget q s Er) as (z & Hz & Hs & Hin).
  exists m, q, z, s. cbn. auto 10.
Qed.

Module SLExample.
  Import LocalExample.
  (* the question "<n> A" as a query: id 7, RD clear (from_question) *)
  Definition query_for (n : dname) : message := from_question 7 (qa n).
  Definition bytes_for (n : dname) : list byte :=
    match encode (query_for n) with Ok bs => bs | _ => [] end.
  Definition n_nec := mk [[110]; [101]; [99]].          (* n.e.c.: not in the zone e.c. *)

  (* the owned name w.e.c.: AA, NOERROR, the zone's A record (not the cached 9), the zone's SOA *)
  Example ex_owned_answer :
    option_map (fun o => option_map (fun r => (outcome_of r, h_ra (m_header r), h_id (m_header r))) o)
               (match ao_handle ex_zones ex_cget (bytes_for n_wec) with Ok o => Some o | _ => None end)
    = Some (Some (([{| rr_name := n_wec; rr_type := RT_A; rr_class := RC_IN; rr_ttl := 300; rr_data := RD_A 1 |}],
                   [LocalExample.soa_rr], true, RCODE_NoError), false, 7)).
  Proof. vm_compute. reflexivity. Qed.

  (* a name of the zone e.c. that does not exist: AA, NXDOMAIN, the zone's SOA *)
  Example ex_owned_nxdomain :
    option_map (fun o => option_map outcome_of o)
               (match ao_handle ex_zones ex_cget (bytes_for n_nec) with Ok o => Some o | _ => None end)
    = Some (Some ([], [LocalExample.soa_rr], true, RCODE_NameError)).
  Proof. vm_compute. reflexivity. Qed.

  Example ex_query_ok : query_of (bytes_for n_wec) (query_for n_wec)
                        /\ h_opcode (m_header (query_for n_wec)) = OPCODE_Standard
                        /\ m_questions (query_for n_wec) = [qa n_wec] /\ ~ must_refuse (query_for n_wec).
  Proof.
    split; [split; [vm_compute; reflexivity|reflexivity]|]. split; [reflexivity|]. split; [reflexivity|].
    apply (triage_one_inv _ (qa n_wec)). reflexivity.
  Qed.
End SLExample.
