(* Config/ConfigText.v -- configuration loaded from TEXT: ties C12 / C19 (Config/ConfigModel.v, where a
   file is already-parsed data) to C11 / C17 (ZoneFile/ZoneFileModel.v, Zone::deserialise) and C14
   (Hosts/HostsModel.v, Hosts::deserialise) at the model level.

   fs.rs:  zone_from_file(path)  = read_to_string(path).await?  then  Zone::deserialise(&data)
           hosts_from_file(path) = read_to_string(path).await?  then  Hosts::deserialise(&data)
   A file of the TEXT file system [tfs] holds a list of Unicode scalar values ([None] = read_to_string
   fails: missing, no permission, not UTF-8); [parse_file] runs both parser models on it and
   [fs_of_text] turns a text file system into the data file system of ConfigModel.v;
   [load_text] = [load] after that.  A parse error makes the file unparsable in that role; so would a
   Panic / OutOfFuel of a parser MODEL, which the totality theorems (C17_parse_zone_total,
   C14_parse_hosts_total) exclude -- [load_text_total] restates that, so nothing hides there. *)
From Coq Require Import Sorting.Sorted.
From RV Require Import Base.Prelude Name.NameModel Name.NameSpec Name.NameProofs Wire.WireTypes
     Zone.ZoneModel Zone.ZoneFlat Zone.ZoneProofs Zone.ZoneMergeProofs Ip.IpModel.
From RV Require Hosts.HostsModel Hosts.HostsSpec Hosts.HostsProofs.
From RV Require ZoneFile.ZoneFileModel ZoneFile.ZoneFileSpec ZoneFile.ZoneFileProofs ZoneFile.ZoneRtLines
     ZoneFile.ZoneRtLoop ZoneFile.ZoneParseDenotes ZoneFile.ZfInstance ZoneFile.ZoneRtCodec.
From RV Require Import Config.ConfigModel Config.ConfigProofs Config.ConfigMerge.

(* every name Hosts::deserialise puts into the maps is a well-formed DomainName *)
Module HostsNames.
  Import RV.Hosts.HostsModel RV.Hosts.HostsSpec RV.Hosts.HostsProofs.

  Definition names_wf (h : hosts) : Prop :=
    Forall wf_name (map fst (h_v4 h)) /\ Forall wf_name (map fst (h_v6 h)).

  Lemma asciic_scalar l : Forall asciic l -> Forall scalar l.
  Proof. apply Forall_impl. intros c H. unfold asciic, scalar in *. lia. Qed.

  Lemma set_insert_wf n s : wf_name n -> Forall wf_name s -> Forall wf_name (set_insert n s).
  Proof.
    intros Hn Hs. unfold set_insert. destruct (existsb _ s); [exact Hs|].
    apply Forall_app. split; [exact Hs|]. constructor; [exact Hn|constructor].
  Qed.

  (* the name field is ASCII (parse_line rejects anything else before it gets here), hence a list of
     scalar values, hence (C16_join relative to the root) a well-formed name *)
  Lemma finish_name_at_wf b acc ns ns' : Forall asciic acc -> Forall wf_name ns ->
    finish_name_at b (Some acc) ns = Ok ns' -> Forall wf_name ns'.
  Proof.
    intros Ha Hns. destruct b; cbn [finish_name_at finish_name]; [discriminate|].
    destruct (from_relative_dotted_string root_domain acc) as [n|] eqn:E; [|discriminate].
    intro H. inversion H; subst. apply set_insert_wf; [|exact Hns].
    exact (proj1 (join_wf root_domain acc n root_wf (asciic_scalar _ Ha) E)).
  Qed.

  Definition qok (q : qstate) : Prop :=
    match q with QAddr acc | QName acc => Forall asciic acc | _ => True end.

  Lemma snoc_ascii acc c : Forall asciic acc -> c < 128 -> Forall asciic (acc ++ [c]).
  Proof. intros H Hc. apply Forall_app. split; [exact H|]. constructor; [exact Hc|constructor]. Qed.

  Lemma ploop_wf rest : forall q a b ns q' a' b' ns',
    qok q -> Forall wf_name ns -> ploop rest q a b ns = Ok (q', a', b', ns') -> qok q' /\ Forall wf_name ns'.
  Proof.
    induction rest as [|c t IH]; intros q a b ns q' a' b' ns' Hq Hns H; cbn [ploop] in H.
    - inversion H; subst. auto.
    - destruct q as [|acc| |acc|].
      5:{ inversion H; subst. auto. }
      all: destruct (is_ascii c) eqn:Hasc; cbn [negb] in H; [|discriminate].
      all: apply is_ascii_true in Hasc.
      1,3: (* QSkipAddr, QSkipName *)
        destruct (c =? 35); [eapply IH; [| |exact H]; [exact I|exact Hns]|];
        destruct (is_whitespace c); (eapply IH; [| |exact H]; [|exact Hns]); [exact I|];
        cbn [qok]; constructor; [exact Hasc|constructor].
      + (* QAddr *)
        destruct (c =? 35); [eapply IH; [| |exact H]; [exact I|exact Hns]|].
        destruct (c =? 37); [inversion H; subst; auto|].
        destruct (is_whitespace c).
        * destruct (parse_ip acc); (eapply IH; [| |exact H]; [exact I|exact Hns]).
        * eapply IH; [| |exact H]; [|exact Hns]. cbn [qok] in *. apply snoc_ascii; assumption.
      + (* QName *)
        cbn [qok] in Hq. destruct (c =? 35); [|destruct (is_whitespace c)].
        1,2: destruct (finish_name_at b (Some acc) ns) as [ns1| | |] eqn:F; cbn [bind] in H; try discriminate;
          (eapply IH; [| |exact H]; [exact I|]); eapply finish_name_at_wf; eassumption.
        eapply IH; [| |exact H]; [|exact Hns]. cbn [qok]. apply snoc_ascii; assumption.
  Qed.

  Lemma parse_line_wf line a ns : parse_line line = Ok (Some (a, ns)) -> Forall wf_name ns.
  Proof.
    rewrite parse_line_refines. unfold parse_line'.
    destruct (ploop line QSkipAddr LOCALHOST_V4 None []) as [[[[q a0] b] ns0]| | |] eqn:E; cbn [bind]; try discriminate.
    destruct (ploop_wf line QSkipAddr LOCALHOST_V4 None [] q a0 b ns0 I (Forall_nil _) E) as [Hq Hns].
    unfold tail_q.
    destruct q as [|acc| |acc|]; cbn [bind];
      try (destruct (is_nil ns0); intro H; inversion H; subst; exact Hns).
    destruct (finish_name_at b (Some acc) ns0) as [ns1| | |] eqn:F; cbn [bind]; try discriminate.
    destruct (is_nil ns1); intro H; inversion H; subst. eapply finish_name_at_wf; eassumption.
  Qed.

  Lemma hosts_insert_wf h n a : wf_name n -> names_wf h -> names_wf (hosts_insert h n a).
  Proof.
    intros Hn [H4 H6]. destruct a; cbn [hosts_insert]; split; cbn [h_v4 h_v6]; try assumption;
      apply ainsert_keys_forall; assumption.
  Qed.

  Lemma fold_insert_wf a l : forall h, Forall wf_name l -> names_wf h ->
    names_wf (fold_left (fun acc n => hosts_insert acc n a) l h).
  Proof. intros h Hl. revert h. apply (fold_left_Forall names_wf wf_name) with (2 := Hl). intros h n Hh Hn. apply hosts_insert_wf; assumption. Qed.

  Lemma deserialise_lines_wf ls : forall h h', names_wf h -> deserialise_lines ls h = Ok h' -> names_wf h'.
  Proof.
    induction ls as [|l ls IH]; intros h h' Hh H; cbn [deserialise_lines] in H.
    - inversion H; subst. exact Hh.
    - destruct (parse_line l) as [[[a ns]|]| | |] eqn:E; cbn [bind] in H; try discriminate.
      + eapply IH; [|exact H]. apply fold_insert_wf; [eapply parse_line_wf; exact E|exact Hh].
      + eapply IH; eassumption.
  Qed.

  Theorem deserialise_names_wf data h : deserialise data = Ok h -> names_wf h.
  Proof. apply deserialise_lines_wf. split; constructor. Qed.
End HostsNames.

(* in a zone file within the scope of C11_parse_denotes the SOA apart no record has type SOA: the
   denoted insertions satisfy the premise of C12_file_side_conditions *)
Module ZoneNoSoa.
  Import RV.ZoneFile.ZoneFileModel RV.ZoneFile.ZoneFileSpec RV.ZoneFile.ZoneRtLines RV.ZoneFile.ZoneRtLoop
         RV.ZoneFile.ZoneParseDenotes.

  Definition nosoa (s : sp) : Prop :=
    Forall (fun r => rr_type r <> RT_SOA) (p_norm s) /\ Forall (fun r => rr_type r <> RT_SOA) (p_wild s).

  Lemma denote_entry_nosoa s e s' : entry_ok s e -> denote_entry s e = Some s' -> nosoa s -> nosoa s'.
  Proof.
    intros He Hd [Hn Hw]. destruct e as [r|x]; cbn [denote_entry entry_ok] in *.
    - destruct (resolve (p_origin s) r); [|discriminate]. inversion Hd; subst. split; assumption.
    - destruct He as (_ & _ & _ & Hsh & _).
      destruct (match f_owner x with Some o => resolve_owner (p_origin s) o | None => p_owner s end) as [ow|]; [|discriminate].
      destruct (rda_resolve (p_origin s) (f_rd x)) as [d|] eqn:Ed; [|discriminate].
      pose proof (rda_resolve_shape _ _ _ Ed) as Hshape. rewrite Hsh in Hshape.
      assert (Hpush : forall ttl, not_soa_data d ->
                nosoa {| p_origin := p_origin s; p_owner := Some ow; p_ttl := Some ttl; p_soa := p_soa s;
                         p_norm := if fst ow then p_norm s else mk_rr (snd ow) (f_type x) ttl d :: p_norm s;
                         p_wild := if fst ow then mk_rr (snd ow) (f_type x) ttl d :: p_wild s else p_wild s |}).
      { intros ttl Hnd.
        assert (Hns : f_type x <> RT_SOA).
        { intro F. rewrite F in Hshape. destruct d; cbv in Hshape; try discriminate Hshape. eapply Hnd. reflexivity. }
        unfold nosoa. cbn [p_norm p_wild]. destruct (fst ow); split; try assumption; constructor; assumption. }
      destruct d;
        try (destruct (match f_ttl x with Some t => Some t | None => p_ttl s end); [|discriminate];
             inversion Hd; subst; apply Hpush; intros ? ? ? ? ? ? ? F; discriminate F).
      destruct (fst ow); [discriminate|]. destruct (p_soa s); [discriminate|]. inversion Hd; subst.
      split; assumption.
  Qed.

  Lemma denote_lines_nosoa ip : forall ls s s', lines_ok ip s ls -> denote_lines s ls = Some s' -> nosoa s -> nosoa s'.
  Proof.
    induction ls as [|l t IH]; intros s s' Hok Hd Hn; cbn [lines_ok denote_lines] in *.
    - inversion Hd; subst. exact Hn.
    - destruct Hok as (_ & _ & Hrest). destruct (l_entry l) as [e|].
      + destruct Hrest as [He Hrest]. destruct (denote_entry s e) as [s1|] eqn:Ede; [|discriminate].
        eapply IH; [exact Hrest|exact Hd|]. eapply denote_entry_nosoa; eassumption.
      + eapply IH; eassumption.
  Qed.

  Theorem denoted_ops_no_soa ip ls apex so ops :
    lines_ok ip sp_init ls -> denote ls = Some (apex, so, ops) -> Forall (fun o => op_type o <> RT_SOA) ops.
  Proof.
    intros Hok Hd. unfold denote in Hd. destruct (denote_lines sp_init ls) as [s|] eqn:El; [|discriminate].
    destruct (forallb _ _); [|discriminate]. inversion Hd; subst; clear Hd.
    destruct (denote_lines_nosoa ip ls sp_init s Hok El) as [Hn Hw]; [split; constructor|].
    unfold sp_ops. apply Forall_app. split; apply Forall_map, Forall_forall; intros r Hr; apply in_rev in Hr;
      cbn [op_of_rr op_type]; [rewrite Forall_forall in Hn; exact (Hn r Hr)|rewrite Forall_forall in Hw; exact (Hw r Hr)].
  Qed.
End ZoneNoSoa.

Definition text := list N.                        (* a String: Unicode scalar values *)

(* a directory entry of the text file system *)
Inductive tentry := TFile (c : option text) | TSubdir.
Definition tdir := list (fname * tentry).

Record tfs := {
  tfs_files : list (ConfigModel.path * option text);        (* None: read_to_string fails *)
  tfs_dirs : list (ConfigModel.path * tdir) }.

Section FsMap.
  (* what becomes of the content of a file *)
  Variable pf : option text -> cfile.

  Definition dentry_of (e : tentry) : dentry := match e with TFile c => EFile (pf c) | TSubdir => ESubdir end.

  Definition fs_map (t : tfs) : fs :=
    {| fs_files := map (fun pc => (fst pc, pf (snd pc))) (tfs_files t);
       fs_dirs := map (fun pd => (fst pd, map (fun ne => (fst ne, dentry_of (snd ne))) (snd pd))) (tfs_dirs t) |}.
End FsMap.

(* the text behind a PathBuf *)
Definition tfs_read (t : tfs) (r : fref) : option text :=
  match r with
  | RFile p => match alookup leqb p (tfs_files t) with Some c => c | None => None end
  | RDirFile d n =>
    match alookup leqb d (tfs_dirs t) with
    | Some es => match alookup leqb n es with Some (TFile c) => c | _ => None end
    | None => None
    end
  end.

Lemma alookup_map_snd {K A B} (eqb : K -> K -> bool) (g : A -> B) k (l : list (K * A)) :
  alookup eqb k (map (fun p => (fst p, g (snd p))) l) = option_map g (alookup eqb k l).
Proof.
  induction l as [|[k' v] t IH]; cbn [map alookup fst snd option_map]; [reflexivity|].
  destruct (eqb k k'); [reflexivity|exact IH].
Qed.

Lemma dirs_lookup pf t d :
  alookup leqb d (fs_dirs (fs_map pf t))
  = option_map (map (fun ne : fname * tentry => (fst ne, dentry_of pf (snd ne)))) (alookup leqb d (tfs_dirs t)).
Proof.
  unfold fs_map. cbn [fs_dirs].
  apply (alookup_map_snd leqb (map (fun ne : fname * tentry => (fst ne, dentry_of pf (snd ne))))).
Qed.

Lemma fs_read_map pf t r : pf None = Unreadable -> fs_read (fs_map pf t) r = pf (tfs_read t r).
Proof.
  intro Hn. destruct r as [p|d n]; unfold fs_read, tfs_read.
  - cbn [fs_map fs_files]. rewrite (alookup_map_snd leqb pf). destruct (alookup leqb p (tfs_files t)); cbn [option_map]; auto.
  - rewrite dirs_lookup. destruct (alookup leqb d (tfs_dirs t)) as [es|]; cbn [option_map]; [|auto].
    rewrite (alookup_map_snd leqb (dentry_of pf)). destruct (alookup leqb n es) as [[c|]|]; cbn [option_map dentry_of]; auto.
Qed.

Lemma dir_lookup_map pf t d : alookup leqb d (fs_dirs (fs_map pf t)) = None <-> alookup leqb d (tfs_dirs t) = None.
Proof.
  rewrite dirs_lookup. destruct (alookup leqb d (tfs_dirs t)); cbn [option_map]; split; intro H; try discriminate; reflexivity.
Qed.

(* the listings, hence the effective file sequences, do not depend on the parsers *)

Definition is_tfile (e : fname * tentry) : bool := match snd e with TFile _ => true | TSubdir => false end.

Lemma file_names_map pf (es : tdir) :
  map fst (filter is_file_entry (map (fun ne => (fst ne, dentry_of pf (snd ne))) es)) = map fst (filter is_tfile es).
Proof.
  induction es as [|[n [c|]] es IH]; cbn [map filter is_file_entry is_tfile fst snd dentry_of]; [reflexivity| |exact IH].
  cbn [map fst]. f_equal. exact IH.
Qed.

Lemma get_files_map pf t d :
  get_files_from_dir (fs_map pf t) d =
  match alookup leqb d (tfs_dirs t) with
  | Some es => Some (map (RDirFile d) (sort_names (map fst (filter is_tfile es))))
  | None => None
  end.
Proof.
  unfold get_files_from_dir. rewrite dirs_lookup.
  destruct (alookup leqb d (tfs_dirs t)) as [es|]; cbn [option_map]; [|reflexivity].
  rewrite file_names_map. reflexivity.
Qed.

Lemma gather_dirs_ext f f' : (forall d, get_files_from_dir f d = get_files_from_dir f' d) ->
  forall dirs acc err, gather_dirs f dirs acc err = gather_dirs f' dirs acc err.
Proof.
  intro H. induction dirs as [|d t IH]; intros acc err; cbn [gather_dirs]; [reflexivity|].
  rewrite H. destruct (get_files_from_dir f' d); apply IH.
Qed.

(* the file system with every file unreadable: only the shape is left *)
Definition fs_shape (t : tfs) : fs := fs_map (fun _ => Unreadable) t.

(* the zone / hosts files of the configuration, in application order (C12_dir_sorted_order) *)
Definition tzone_seq (a : config_args) (t : tfs) : list fref := fst (zone_file_seq a (fs_shape t)).
Definition thosts_seq (a : config_args) (t : tfs) : list fref := fst (hosts_file_seq a (fs_shape t)).

Lemma zone_seq_map pf a t : zone_file_seq a (fs_map pf t) = zone_file_seq a (fs_shape t).
Proof. unfold zone_file_seq. apply gather_dirs_ext. intro d. unfold fs_shape. rewrite !get_files_map. reflexivity. Qed.
Lemma hosts_seq_map pf a t : hosts_file_seq a (fs_map pf t) = hosts_file_seq a (fs_shape t).
Proof. unfold hosts_file_seq. apply gather_dirs_ext. intro d. unfold fs_shape. rewrite !get_files_map. reflexivity. Qed.

(* Zone::deserialise(&data): Err, and -- excluded by C17 -- a Panic / OutOfFuel of the model, is no zone *)
Definition parse_zone_text (ip : ZoneFileModel.ipcodec) (s : text) : option zone :=
  match ZoneFileModel.deserialise ip s with Ok z => Some z | _ => None end.

(* the Hosts record of Hosts/HostsModel.v as the (identical) record of ConfigModel.v *)
Definition conv_hosts (h : HostsModel.hosts) : hosts :=
  {| h_v4 := HostsModel.h_v4 h; h_v6 := HostsModel.h_v6 h |}.

(* Hosts::deserialise(&data) *)
Definition parse_hosts_text (s : text) : option hosts :=
  match HostsModel.deserialise s with Ok h => Some (conv_hosts h) | _ => None end.

(* zone_from_file / hosts_from_file on one path *)
Definition parse_file (ip : ZoneFileModel.ipcodec) (o : option text) : cfile :=
  match o with
  | None => Unreadable
  | Some s => Parsed (parse_zone_text ip s) (parse_hosts_text s)
  end.

Definition fs_of_text (ip : ZoneFileModel.ipcodec) (t : tfs) : fs := fs_map (parse_file ip) t.

(* load_zone_configuration on a file system of texts *)
Definition load_text (ip : ZoneFileModel.ipcodec) (a : config_args) (t : tfs) : option zones :=
  load a (fs_of_text ip t).

(* with std's address parsers as modelled in Ip/IpModel.v: the instance the drivers run *)
Definition load_text_zf : config_args -> tfs -> option zones := load_text ZfInstance.zf_codec.

Lemma fs_read_text ip t r : fs_read (fs_of_text ip t) r = parse_file ip (tfs_read t r).
Proof. apply fs_read_map. reflexivity. Qed.

Lemma read_zone_text ip t r :
  read_zone (fs_read (fs_of_text ip t) r) = match tfs_read t r with Some s => parse_zone_text ip s | None => None end.
Proof. rewrite fs_read_text. destruct (tfs_read t r); reflexivity. Qed.

Lemma read_hosts_text ip t r :
  read_hosts (fs_read (fs_of_text ip t) r) = match tfs_read t r with Some s => parse_hosts_text s | None => None end.
Proof. rewrite fs_read_text. destruct (tfs_read t r); reflexivity. Qed.

(* the parsers are total: every text reads as a zone / hosts value or as an error *)
Lemma zone_text_cases ip s :
  (exists z, ZoneFileModel.deserialise ip s = Ok z) \/ (exists e, ZoneFileModel.deserialise ip s = Err e).
Proof.
  pose proof (ZoneFileProofs.parse_zone_total ip s) as H. unfold ZoneFileProofs.total in H.
  destruct (ZoneFileModel.deserialise ip s); [left|right| |]; eauto; contradiction.
Qed.

Lemma hosts_text_cases s :
  (exists h, HostsModel.deserialise s = Ok h) \/ (exists e, HostsModel.deserialise s = Err e).
Proof.
  destruct (HostsProofs.parse_hosts_total s) as [H1 H2].
  destruct (HostsModel.deserialise s); [left|right| |]; eauto; contradiction.
Qed.

Lemma parse_hosts_text_wf s h : parse_hosts_text s = Some h -> hosts_wf h.
Proof.
  unfold parse_hosts_text. destruct (HostsModel.deserialise s) as [h0| | |] eqn:E; try discriminate.
  intro H. inversion H; subst. exact (HostsNames.deserialise_names_wf s h0 E).
Qed.

(* C12's premise holds of every configuration read from text *)
Theorem text_config_hosts_wf ip a t : config_hosts_wf a (fs_of_text ip t).
Proof.
  unfold config_hosts_wf. induction (fst (hosts_file_seq a (fs_of_text ip t))) as [|r refs IH]; cbn [readable_hosts]; [constructor|].
  destruct (read_hosts (fs_read (fs_of_text ip t) r)) as [h|] eqn:E; [|exact IH].
  constructor; [|exact IH]. rewrite read_hosts_text in E. destruct (tfs_read t r) as [s|]; [|discriminate].
  eapply parse_hosts_text_wf. exact E.
Qed.

(* load_zone_configuration over texts never panics: neither parser model can (so the catch-all
   branches of parse_zone_text / parse_hosts_text are never taken for a Panic / OutOfFuel), and
   the loader cannot on what they return *)
Theorem load_text_total ip a t :
  (forall s, (exists z, ZoneFileModel.deserialise ip s = Ok z) \/ (exists e, ZoneFileModel.deserialise ip s = Err e))
  /\ (forall s, (exists h, HostsModel.deserialise s = Ok h) \/ (exists e, HostsModel.deserialise s = Err e))
  /\ exists o, load_res a (fs_of_text ip t) = Ok o.
Proof.
  split; [apply zone_text_cases|]. split; [apply hosts_text_cases|].
  exact (load_total a (fs_of_text ip t) (text_config_hosts_wf ip a t)).
Qed.

(* what makes a file bad in a role: it cannot be read, or the parser returns an error on its text *)
Definition zone_text_bad (ip : ZoneFileModel.ipcodec) (o : option text) : Prop :=
  o = None \/ exists s e, o = Some s /\ ZoneFileModel.deserialise ip s = Err e.
Definition hosts_text_bad (o : option text) : Prop :=
  o = None \/ exists s e, o = Some s /\ HostsModel.deserialise s = Err e.

(* a reader that keeps a total parser's Ok and maps everything else to None *)
Lemma parsed_none_iff {E A B} (des : text -> res E A) (g : A -> B) (o : option text) :
  (forall s, (exists a, des s = Ok a) \/ (exists e, des s = Err e)) ->
  match o with Some s => match des s with Ok a => Some (g a) | _ => None end | None => None end = None
  <-> (o = None \/ exists s e, o = Some s /\ des s = Err e).
Proof.
  intro Hc. destruct o as [s|]; [|split; [left|]; reflexivity].
  destruct (Hc s) as [[a Ha]|[e He]].
  - rewrite Ha. split; [discriminate|]. intros [H|(s' & e & H & He)]; [discriminate|]. inversion H; subst. congruence.
  - rewrite He. split; [|reflexivity]. intros _. right. eauto.
Qed.

Lemma read_zone_none_iff ip t r :
  read_zone (fs_read (fs_of_text ip t) r) = None <-> zone_text_bad ip (tfs_read t r).
Proof. rewrite read_zone_text. exact (parsed_none_iff (ZoneFileModel.deserialise ip) (fun z => z) _ (zone_text_cases ip)). Qed.

Lemma read_hosts_none_iff ip t r :
  read_hosts (fs_read (fs_of_text ip t) r) = None <-> hosts_text_bad (tfs_read t r).
Proof. rewrite read_hosts_text. exact (parsed_none_iff HostsModel.deserialise conv_hosts _ hosts_text_cases). Qed.

(* a configuration of texts is bad iff a directory cannot be listed, or a file of the effective
   sequence cannot be read, or its parser returns Err on its text *)
Definition text_config_bad (ip : ZoneFileModel.ipcodec) (a : config_args) (t : tfs) : Prop :=
  (exists d, In d (a_zone_dirs a ++ a_hosts_dirs a) /\ alookup leqb d (tfs_dirs t) = None) \/
  (exists r, In r (tzone_seq a t) /\ zone_text_bad ip (tfs_read t r)) \/
  (exists r, In r (thosts_seq a t) /\ hosts_text_bad (tfs_read t r)).

Theorem load_text_none_iff ip a t : load_text ip a t = None <-> text_config_bad ip a t.
Proof.
  unfold load_text, text_config_bad.
  rewrite (load_none_iff a (fs_of_text ip t) (text_config_hosts_wf ip a t)).
  unfold fs_of_text at 2 4. rewrite zone_seq_map, hosts_seq_map. fold (tzone_seq a t) (thosts_seq a t).
  (* disjunct by disjunct, the data-level condition is the text-level one *)
  setoid_rewrite (dir_lookup_map (parse_file ip)). setoid_rewrite (read_zone_none_iff ip).
  setoid_rewrite (read_hosts_none_iff ip). reflexivity.
Qed.

(* every input zone comes with its own flat reading (two files with different denotations may parse
   to the same zone value); ConfigProofs.chain_rel ties the chain of Zone::merge to the flat chain *)

(* what the loader merges for one apex: the apex and the flat file (records, SOA) *)
Definition finput := (dname * ffile)%type.

Definition zin : zone -> finput -> Prop := zin_of zone_wf.

Definition inputs_for (k : dname) (ins : list finput) : list ffile :=
  map snd (filter (fun kf => dname_eqb (fst kf) k) ins).

(* a zone file: (apex, SOA, insertions) -- ZoneParseDenotes.denote, the flat zone being flat_of_ops *)
Definition zden := (dname * option soa * list zop)%type.
Definition den_input (d : zden) : finput :=
  (fst (fst d), (flat_of_ops (fst (fst d)) (snd (fst d)) (snd d), snd (fst d))).

(* the text behind [r] is a rendering (ANY layout of the family) of an abstract zone file in the
   scope of C11_parse_denotes that denotes [d] *)
Definition zone_described (ip : ZoneFileModel.ipcodec) (t : tfs) (r : fref) (d : zden) : Prop :=
  exists ls, tfs_read t r = Some (ZoneParseDenotes.render ls)
             /\ ZoneParseDenotes.lines_ok ip ZoneParseDenotes.sp_init ls /\ ZoneParseDenotes.denote ls = Some d.

(* the text behind [r] is the rendering of a hosts syntax tree with valid lines (C14_hosts_parse_denotes) *)
Definition hosts_described (t : tfs) (r : fref) (hf : HostsSpec.file) : Prop :=
  tfs_read t r = Some (HostsSpec.render hf) /\ Forall (fun le => HostsSpec.valid_line (fst le)) hf.

Lemma readable_zones_described ip (Hip : ZoneRtLines.codec_rt ip) t : forall refs dens,
  Forall2 (zone_described ip t) refs dens ->
  Forall2 zin (readable_zones (fs_of_text ip t) refs) (map den_input dens)
  /\ (forall r, In r refs -> read_zone (fs_read (fs_of_text ip t) r) <> None)
  /\ Forall (fun d => Forall (fun o => op_type o <> RT_SOA) (snd d)) dens.
Proof.
  induction 1 as [|r d refs dens Hd _ IH].
  - split; [constructor|]. split; [intros r []|constructor].
  - destruct Hd as (ls & Hr & Hok & Hden). destruct d as [[apex so] ops].
    destruct (ZoneParseDenotes.parse_denotes ip Hip ls apex so ops Hok Hden) as (z & Hz & Ha & Hs & Hb & HR).
    assert (Hread : read_zone (fs_read (fs_of_text ip t) r) = Some z).
    { rewrite read_zone_text, Hr. unfold parse_zone_text. rewrite Hz. reflexivity. }
    destruct IH as (IH1 & IH2 & IH3). cbn [readable_zones map]. rewrite Hread. split; [|split].
    + constructor; [|exact IH1]. unfold zin, den_input. cbn [fst snd].
      split; [exact Ha|]. split; [eapply zone_build_wf_tree; exact Hb|]. split; [unfold zrepr; rewrite Ha; exact HR|exact Hs].
    + intros r' [<-|Hin]; [congruence|apply IH2; exact Hin].
    + constructor; [|exact IH3]. cbn [snd]. eapply ZoneNoSoa.denoted_ops_no_soa; eassumption.
Qed.

(* the hosts value read from a file agrees with the file's denotation and has one entry per name *)
Definition hin (h : hosts) (hf : HostsSpec.file) : Prop :=
  (forall k, alookup dname_eqb k (h_v4 h) = HostsSpec.d4 (HostsSpec.denote hf) k
             /\ alookup dname_eqb k (h_v6 h) = HostsSpec.d6 (HostsSpec.denote hf) k)
  /\ hosts_unique h.

Lemma readable_hosts_described ip t : forall refs hfs,
  Forall2 (hosts_described t) refs hfs ->
  Forall2 hin (readable_hosts (fs_of_text ip t) refs) hfs
  /\ (forall r, In r refs -> read_hosts (fs_read (fs_of_text ip t) r) <> None).
Proof.
  induction 1 as [|r hf refs hfs Hd _ IH].
  - split; [constructor|intros r []].
  - destruct Hd as (Hr & Hv). destruct (HostsProofs.hosts_parse_denotes hf Hv) as (h & Hh & Hag & Hnd).
    assert (Hread : read_hosts (fs_read (fs_of_text ip t) r) = Some (conv_hosts h)).
    { rewrite read_hosts_text, Hr. unfold parse_hosts_text. rewrite Hh. reflexivity. }
    destruct IH as (IH1 & IH2). cbn [readable_hosts]. rewrite Hread. split.
    + constructor; [|exact IH1]. split; [exact Hag|exact Hnd].
    + intros r' [<-|Hin]; [congruence|apply IH2; exact Hin].
Qed.

Lemma last_defined_rel {A B V} (P : A -> B -> Prop) (g : A -> option V) (g' : B -> option V) l l' :
  Forall2 P l l' -> (forall x y, P x y -> g x = g' y) -> last_defined g l = last_defined g' l'.
Proof.
  intros HF Hg. induction HF as [|x y l l' Hxy _ IH]; cbn [last_defined]; [reflexivity|].
  rewrite IH, (Hg x y Hxy). reflexivity.
Qed.

Lemma in_iff_alookup {V} (m : list (dname * V)) n a :
  NoDup (map fst m) -> (In (n, a) m <-> alookup dname_eqb n m = Some a).
Proof. intro Hnd. split; [apply (in_alookup dname_eqb dname_eqb_eq), Hnd|apply (alookup_in dname_eqb dname_eqb_eq)]. Qed.

(* the hosts files together: per name and family the address of the LAST file defining it *)
Definition merged_v4 (hfiles : list HostsSpec.file) (n : dname) : option N :=
  last_defined (fun hf => HostsSpec.d4 (HostsSpec.denote hf) n) hfiles.
Definition merged_v6 (hfiles : list HostsSpec.file) (n : dname) : option (list N) :=
  last_defined (fun hf => HostsSpec.d6 (HostsSpec.denote hf) n) hfiles.

(* the flat zone the hosts files denote: no wildcard records; exactly one A (AAAA) record with TTL
   HOSTS_TTL per name the merged denotation maps to a v4 (v6) address *)
Definition hosts_flat_denotes (hfiles : list HostsSpec.file) (hfl : fzone) : Prop :=
  f_wild hfl = [] /\
  forall p r, In (p, r) (f_norm hfl) <->
    (exists n a, merged_v4 hfiles n = Some a /\ labels n = p ++ [[]] /\ r = rec_v4 a) \/
    (exists n a, merged_v6 hfiles n = Some a /\ labels n = p ++ [[]] /\ r = rec_v6 a).

(* everything the loader merges, in application order: the zone files' denotations, then the hosts *)
Definition text_inputs (zdens : list zden) (hfl : fzone) : list finput :=
  map den_input zdens ++ [(root_domain, (hfl, None))].

(* Every zone file of the effective sequence is a rendering of an abstract zone file
   (C11_parse_denotes), every hosts file a rendering of a hosts syntax tree (C14_hosts_parse_denotes),
   every directory can be listed.  Then the configuration loads, and for every apex k the loaded zone
   REPRESENTS (the relation of C02 / C12) the flat chain -- union with duplicates removed, last SOA
   wins: C12_merge_union / C12_merge_one_soa, whose side conditions are part of the conclusion -- of
   the DENOTATIONS of the zone files with apex k in application order, followed, for k the root, by
   the flat zone the hosts files denote (last writer wins per name and family, no SOA). *)
Theorem load_text_denotes ip (Hip : ZoneRtLines.codec_rt ip) a t zdens hfiles :
  (forall d, In d (a_zone_dirs a ++ a_hosts_dirs a) -> alookup leqb d (tfs_dirs t) <> None) ->
  Forall2 (zone_described ip t) (tzone_seq a t) zdens ->
  Forall2 (hosts_described t) (thosts_seq a t) hfiles ->
  exists zs hfl,
    load_text ip a t = Some zs
    /\ hosts_flat_denotes hfiles hfl
    /\ Forall soa_ok (map snd (text_inputs zdens hfl))
    /\ Forall (fun fa => NoDup (f_norm (fst fa)) /\ NoDup (f_wild (fst fa))) (map snd (text_inputs zdens hfl))
    /\ forall k,
         match alookup dname_eqb k zs, flat_chain (inputs_for k (text_inputs zdens hfl)) with
         | Some m, Some fm => z_apex m = k /\ zrepr m fm
         | None, None => inputs_for k (text_inputs zdens hfl) = []
         | _, _ => False
         end.
Proof.
  intros Hdirs HZ HH. set (f := fs_of_text ip t).
  pose proof (text_config_hosts_wf ip a t) as Hwf. fold f in Hwf.
  assert (Ezs : fst (zone_file_seq a f) = tzone_seq a t) by (unfold f, fs_of_text; rewrite zone_seq_map; reflexivity).
  assert (Ehs : fst (hosts_file_seq a f) = thosts_seq a t) by (unfold f, fs_of_text; rewrite hosts_seq_map; reflexivity).
  destruct (readable_zones_described ip Hip t _ _ HZ) as (HZin & HZread & HZnosoa). fold f in HZin, HZread.
  destruct (readable_hosts_described ip t _ _ HH) as (HHin & HHread). fold f in HHin, HHread.
  destruct (load a f) as [zs|] eqn:El.
  2:{ (* no directory, zone file or hosts file is bad *)
      exfalso. apply (load_none_iff a f Hwf) in El as [(d & Hin & Hd)|[(r & Hin & Hr)|(r & Hin & Hr)]].
      - exact (Hdirs d Hin (proj1 (dir_lookup_map (parse_file ip) t d) Hd)).
      - rewrite Ezs in Hin. exact (HZread r Hin Hr).
      - rewrite Ehs in Hin. exact (HHread r Hin Hr). }
  destruct (load_inputs a f zs Hwf El) as (hz & Hh & Hha & Hhs & HhR & Hk).
  exists zs, (hosts_flat (loaded_hosts a f)). split; [exact El|].
  (* the hosts: lookups of the merged value are the merged denotation *)
  assert (Huniq : Forall hosts_unique (readable_hosts f (thosts_seq a t))).
  { clear -HHin. induction HHin as [|h hf l l' [_ Hu] _ IH]; constructor; assumption. }
  assert (Hlk : forall n, alookup dname_eqb n (h_v4 (loaded_hosts a f)) = merged_v4 hfiles n /\
                         alookup dname_eqb n (h_v6 (loaded_hosts a f)) = merged_v6 hfiles n).
  { intro n. destruct (loaded_hosts_last_wins a f n) as [E4 E6]; [rewrite Ehs; exact Huniq|].
    rewrite E4, E6, Ehs. unfold merged_v4, merged_v6.
    split; apply (last_defined_rel hin _ _ _ _ HHin); intros h hf [Hag _]; apply Hag. }
  assert (HU : hosts_unique (loaded_hosts a f)).
  { rewrite loaded_hosts_fold. apply (fold_left_inv hosts_unique); [intros x y; apply hosts_merge_unique|apply hosts_new_unique]. }
  split.
  { destruct (hosts_flat_records (loaded_hosts a f)) as [Ew Hrec]. split; [exact Ew|]. intros p r. rewrite Hrec.
    assert (H4 : forall n x, In (n, x) (h_v4 (loaded_hosts a f)) <-> merged_v4 hfiles n = Some x)
      by (intros n x; rewrite <- (proj1 (Hlk n)); apply in_iff_alookup, HU).
    assert (H6 : forall n x, In (n, x) (h_v6 (loaded_hosts a f)) <-> merged_v6 hfiles n = Some x)
      by (intros n x; rewrite <- (proj2 (Hlk n)); apply in_iff_alookup, HU).
    setoid_rewrite H4. setoid_rewrite H6. reflexivity. }
  split.
  { unfold text_inputs. rewrite map_app. apply Forall_app. split; [|constructor; [apply hosts_flat_soa_ok|constructor]].
    rewrite map_map. apply Forall_map. eapply Forall_impl; [|exact HZnosoa].
    intros [[apex so] ops] Hops. unfold den_input. cbn [fst snd] in *. apply flat_of_ops_soa_ok. exact Hops. }
  split.
  { unfold text_inputs. rewrite map_app. apply Forall_app. split.
    - rewrite map_map. apply Forall_map, Forall_forall. intros [[apex so] ops] _. unfold den_input. cbn [fst snd].
      apply flat_of_ops_nodup.
    - constructor; [|constructor]. cbn [map snd fst]. unfold hosts_flat. apply flat_of_ops_nodup. }
  (* per apex *)
  intro k. rewrite Hk. apply (chain_rel zone_wf zone_merge_repr_wf). unfold zone_inputs, text_inputs. rewrite Ezs.
  apply Forall2_app; [exact HZin|]. constructor; [|constructor].
  unfold zin. cbn [fst snd]. split; [exact Hha|]. split; [|split; [exact HhR|exact Hhs]].
  unfold zone_wf. rewrite hosts_to_zone_build in Hh. eapply zone_build_wf_tree. exact Hh.
Qed.

(* ... and what that flat chain holds, spelled out (C12_merge_union + C12_merge_one_soa on the
   denotations): an ordinary record is in the zone loaded for apex k iff some file with that apex
   denotes it -- except that an apex SOA record is there only if no later file supplies a SOA --; a
   wildcard record iff some file denotes it; nothing twice; exactly one SOA record, that of the last
   file supplying one *)
Theorem load_text_records ip (Hip : ZoneRtLines.codec_rt ip) a t zdens hfiles :
  (forall d, In d (a_zone_dirs a ++ a_hosts_dirs a) -> alookup leqb d (tfs_dirs t) <> None) ->
  Forall2 (zone_described ip t) (tzone_seq a t) zdens ->
  Forall2 (hosts_described t) (thosts_seq a t) hfiles ->
  exists zs hfl,
    load_text ip a t = Some zs /\ hosts_flat_denotes hfiles hfl /\
    forall k m, alookup dname_eqb k zs = Some m ->
      let l := inputs_for k (text_inputs zdens hfl) in
      exists fm, z_apex m = k /\ zrepr m fm /\
        (forall x, In x (f_norm fm) <-> exists pre fa post, l = pre ++ fa :: post /\ In x (f_norm (fst fa)) /\ survives x post) /\
        (forall x, In x (f_wild fm) <-> exists fa, In fa l /\ In x (f_wild (fst fa))) /\
        NoDup (f_norm fm) /\ NoDup (f_wild fm) /\
        (forall r, (In ([], r) (f_norm fm) /\ zr_type r = RT_SOA) <-> exists so, last_defined snd l = Some so /\ r = soa_zrec so).
Proof.
  intros Hdirs HZ HH. destruct (load_text_denotes ip Hip a t zdens hfiles Hdirs HZ HH) as (zs & hfl & Hl & Hhf & Hsoa & Hnd & Hk).
  exists zs, hfl. split; [exact Hl|]. split; [exact Hhf|]. intros k m Hm l. specialize (Hk k). rewrite Hm in Hk. fold l in Hk.
  destruct (flat_chain l) as [fm|] eqn:Ec; [|contradiction]. destruct Hk as [Ha HR].
  assert (Hsub : forall P : ffile -> Prop, Forall P (map snd (text_inputs zdens hfl)) -> Forall P l).
  { intros P HP. unfold l, inputs_for. rewrite Forall_forall in *. intros fa Hin. apply in_map_iff in Hin as (kf & <- & Hin).
    apply filter_In in Hin as [Hin _]. apply HP. apply in_map. exact Hin. }
  exists fm. split; [exact Ha|]. split; [exact HR|].
  split; [intro x; apply chain_norm; exact Ec|]. split; [intro x; apply chain_wild; exact Ec|].
  destruct (chain_nodup l fm (Hsub _ Hnd) Ec) as [N1 N2]. split; [exact N1|]. split; [exact N2|].
  apply chain_one_soa; [apply Hsub; exact Hsoa|exact Ec].
Qed.

(* one iteration of reload_task over the files as they are (texts) when they are read *)
Definition reload_text (ip : ZoneFileModel.ipcodec) (a : config_args) (st : state) (t : tfs) : state :=
  reload a st (fs_of_text ip t).

(* all or nothing, with "nothing" characterised on the TEXTS: the previous state stays exactly when a
   directory cannot be listed, a file cannot be read, or a parser returns an error on a file's text
   -- one bad file among many keeps everything; otherwise the state becomes the freshly loaded
   configuration, whatever it was before *)
Theorem reload_text_all_or_nothing ip a st t :
  (text_config_bad ip a t -> load_text ip a t = None /\ reload_text ip a st t = st)
  /\ (~ text_config_bad ip a t ->
      exists z, load_text ip a t = Some z /\ reload_text ip a st t = z /\ forall st', reload_text ip a st' t = z).
Proof.
  split.
  - intro Hb. apply load_text_none_iff in Hb. split; [exact Hb|]. apply reload_failure. exact Hb.
  - intro Hg. destruct (load_text ip a t) as [z|] eqn:E.
    + exists z. split; [reflexivity|]. split; [apply reload_success; exact E|]. intro st'. apply reload_success. exact E.
    + exfalso. apply Hg. apply load_text_none_iff. exact E.
Qed.

(* a history of SIGUSR1s (each with the texts of the files at that moment) and queries *)
Inductive tevent := TEvReload (t : tfs) | TEvQuery (q : question).
Definition event_of (ip : ZoneFileModel.ipcodec) (e : tevent) : event :=
  match e with TEvReload t => EvReload (fs_of_text ip t) | TEvQuery q => EvQuery q end.
Definition run_text ip a st (evs : list tevent) : list (res unit answer) := run a st (map (event_of ip) evs).
Definition states_text ip a st (evs : list tevent) : list state := states a st (map (event_of ip) evs).

Lemma queries_text ip evs :
  queries (map (event_of ip) evs) = flat_map (fun e => match e with TEvQuery q => [q] | TEvReload _ => [] end) evs.
Proof. induction evs as [|[t|q] evs IH]; cbn [map event_of queries flat_map app]; [reflexivity|exact IH|f_equal; exact IH]. Qed.

(* every reply is computed from ONE state; every state is the initial one or the result of loading
   ONE text file system completely *)
Theorem run_text_one_config ip a st evs :
  Forall2 (fun q r => exists s, In s (states_text ip a st evs) /\ r = query s q)
          (flat_map (fun e => match e with TEvQuery q => [q] | TEvReload _ => [] end) evs) (run_text ip a st evs)
  /\ (forall s, In s (states_text ip a st evs) ->
        s = st \/ exists t, In (TEvReload t) evs /\ load_text ip a t = Some s /\ ~ text_config_bad ip a t).
Proof.
  split.
  - rewrite <- (queries_text ip). apply run_one_state.
  - intros s Hs. destruct (states_origin a _ st s Hs) as [->|(f & Hin & Hl)]; [left; reflexivity|right].
    apply in_map_iff in Hin as ([t|q] & He & Hin); cbn [event_of] in He; inversion He; subst.
    exists t. split; [exact Hin|]. split; [exact Hl|]. intro Hb. apply load_text_none_iff in Hb. unfold load_text in Hb. congruence.
Qed.

(* "e. 5 IN A 1.2.3.4\n" -- a zone file without SOA (apex = the root); "1.2.3.4 h\n" -- a hosts file;
   "$INCLUDE x\n" -- rejected by Zone::deserialise *)
Definition ex_zone_text : text := [101;46;32;53;32;73;78;32;65;32;49;46;50;46;51;46;52;10].
Definition ex_hosts_text : text := [49;46;50;46;51;46;52;32;104;10].
Definition ex_bad_text : text := [36;73;78;67;76;85;68;69;32;120;10].

Definition ex_tfs : tfs :=
  {| tfs_files := [([122], Some ex_zone_text); ([104], Some ex_hosts_text)]; tfs_dirs := [] |}.
Definition ex_tfs_bad : tfs :=
  {| tfs_files := [([122], Some ex_bad_text); ([104], Some ex_hosts_text)]; tfs_dirs := [] |}.
Definition ex_targs : config_args :=
  {| a_hosts_files := [[104]]; a_hosts_dirs := []; a_zone_files := [[122]]; a_zone_dirs := [] |}.

Example ex_text_loads :
  option_map (fun zs => option_map (fun z => (zone_resolve z ex_apex RT_A, zone_resolve z ex_host RT_A)) (alookup dname_eqb root_domain zs))
             (load_text_zf ex_targs ex_tfs)
  = Some (Some (Some (Ok (ZAnswer [{| rr_name := ex_apex; rr_type := RT_A; rr_class := RC_IN; rr_ttl := 5; rr_data := RD_A 16909060 |}])),
                Some (Ok (ZAnswer [{| rr_name := ex_host; rr_type := RT_A; rr_class := RC_IN; rr_ttl := HOSTS_TTL; rr_data := RD_A 16909060 |}])))).
Proof. vm_compute. reflexivity. Qed.

Example ex_text_bad : load_text_zf ex_targs ex_tfs_bad = None /\ text_config_bad ZfInstance.zf_codec ex_targs ex_tfs_bad.
Proof.
  assert (H : load_text_zf ex_targs ex_tfs_bad = None) by (vm_compute; reflexivity).
  split; [exact H|]. apply load_text_none_iff. exact H.
Qed.
