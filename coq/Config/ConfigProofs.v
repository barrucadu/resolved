(* Config/ConfigProofs.v -- lemmas about Config/ConfigModel.v (C12, C19).
   The loader as a fold over the readable files and a flag for the others (C12); reload and runs of
   the server (C19); per apex, the loaded zone is the chain of Zone::merge over the files of that apex,
   which on flat zones (Zone/ZoneFlat.v) is the union with the last SOA. *)
From Coq Require Import Permutation Sorting.Sorted PeanoNat.
From RV Require Import Base.Prelude Name.NameModel Name.NameSpec Name.NameProofs Wire.WireTypes
     Zone.ZoneModel Zone.ZoneFlat Zone.ZoneProofs Zone.ZoneMergeProofs Config.ConfigModel.

Definition is_none {A} (o : option A) : bool := match o with Some _ => false | None => true end.

Definition ble (a b : list byte) : Prop := bytes_leb a b = true.

Lemma bytes_leb_total a : forall b, bytes_leb a b = false -> bytes_leb b a = true.
Proof.
  induction a as [|x a IH]; intros [|y b]; cbn [bytes_leb]; try discriminate; try reflexivity.
  destruct (x <? y) eqn:E1, (y <? x) eqn:E2; try discriminate; try reflexivity. apply IH.
Qed.

Lemma bytes_leb_refl a : bytes_leb a a = true.
Proof. induction a as [|x a IH]; cbn [bytes_leb]; [reflexivity|]. rewrite N.ltb_irrefl. exact IH. Qed.

Lemma bytes_leb_trans a : forall b c, bytes_leb a b = true -> bytes_leb b c = true -> bytes_leb a c = true.
Proof.
  induction a as [|x a IH]; intros [|y b] [|z c]; cbn [bytes_leb]; try discriminate; try reflexivity.
  intros H1 H2. revert H1 H2.
  destruct (N.ltb_spec x y), (N.ltb_spec y x), (N.ltb_spec y z), (N.ltb_spec z y), (N.ltb_spec x z), (N.ltb_spec z x);
    try discriminate; try lia; try reflexivity. apply IH.
Qed.

Lemma bytes_leb_antisym a : forall b, bytes_leb a b = true -> bytes_leb b a = true -> a = b.
Proof.
  induction a as [|x a IH]; intros [|y b]; cbn [bytes_leb]; try discriminate; try reflexivity.
  destruct (N.ltb_spec x y), (N.ltb_spec y x); try discriminate; try lia.
  intros H1 H2. assert (x = y) by lia. subst. f_equal. apply IH; assumption.
Qed.

Lemma sort_names_perm l : Permutation l (sort_names l).
Proof. exact (isort_perm bytes_leb l). Qed.

Lemma sort_names_sorted l : StronglySorted ble (sort_names l).
Proof. exact (isort_sorted bytes_leb bytes_leb_total bytes_leb_trans l). Qed.

Definition file_names (es : dir) : list fname := map fst (filter is_file_entry es).

(* what one -Z / -A directory contributes: its non-directory entries, in byte-wise sorted order *)
Definition dir_chunk (f : fs) (d : ConfigModel.path) (chunk : list fref) : Prop :=
  match alookup leqb d (fs_dirs f) with
  | Some es => exists names, chunk = map (RDirFile d) names /\ Permutation names (file_names es) /\ StronglySorted ble names
  | None => chunk = []
  end.

Definition dir_missing (f : fs) (d : ConfigModel.path) : bool := is_none (alookup leqb d (fs_dirs f)).

Lemma gather_dirs_spec f : forall dirs acc err,
  exists chunks, Forall2 (dir_chunk f) dirs chunks /\
    gather_dirs f dirs acc err = (acc ++ concat chunks, err || existsb (dir_missing f) dirs).
Proof.
  induction dirs as [|d t IH]; intros acc err; cbn [gather_dirs].
  - exists []. split; [constructor|]. cbn [concat existsb]. rewrite app_nil_r, orb_false_r. reflexivity.
  - unfold get_files_from_dir. destruct (alookup leqb d (fs_dirs f)) as [es|] eqn:E.
    + destruct (IH (acc ++ map (RDirFile d) (sort_names (map fst (filter is_file_entry es)))) err) as (chunks & HF & Hg).
      exists (map (RDirFile d) (sort_names (file_names es)) :: chunks). split.
      * constructor; [|exact HF]. unfold dir_chunk. rewrite E. exists (sort_names (file_names es)).
        split; [reflexivity|]. split; [apply Permutation_sym, sort_names_perm|apply sort_names_sorted].
      * rewrite Hg. cbn [concat existsb]. unfold dir_missing at 2. rewrite E. cbn [is_none orb].
        rewrite <- app_assoc. reflexivity.
    + destruct (IH acc true) as (chunks & HF & Hg). exists ([] :: chunks). split.
      * constructor; [|exact HF]. unfold dir_chunk. rewrite E. reflexivity.
      * rewrite Hg. cbn [concat existsb app]. unfold dir_missing at 2. rewrite E. cbn [is_none orb].
        rewrite orb_true_r. reflexivity.
Qed.

(* what every step preserves, the fold preserves *)
Lemma fold_left_inv {A B} (P : A -> Prop) (f : A -> B -> A) l : (forall a b, P a -> P (f a b)) -> forall a, P a -> P (fold_left f l a).
Proof. intro Hf. induction l as [|b l IH]; intros a Ha; cbn [fold_left]; auto. Qed.

(* ... given what the elements satisfy *)
Lemma fold_left_Forall {A B} (P : A -> Prop) (Q : B -> Prop) (f : A -> B -> A) l :
  (forall a b, P a -> Q b -> P (f a b)) -> Forall Q l -> forall a, P a -> P (fold_left f l a).
Proof. intros Hf HF. induction HF as [|b l Hb _ IH]; intros a Ha; cbn [fold_left]; auto. Qed.

Definition zones_keyed (zs : zones) : Prop := Forall (fun kz => z_apex (snd kz) = fst kz) zs.

Lemma zone_merge_same_apex a b : z_apex a = z_apex b ->
  exists m, zone_merge a b = Some m /\ z_apex m = z_apex a /\
            z_soa m = match z_soa b with Some s => Some s | None => z_soa a end.
Proof.
  intro H. unfold zone_merge. rewrite H, dname_eqb_refl. cbn [negb].
  destruct (z_soa b); eexists; (split; [reflexivity|]); cbn [z_apex z_soa]; auto.
Qed.

Lemma insert_merge_ok zs z : zones_keyed zs ->
  exists zs', zones_insert_merge zs z = Ok zs' /\ zones_keyed zs'.
Proof.
  intro Hk. unfold zones_insert_merge. destruct (alookup dname_eqb (z_apex z) zs) as [mine|] eqn:E.
  - pose proof (alookup_forall dname_eqb dname_eqb_eq _ _ _ _ Hk E) as Hin. cbn [fst snd] in Hin.
    destruct (zone_merge_same_apex mine z Hin) as (m & -> & Hap & _).
    eexists. split; [reflexivity|]. apply (areplace_forall dname_eqb dname_eqb_eq); [exact Hk|]. cbn [fst snd]. congruence.
  - eexists. split; [reflexivity|]. apply (ainsert_forall dname_eqb dname_eqb_eq); [exact Hk|reflexivity].
Qed.

(* insert_merge of a list of zones, in order *)
Fixpoint insert_merge_all (zs : zones) (l : list zone) : res unit zones :=
  match l with
  | [] => Ok zs
  | z :: t => let* zs' := zones_insert_merge zs z in insert_merge_all zs' t
  end.

Lemma insert_merge_all_ok : forall l zs, zones_keyed zs ->
  exists zs', insert_merge_all zs l = Ok zs' /\ zones_keyed zs'.
Proof.
  induction l as [|z t IH]; intros zs Hk; cbn [insert_merge_all]; [eauto|].
  destruct (insert_merge_ok zs z Hk) as (zs1 & -> & Hk1). apply IH, Hk1.
Qed.

(* the two file loops: a fold over the readable files, and a flag for the others *)
Definition zone_unreadable (f : fs) (r : fref) : bool := is_none (read_zone (fs_read f r)).
Definition hosts_unreadable (f : fs) (r : fref) : bool := is_none (read_hosts (fs_read f r)).

Fixpoint readable_zones (f : fs) (refs : list fref) : list zone :=
  match refs with
  | [] => []
  | r :: t => match read_zone (fs_read f r) with Some z => z :: readable_zones f t | None => readable_zones f t end
  end.

Fixpoint readable_hosts (f : fs) (refs : list fref) : list hosts :=
  match refs with
  | [] => []
  | r :: t => match read_hosts (fs_read f r) with Some h => h :: readable_hosts f t | None => readable_hosts f t end
  end.

Lemma load_zone_files_eq f : forall refs zs err,
  load_zone_files f refs zs err =
  let* zs' := insert_merge_all zs (readable_zones f refs) in Ok (zs', err || existsb (zone_unreadable f) refs).
Proof.
  induction refs as [|r t IH]; intros zs err; cbn [load_zone_files readable_zones existsb insert_merge_all bind].
  - rewrite orb_false_r. reflexivity.
  - unfold zone_unreadable at 1. destruct (read_zone (fs_read f r)) as [z|]; cbn [is_none orb insert_merge_all].
    + destruct (zones_insert_merge zs z); cbn [bind]; [apply IH|reflexivity..].
    + rewrite IH, orb_true_r. reflexivity.
Qed.

Lemma load_hosts_files_eq f : forall refs h err,
  load_hosts_files f refs h err =
  (fold_left hosts_merge (readable_hosts f refs) h, err || existsb (hosts_unreadable f) refs).
Proof.
  induction refs as [|r t IH]; intros h err; cbn [load_hosts_files readable_hosts existsb fold_left].
  - rewrite orb_false_r. reflexivity.
  - unfold hosts_unreadable at 1. destruct (read_hosts (fs_read f r)); cbn [is_none orb fold_left]; rewrite IH; [reflexivity|].
    rewrite orb_true_r. reflexivity.
Qed.

(* what makes a configuration bad: a directory that cannot be listed, a zone file that cannot be
   read or parsed, a hosts file that cannot be read or parsed *)
Definition config_bad (a : config_args) (f : fs) : bool :=
  existsb (dir_missing f) (a_zone_dirs a) || existsb (dir_missing f) (a_hosts_dirs a)
  || existsb (zone_unreadable f) (fst (zone_file_seq a f))
  || existsb (hosts_unreadable f) (fst (hosts_file_seq a f)).

(* zone_file_seq and hosts_file_seq are both of the form gather_dirs f dirs (map RFile files) false *)
Lemma file_seq_err f dirs files : snd (gather_dirs f dirs (map RFile files) false) = existsb (dir_missing f) dirs.
Proof. destruct (gather_dirs_spec f dirs (map RFile files) false) as (c & _ & ->). reflexivity. Qed.

Lemma file_seq_fst f dirs files :
  exists chunks, Forall2 (dir_chunk f) dirs chunks /\
    fst (gather_dirs f dirs (map RFile files) false) = map RFile files ++ concat chunks.
Proof. destruct (gather_dirs_spec f dirs (map RFile files) false) as (c & HF & ->). eauto. Qed.

Theorem dir_sorted_order a f :
  (exists chunks, Forall2 (dir_chunk f) (a_zone_dirs a) chunks /\
                  fst (zone_file_seq a f) = map RFile (a_zone_files a) ++ concat chunks) /\
  (exists chunks, Forall2 (dir_chunk f) (a_hosts_dirs a) chunks /\
                  fst (hosts_file_seq a f) = map RFile (a_hosts_files a) ++ concat chunks).
Proof. split; [exact (file_seq_fst f _ _)|exact (file_seq_fst f _ _)]. Qed.

(* the zones / hosts accumulated by the two loops, whatever the error flag *)
Definition loaded_zones (a : config_args) (f : fs) : res unit zones :=
  insert_merge_all [] (readable_zones f (fst (zone_file_seq a f))).
Definition loaded_hosts (a : config_args) (f : fs) : hosts :=
  fst (load_hosts_files f (fst (hosts_file_seq a f)) hosts_new false).

Lemma loaded_hosts_fold a f : loaded_hosts a f = fold_left hosts_merge (readable_hosts f (fst (hosts_file_seq a f))) hosts_new.
Proof. unfold loaded_hosts. rewrite load_hosts_files_eq. reflexivity. Qed.

Theorem load_res_spec a f :
  exists zs, loaded_zones a f = Ok zs /\ zones_keyed zs /\
    load_res a f =
      if config_bad a f then Ok None
      else let* hz := hosts_to_zone (loaded_hosts a f) in
           let* zs' := zones_insert_merge zs hz in Ok (Some zs').
Proof.
  destruct (insert_merge_all_ok (readable_zones f (fst (zone_file_seq a f))) [] (Forall_nil _)) as (zs & Hz & Hk).
  exists zs. split; [exact Hz|]. split; [exact Hk|].
  unfold load_res, config_bad. rewrite loaded_hosts_fold.
  pose proof (file_seq_err f (a_zone_dirs a) (a_zone_files a)) as Ez.
  pose proof (file_seq_err f (a_hosts_dirs a) (a_hosts_files a)) as Eh.
  fold (zone_file_seq a f) in Ez. fold (hosts_file_seq a f) in Eh.
  destruct (zone_file_seq a f) as [zp e1]. destruct (hosts_file_seq a f) as [hp e2]. cbn [fst snd] in *. subst e1 e2.
  rewrite load_zone_files_eq, Hz. cbn [bind]. rewrite load_hosts_files_eq. reflexivity.
Qed.

Lemma reload_success a st f z : load a f = Some z -> reload a st f = z.
Proof. unfold reload. intros ->. reflexivity. Qed.

Lemma reload_failure a st f : load a f = None -> reload a st f = st.
Proof. unfold reload. intros ->. reflexivity. Qed.

(* the new state is a function of the files only *)
Lemma reload_forgets a st st' f : load a f <> None -> reload a st f = reload a st' f.
Proof. unfold reload. destruct (load a f); [reflexivity|congruence]. Qed.

Fixpoint queries (evs : list event) : list question :=
  match evs with
  | [] => []
  | EvReload _ :: t => queries t
  | EvQuery q :: t => q :: queries t
  end.

(* every state of the history is the initial one or what ONE load produced *)
Lemma states_origin a : forall evs st s, In s (states a st evs) ->
  s = st \/ exists f, In (EvReload f) evs /\ load a f = Some s.
Proof.
  induction evs as [|[f|q] t IH]; intros st s H; cbn [states] in H.
  - destruct H as [<-|[]]. left. reflexivity.
  - destruct H as [<-|H]; [left; reflexivity|].
    destruct (IH _ _ H) as [->|(f' & Hin & Hl)].
    + unfold reload. destruct (load a f) as [z|] eqn:E; [|left; reflexivity].
      right. exists f. split; [left; reflexivity|exact E].
    + right. exists f'. split; [right; exact Hin|exact Hl].
  - destruct (IH _ _ H) as [->|(f' & Hin & Hl)]; [left; reflexivity|].
    right. exists f'. split; [right; exact Hin|exact Hl].
Qed.

Lemma states_head a evs st : In st (states a st evs).
Proof.
  revert st. induction evs as [|[f|q] t IH]; intro st; cbn [states]; [left; reflexivity|left; reflexivity|apply IH].
Qed.

Lemma Forall2_weaken {A B} (P Q : A -> B -> Prop) l l' :
  (forall x y, P x y -> Q x y) -> Forall2 P l l' -> Forall2 Q l l'.
Proof. intros H HF. induction HF; constructor; auto. Qed.

Lemma Forall2_map_r {A B} (P : A -> B -> Prop) (g : A -> B) l : Forall (fun x => P x (g x)) l -> Forall2 P l (map g l).
Proof. induction 1; constructor; assumption. Qed.

Lemma run_one_state a : forall evs st,
  Forall2 (fun q r => exists s, In s (states a st evs) /\ r = query s q) (queries evs) (run a st evs).
Proof.
  induction evs as [|[f|q] t IH]; intro st; cbn [queries run states].
  - constructor.
  - eapply Forall2_weaken; [|apply IH]. intros q r (s & Hin & ->). exists s. split; [right; exact Hin|reflexivity].
  - constructor.
    + exists st. split; [apply states_head|reflexivity].
    + apply IH.
Qed.

Section AL.
  Context {V : Type}.
  Notation al := (list (dname * V)).
  Notation lk := (alookup dname_eqb).

  Lemma amerge_nodup (other self : al) : NoDup (map fst self) -> NoDup (map fst (amerge self other)).
  Proof. apply (fold_left_inv (fun m => NoDup (map fst m))). intros m kv. apply (ainsert_nodup dname_eqb dname_eqb_eq). Qed.

  (* Hosts::merge on one family: the other file's entry wins *)
  Lemma lk_amerge n (other self : al) : NoDup (map fst other) ->
    lk n (amerge self other) = match lk n other with Some v => Some v | None => lk n self end.
  Proof.
    unfold amerge. revert self. induction other as [|[k v] t IH]; intros self H; cbn [fold_left alookup map fst snd] in *; [reflexivity|].
    inversion H; subst. rewrite (IH _ H3), (alookup_ainsert dname_eqb dname_eqb_eq). destruct (dname_eqb n k) eqn:En; [|reflexivity].
    apply dname_eqb_eq in En. subst n. rewrite (alookup_notin_none dname_eqb dname_eqb_eq _ _ H2). reflexivity.
  Qed.
End AL.

Definition hosts_unique (h : hosts) : Prop := NoDup (map fst (h_v4 h)) /\ NoDup (map fst (h_v6 h)).

Lemma hosts_new_unique : hosts_unique hosts_new.
Proof. split; constructor. Qed.

Lemma hosts_merge_unique a b : hosts_unique a -> hosts_unique (hosts_merge a b).
Proof. intros [H4 H6]. split; cbn [hosts_merge h_v4 h_v6]; apply amerge_nodup; assumption. Qed.

Lemma hosts_of_entries_unique es : hosts_unique (hosts_of_entries es).
Proof.
  unfold hosts_of_entries. apply (fold_left_inv hosts_unique); [|exact hosts_new_unique].
  intros h e [H4 H6]. destruct e; split; cbn [hosts_add h_v4 h_v6]; try assumption; apply (ainsert_nodup dname_eqb dname_eqb_eq); assumption.
Qed.

(* first defined value, searching from the LAST file backwards *)
Fixpoint last_defined {A V} (get : A -> option V) (files : list A) : option V :=
  match files with
  | [] => None
  | h :: t => match last_defined get t with Some v => Some v | None => get h end
  end.

(* one address family [pr] of Hosts::merge over a list of files *)
Lemma fold_amerge_last {V} (pr : hosts -> list (dname * V)) n :
  (forall a b, pr (hosts_merge a b) = amerge (pr a) (pr b)) -> (forall h, hosts_unique h -> NoDup (map fst (pr h))) ->
  forall files h0, Forall hosts_unique files ->
  alookup dname_eqb n (pr (fold_left hosts_merge files h0)) =
  match last_defined (fun h => alookup dname_eqb n (pr h)) files with Some v => Some v | None => alookup dname_eqb n (pr h0) end.
Proof.
  intros Hpr Hu. induction files as [|h t IH]; intros h0 HF; cbn [fold_left last_defined]; [reflexivity|].
  inversion HF; subst. rewrite (IH _ H2). destruct (last_defined _ t); [reflexivity|].
  rewrite Hpr. apply lk_amerge, Hu. assumption.
Qed.

Lemma loaded_hosts_last_wins a f n :
  Forall hosts_unique (readable_hosts f (fst (hosts_file_seq a f))) ->
  alookup dname_eqb n (h_v4 (loaded_hosts a f)) =
    last_defined (fun h => alookup dname_eqb n (h_v4 h)) (readable_hosts f (fst (hosts_file_seq a f))) /\
  alookup dname_eqb n (h_v6 (loaded_hosts a f)) =
    last_defined (fun h => alookup dname_eqb n (h_v6 h)) (readable_hosts f (fst (hosts_file_seq a f))).
Proof.
  intro H. rewrite loaded_hosts_fold.
  rewrite (fold_amerge_last h_v4 n (fun _ _ => eq_refl) (fun h => @proj1 _ _) _ _ H).
  rewrite (fold_amerge_last h_v6 n (fun _ _ => eq_refl) (fun h => @proj2 _ _) _ _ H).
  split; destruct (last_defined _ _); reflexivity.
Qed.

(* the record tree of [z] holds exactly the records of the flat zone [fz] (Zone/ZoneProofs.v) *)
Definition zrepr (z : zone) (fz : fzone) : Prop := R (labels (z_apex z)) (z_records z) fz.

Definition op_v4 (kv : dname * N) : zop :=
  {| op_wild := false; op_name := fst kv; op_type := RT_A; op_data := RD_A (snd kv); op_ttl := HOSTS_TTL |}.
Definition op_v6 (kv : dname * list N) : zop :=
  {| op_wild := false; op_name := fst kv; op_type := RT_AAAA; op_data := RD_AAAA (snd kv); op_ttl := HOSTS_TTL |}.
Definition hosts_ops (h : hosts) : list zop := map op_v4 (h_v4 h) ++ map op_v6 (h_v6 h).

(* the flat zone the hosts data stands for: the root apex, no SOA, one A / AAAA record per entry *)
Definition hosts_flat (h : hosts) : fzone := flat_of_ops root_domain None (hosts_ops h).

Definition hosts_wf (h : hosts) : Prop := Forall wf_name (map fst (h_v4 h)) /\ Forall wf_name (map fst (h_v6 h)).

Lemma insert_all_apply {A} (g : A -> zop) l : forall z,
  insert_all (fun z x => zone_apply z (g x)) z l = zone_apply_all z (map g l).
Proof.
  induction l as [|x t IH]; intro z; cbn [insert_all map zone_apply_all]; [reflexivity|].
  destruct (zone_apply z (g x)); cbn [bind]; auto.
Qed.

Lemma hosts_to_zone_build h : hosts_to_zone h = zone_build root_domain None (hosts_ops h).
Proof.
  unfold hosts_to_zone, zone_build, hosts_ops. rewrite zone_apply_all_app, <- (insert_all_apply op_v4).
  unfold bind.
  match goal with |- match ?a with _ => _ end = match ?b with _ => _ end => change a with b; destruct b; try reflexivity end.
  rewrite <- (insert_all_apply op_v6). reflexivity.
Qed.

Lemma hosts_ops_wf h : hosts_wf h -> Forall (fun o => wf_name (op_name o)) (hosts_ops h).
Proof.
  intros [H4 H6]. unfold hosts_ops. apply Forall_app. split; rewrite Forall_map; rewrite Forall_map in *;
    (eapply Forall_impl; [|eassumption]); intros kv Hkv; exact Hkv.
Qed.

Theorem hosts_to_zone_spec h : hosts_wf h ->
  exists hz, hosts_to_zone h = Ok hz /\ z_apex hz = root_domain /\ z_soa hz = None /\ zrepr hz (hosts_flat h).
Proof.
  intro Hwf. rewrite hosts_to_zone_build.
  destruct (zone_build_R root_domain None (hosts_ops h) root_wf (hosts_ops_wf h Hwf)) as (z & Hz & Ha & Hs & HR).
  exists z. unfold zrepr. rewrite Ha. auto.
Qed.

Definition rec_v4 (a : N) : zrec := {| zr_type := RT_A; zr_data := RD_A a; zr_ttl := HOSTS_TTL |}.
Definition rec_v6 (a : list N) : zrec := {| zr_type := RT_AAAA; zr_data := RD_AAAA a; zr_ttl := HOSTS_TTL |}.

Lemma wf_name_root_path n : wf_name n -> exists p, labels n = p ++ [[]].
Proof. intros [(front & H & _) _]. exists front. exact H. Qed.

Theorem hosts_flat_records h :
  f_wild (hosts_flat h) = [] /\
  forall p r, In (p, r) (f_norm (hosts_flat h)) <->
    (exists n a, In (n, a) (h_v4 h) /\ labels n = p ++ [[]] /\ r = rec_v4 a) \/
    (exists n a, In (n, a) (h_v6 h) /\ labels n = p ++ [[]] /\ r = rec_v6 a).
Proof.
  unfold hosts_flat, flat_of_ops. cbn [root_domain labels].
  set (F := fold_left (fz_apply [[]] None) (hosts_ops h) (fz_init None)). split.
  - destruct (f_wild F) as [|x l] eqn:E; [reflexivity|exfalso].
    assert (Hin : In x (f_wild F)) by (rewrite E; left; reflexivity).
    unfold F in Hin. apply (In_side_fold _ _ true) in Hin as [Hin|(o & p & Hin & Hw & _)]; [cbn in Hin; contradiction|].
    unfold hosts_ops in Hin.
    apply in_app_or in Hin as [Hin|Hin]; apply in_map_iff in Hin as (kv & <- & _); discriminate.
  - intros p r. unfold F. rewrite (In_side_fold _ _ false). split.
    + intros [Hin|(o & p' & Hin & _ & Hp & Hx)]; [cbn in Hin; contradiction|].
      inversion Hx; subst p' r. apply rel_path_some in Hp.
      unfold hosts_ops in Hin. apply in_app_or in Hin as [Hin|Hin]; apply in_map_iff in Hin as ([n a] & <- & Hin); [left|right];
        exists n, a; cbn [op_v4 op_v6 op_name fst] in *; auto.
    + intros [(n & a & Hin & Hl & ->)|(n & a & Hin & Hl & ->)]; right.
      * exists (op_v4 (n, a)), p. split; [unfold hosts_ops; apply in_or_app; left; apply in_map; exact Hin|].
        split; [reflexivity|]. split; [apply rel_path_intro; exact Hl|reflexivity].
      * exists (op_v6 (n, a)), p. split; [unfold hosts_ops; apply in_or_app; right; apply in_map; exact Hin|].
        split; [reflexivity|]. split; [apply rel_path_intro; exact Hl|reflexivity].
Qed.

Lemma ainsert_keys_forall {V} (P : dname -> Prop) k (v : V) m :
  Forall P (map fst m) -> P k -> Forall P (map fst (ainsert dname_eqb k v m)).
Proof. rewrite !Forall_map. apply (ainsert_forall dname_eqb dname_eqb_eq (fun kv => P (fst kv))). Qed.

Lemma amerge_keys_forall {V} (P : dname -> Prop) (other self : list (dname * V)) :
  Forall P (map fst self) -> Forall P (map fst other) -> Forall P (map fst (amerge self other)).
Proof.
  rewrite (Forall_map _ _ other). intros Hs Ho. revert self Hs. apply (fold_left_Forall (fun m => Forall P (map fst m))) with (2 := Ho).
  intros m kv. apply ainsert_keys_forall.
Qed.

Lemma hosts_merge_wf a b : hosts_wf a -> hosts_wf b -> hosts_wf (hosts_merge a b).
Proof. intros [A4 A6] [B4 B6]. split; cbn [hosts_merge h_v4 h_v6]; apply amerge_keys_forall; assumption. Qed.

Lemma hosts_new_wf : hosts_wf hosts_new.
Proof. split; constructor. Qed.

(* the names of every readable hosts file are well-formed DomainName values (C16: the parser
   builds them through the checked constructors) *)
Definition config_hosts_wf (a : config_args) (f : fs) : Prop :=
  Forall hosts_wf (readable_hosts f (fst (hosts_file_seq a f))).

Lemma loaded_hosts_wf a f : config_hosts_wf a f -> hosts_wf (loaded_hosts a f).
Proof. intro Hwf. rewrite loaded_hosts_fold. exact (fold_left_Forall hosts_wf hosts_wf _ _ hosts_merge_wf Hwf _ hosts_new_wf). Qed.

Theorem load_res_total a f : config_hosts_wf a f ->
  (config_bad a f = true /\ load_res a f = Ok None) \/
  (config_bad a f = false /\ exists zs hz zs', loaded_zones a f = Ok zs /\ hosts_to_zone (loaded_hosts a f) = Ok hz
                                               /\ zones_insert_merge zs hz = Ok zs' /\ load_res a f = Ok (Some zs')).
Proof.
  intro Hwf. destruct (load_res_spec a f) as (zs & Hz & Hk & Hl). rewrite Hl.
  destruct (config_bad a f); [left; auto|right]. split; [reflexivity|].
  destruct (hosts_to_zone_spec _ (loaded_hosts_wf a f Hwf)) as (hz & Hhz & _).
  destruct (insert_merge_ok zs hz Hk) as (zs' & Hm & _).
  exists zs, hz, zs'. rewrite Hhz. cbn [bind]. rewrite Hm. cbn [bind]. repeat split; try assumption; try reflexivity. 
Qed.

Theorem load_total a f : config_hosts_wf a f -> exists o, load_res a f = Ok o.
Proof.
  intro H. destruct (load_res_total a f H) as [[_ Hr]|(_ & zs & hz & zs' & _ & _ & _ & Hr)]; rewrite Hr; eauto.
Qed.

Theorem load_none_iff_bad a f : config_hosts_wf a f -> (load a f = None <-> config_bad a f = true).
Proof.
  intro Hwf. unfold load. destruct (load_res_total a f Hwf) as [[Hb ->]|(Hb & zs & hz & zs' & _ & _ & _ & ->)]; rewrite Hb.
  - split; reflexivity.
  - split; discriminate.
Qed.

Lemma existsb_is_none {A B} (g : A -> option B) l : existsb (fun x => is_none (g x)) l = true <-> exists x, In x l /\ g x = None.
Proof.
  rewrite existsb_exists. split; intros (x & Hin & H); exists x; (split; [exact Hin|]); destruct (g x); try discriminate; reflexivity.
Qed.

Theorem config_bad_spec a f : config_bad a f = true <->
  (exists d, In d (a_zone_dirs a ++ a_hosts_dirs a) /\ alookup leqb d (fs_dirs f) = None) \/
  (exists r, In r (fst (zone_file_seq a f)) /\ read_zone (fs_read f r) = None) \/
  (exists r, In r (fst (hosts_file_seq a f)) /\ read_hosts (fs_read f r) = None).
Proof.
  unfold config_bad, dir_missing, zone_unreadable, hosts_unreadable.
  rewrite !orb_true_iff, !existsb_is_none. split.
  - intros [[[(d & Hin & H)|(d & Hin & H)]|H]|H]; auto; left; exists d; (split; [apply in_or_app; auto|exact H]).
  - intros [(d & Hin & H)|[H|H]]; auto. apply in_app_or in Hin as [Hin|Hin]; left; left; [left|right]; exists d; auto.
Qed.

Theorem load_none_iff a f : config_hosts_wf a f ->
  (load a f = None <->
   (exists d, In d (a_zone_dirs a ++ a_hosts_dirs a) /\ alookup leqb d (fs_dirs f) = None) \/
   (exists r, In r (fst (zone_file_seq a f)) /\ read_zone (fs_read f r) = None) \/
   (exists r, In r (fst (hosts_file_seq a f)) /\ read_hosts (fs_read f r) = None)).
Proof. intro H. rewrite (load_none_iff_bad a f H). apply config_bad_spec. Qed.

Definition merge_step (acc : option zone) (z : zone) : option zone :=
  match acc with
  | None => Some z
  | Some a => match zone_merge a z with Some m => Some m | None => Some a end
  end.

Definition for_apex (k : dname) (l : list zone) : list zone := filter (fun z => dname_eqb (z_apex z) k) l.

(* Zones::insert_merge stores, under the zone's apex, the merge with what was there *)
Lemma insert_merge_ainsert zs z zs1 : zones_insert_merge zs z = Ok zs1 ->
  exists m, merge_step (alookup dname_eqb (z_apex z) zs) z = Some m /\ zs1 = ainsert dname_eqb (z_apex z) m zs.
Proof.
  unfold zones_insert_merge, zones_insert, ainsert.
  destruct (alookup dname_eqb (z_apex z) zs) as [mine|]; cbn [merge_step]; [destruct (zone_merge mine z); [|discriminate]|];
    intro H; inversion H; eauto.
Qed.

Lemma insert_merge_all_lookup k : forall l zs zs', insert_merge_all zs l = Ok zs' ->
  alookup dname_eqb k zs' = fold_left merge_step (for_apex k l) (alookup dname_eqb k zs).
Proof.
  induction l as [|z t IH]; intros zs zs' H; cbn [insert_merge_all for_apex filter fold_left] in *.
  - inversion H; subst. reflexivity.
  - destruct (zones_insert_merge zs z) as [zs1| | |] eqn:H1; try discriminate. cbn [bind] in H.
    fold (for_apex k t). rewrite (IH _ _ H). destruct (insert_merge_ainsert _ _ _ H1) as (m & Hm & ->).
    rewrite (alookup_ainsert dname_eqb dname_eqb_eq), (keqb_sym dname_eqb dname_eqb_eq k).
    destruct (dname_eqb (z_apex z) k) eqn:Ek; cbn [fold_left]; [|reflexivity].
    apply dname_eqb_eq in Ek. subst k. rewrite Hm. reflexivity.
Qed.

Lemma insert_merge_all_app l1 : forall l2 zs,
  insert_merge_all zs (l1 ++ l2) = let* zs' := insert_merge_all zs l1 in insert_merge_all zs' l2.
Proof.
  induction l1 as [|z t IH]; intros l2 zs; cbn [app insert_merge_all bind]; [reflexivity|].
  destruct (zones_insert_merge zs z); cbn [bind]; auto.
Qed.

(* the zones of a loaded configuration: the readable zone files in application order, then the
   zone made of the merged hosts *)
Definition zone_inputs (a : config_args) (f : fs) (hz : zone) : list zone :=
  readable_zones f (fst (zone_file_seq a f)) ++ [hz].

(* what a successful load merged: the hosts zone (root apex, no SOA) after the readable zone files *)
Lemma load_inputs a f zs : config_hosts_wf a f -> load a f = Some zs ->
  exists hz, hosts_to_zone (loaded_hosts a f) = Ok hz /\ z_apex hz = root_domain /\ z_soa hz = None /\
    zrepr hz (hosts_flat (loaded_hosts a f)) /\
    forall k, alookup dname_eqb k zs = fold_left merge_step (for_apex k (zone_inputs a f hz)) None.
Proof.
  intros Hwf Hl. unfold load in Hl.
  destruct (load_res_total a f Hwf) as [[_ Hr]|(_ & zs0 & hz & zs' & Hz & Hh & Hm & Hr)]; rewrite Hr in Hl; [discriminate|].
  inversion Hl; subst zs'.
  destruct (hosts_to_zone_spec _ (loaded_hosts_wf a f Hwf)) as (hz' & Hh' & Ha & Hs & HR). rewrite Hh in Hh'. inversion Hh'; subst hz'.
  exists hz. repeat (split; [assumption|]). intro k.
  assert (Hall : insert_merge_all [] (zone_inputs a f hz) = Ok zs).
  { unfold zone_inputs. rewrite insert_merge_all_app. fold (loaded_zones a f). rewrite Hz. cbn [bind insert_merge_all]. rewrite Hm. reflexivity. }
  rewrite (insert_merge_all_lookup k _ _ _ Hall). reflexivity.
Qed.

Theorem load_by_apex a f zs : config_hosts_wf a f -> load a f = Some zs ->
  exists hz, hosts_to_zone (loaded_hosts a f) = Ok hz /\ z_apex hz = root_domain /\ z_soa hz = None /\
    forall k, alookup dname_eqb k zs = fold_left merge_step (for_apex k (zone_inputs a f hz)) None.
Proof.
  intros Hwf Hl. destruct (load_inputs a f zs Hwf Hl) as (hz & Hh & Ha & Hs & _ & Hk). exists hz. auto.
Qed.

Definition apex_soa (x : ZoneFlat.path * zrec) : Prop := fst x = [] /\ zr_type (snd x) = RT_SOA.

Lemma add_rec_nodup p r l : NoDup l -> NoDup (add_rec p r l).
Proof.
  intro H. unfold add_rec. destruct (existsb (zrec_eqb r) (recs_at l p (zr_type r))) eqn:E; [exact H|].
  apply NoDup_snoc; [exact H|]. intro Hin. apply Bool.not_true_iff_false in E.
  apply E, existsb_zrec_In, In_recs_at. split; [exact Hin|reflexivity].
Qed.

Lemma add_all_nodup extra : forall l, NoDup l -> NoDup (add_all l extra).
Proof. apply (fold_left_inv (@NoDup _)). intros l [p r]. apply add_rec_nodup. Qed.

Lemma In_drop_soa z x : In x (f_norm (fz_drop_soa z)) <-> In x (f_norm z) /\ ~ apex_soa x.
Proof.
  unfold fz_drop_soa, apex_soa. cbn [f_norm]. rewrite filter_In. destruct x as [p r]. cbn [fst snd].
  split; intros [H1 H2]; (split; [exact H1|]).
  - intros [-> Ht]. rewrite Ht in H2. cbn in H2. discriminate.
  - destruct p as [|l p]; [|reflexivity]. cbn [is_nil andb]. destruct (zr_type r =? RT_SOA) eqn:E; [|reflexivity].
    exfalso. apply H2. split; [reflexivity|]. apply N.eqb_eq. exact E.
Qed.

(* Zone::merge on flat zones: ordinary records *)
Lemma In_merge_norm a b auth x :
  In x (f_norm (fz_merge a b auth)) <-> (In x (f_norm a) /\ (auth = true -> ~ apex_soa x)) \/ In x (f_norm b).
Proof.
  unfold fz_merge, fz_union. cbn [f_norm]. rewrite In_add_all. destruct auth.
  - rewrite In_drop_soa. split; intros [[H1 H2]|H]; auto.
  - split; intros [H|H]; auto; [left; split; [exact H|discriminate]|left; tauto].
Qed.

(* ... and wildcard records *)
Lemma In_merge_wild a b auth x : In x (f_wild (fz_merge a b auth)) <-> In x (f_wild a) \/ In x (f_wild b).
Proof. unfold fz_merge, fz_union. cbn [f_wild]. rewrite In_add_all. destruct auth; reflexivity. Qed.

Lemma merge_nodup a b auth : NoDup (f_norm a) -> NoDup (f_wild a) ->
  NoDup (f_norm (fz_merge a b auth)) /\ NoDup (f_wild (fz_merge a b auth)).
Proof.
  intros Hn Hw. unfold fz_merge, fz_union. cbn [f_norm f_wild]. split; apply add_all_nodup.
  - destruct auth; [|exact Hn]. unfold fz_drop_soa. cbn [f_norm]. apply NoDup_filter. exact Hn.
  - destruct auth; exact Hw.
Qed.

(* a file for one apex as flat data: its records and its SOA (None = non-authoritative) *)
Definition ffile := (fzone * option soa)%type.
Definition is_auth (fa : ffile) : bool := match snd fa with Some _ => true | None => false end.

Definition fmerge_step (acc : option fzone) (fa : ffile) : option fzone :=
  match acc with
  | None => Some (fst fa)
  | Some a => Some (fz_merge a (fst fa) (is_auth fa))
  end.

(* the flat zone of the files for one apex, in application order *)
Definition flat_chain (l : list ffile) : option fzone := fold_left fmerge_step l None.

(* an apex SOA record survives the later files iff none of them supplies a SOA *)
Definition survives (x : ZoneFlat.path * zrec) (later : list ffile) : Prop :=
  apex_soa x -> Forall (fun fa => is_auth fa = false) later.

Definition chain_from (acc : fzone) (l : list ffile) : fzone :=
  fold_left (fun a fa => fz_merge a (fst fa) (is_auth fa)) l acc.

Lemma fold_fmerge_some l : forall acc, fold_left fmerge_step l (Some acc) = Some (chain_from acc l).
Proof. induction l as [|fa t IH]; intro acc; cbn [fold_left fmerge_step chain_from]; [reflexivity|apply IH]. Qed.

(* a position in a :: t is the head or a position in t *)
Lemma ex_split_cons {A} (Q : A -> list A -> Prop) a t :
  (exists pre x post, a :: t = pre ++ x :: post /\ Q x post) <-> Q a t \/ exists pre x post, t = pre ++ x :: post /\ Q x post.
Proof.
  split.
  - intros ([|y pre] & x & post & Heq & H); inversion Heq; subst; [left; exact H|right; eauto].
  - intros [H|(pre & x & post & -> & H)]; [exists [], a, t; auto|exists (a :: pre), x, post; auto].
Qed.

Lemma survives_cons x fa t : survives x (fa :: t) <-> (is_auth fa = true -> ~ apex_soa x) /\ survives x t.
Proof.
  unfold survives. split.
  - intro H. split; [intros E Hx|intro Hx]; specialize (H Hx); inversion H; subst; [congruence|assumption].
  - intros [H1 H2] Hx. constructor; [|exact (H2 Hx)]. destruct (is_auth fa); [destruct (H1 eq_refl Hx)|reflexivity].
Qed.

Lemma chain_norm_acc x : forall l acc,
  In x (f_norm (chain_from acc l)) <->
  (In x (f_norm acc) /\ survives x l) \/
  exists pre fa post, l = pre ++ fa :: post /\ In x (f_norm (fst fa)) /\ survives x post.
Proof.
  unfold chain_from. induction l as [|fa t IH]; intro acc; cbn [fold_left].
  - split.
    + intro H. left. split; [exact H|]. intros _. constructor.
    + intros [[H _]|(pre & fa & post & Heq & _)]; [exact H|]. destruct pre; discriminate.
  - rewrite IH, In_merge_norm, survives_cons, (ex_split_cons (fun fa post => In x (f_norm (fst fa)) /\ survives x post)). tauto.
Qed.

(* ordinary records of 1..k files: a record is in the zone iff some file defines it --
   except that an apex SOA record is there only if no later file supplies a SOA *)
Theorem chain_norm x l z : flat_chain l = Some z ->
  (In x (f_norm z) <-> exists pre fa post, l = pre ++ fa :: post /\ In x (f_norm (fst fa)) /\ survives x post).
Proof.
  unfold flat_chain. destruct l as [|fa t]; cbn [fold_left fmerge_step]; [discriminate|].
  rewrite fold_fmerge_some. intro H. inversion H; subst z.
  rewrite chain_norm_acc, (ex_split_cons (fun fa post => In x (f_norm (fst fa)) /\ survives x post)). reflexivity.
Qed.

Lemma chain_wild_acc x : forall l acc,
  In x (f_wild (chain_from acc l)) <->
  In x (f_wild acc) \/ Exists (fun fa => In x (f_wild (fst fa))) l.
Proof.
  unfold chain_from. induction l as [|fa t IH]; intro acc; cbn [fold_left].
  - rewrite Exists_nil. tauto.
  - rewrite IH, In_merge_wild, Exists_cons. tauto.
Qed.

(* wildcard records: exactly those some file defines *)
Theorem chain_wild x l z : flat_chain l = Some z ->
  (In x (f_wild z) <-> exists fa, In fa l /\ In x (f_wild (fst fa))).
Proof.
  unfold flat_chain. destruct l as [|fa t]; cbn [fold_left fmerge_step]; [discriminate|].
  rewrite fold_fmerge_some. intro H. inversion H; subst z. rewrite chain_wild_acc, <- Exists_exists, Exists_cons. reflexivity.
Qed.

(* duplicates removed *)
Theorem chain_nodup : forall l z, Forall (fun fa => NoDup (f_norm (fst fa)) /\ NoDup (f_wild (fst fa))) l ->
  flat_chain l = Some z -> NoDup (f_norm z) /\ NoDup (f_wild z).
Proof.
  unfold flat_chain. intros [|fa t] z HF; cbn [fold_left fmerge_step]; [discriminate|].
  apply Forall_inv in HF. rewrite fold_fmerge_some. intro H. inversion H; subst z.
  revert HF. apply (fold_left_inv (fun a => NoDup (f_norm a) /\ NoDup (f_wild a))). intros a fb [Hn Hw]. apply merge_nodup; assumption.
Qed.

Theorem merge_union l z : flat_chain l = Some z ->
  (forall x, In x (f_norm z) <-> exists pre fa post, l = pre ++ fa :: post /\ In x (f_norm (fst fa)) /\ survives x post) /\
  (forall x, In x (f_wild z) <-> exists fa, In fa l /\ In x (f_wild (fst fa))) /\
  (Forall (fun fa => NoDup (f_norm (fst fa)) /\ NoDup (f_wild (fst fa))) l -> NoDup (f_norm z) /\ NoDup (f_wild z)).
Proof.
  intro H. split; [intro x; apply chain_norm; exact H|]. split; [intro x; apply chain_wild; exact H|].
  intro HF. eapply chain_nodup; eassumption.
Qed.

(* each file holds exactly its own SOA record at the apex (Zone::new puts it there, the parser
   keeps every other SOA out) *)
Definition soa_ok (fa : ffile) : Prop :=
  forall r, (In ([], r) (f_norm (fst fa)) /\ zr_type r = RT_SOA) <-> exists so, snd fa = Some so /\ r = soa_zrec so.

Lemma last_defined_none_iff {A V} (get : A -> option V) l :
  last_defined get l = None <-> Forall (fun x => get x = None) l.
Proof.
  induction l as [|h t IH]; cbn [last_defined]; [split; [constructor|reflexivity]|].
  destruct (last_defined get t) eqn:E.
  - split; [discriminate|]. intro H. inversion H; subst. apply IH in H3. discriminate.
  - split; intro H; [constructor; [exact H|apply IH; reflexivity]|inversion H; assumption].
Qed.

Lemma last_defined_split {A V} (get : A -> option V) l v :
  last_defined get l = Some v <-> exists pre x post, l = pre ++ x :: post /\ get x = Some v /\ Forall (fun y => get y = None) post.
Proof.
  induction l as [|h t IH]; cbn [last_defined].
  - split; [discriminate|]. intros (pre & x & post & H & _). destruct pre; discriminate.
  - rewrite (ex_split_cons (fun x post => get x = Some v /\ Forall (fun y => get y = None) post)), <- IH, <- last_defined_none_iff.
    destruct (last_defined get t) as [v'|].
    + split; [auto|]. intros [[_ H]|H]; [discriminate|exact H].
    + split; [auto|]. intros [[H _]|H]; [exact H|discriminate].
Qed.

(* the SOA of 1..k files: the zone holds exactly one SOA record at its apex, that of the last
   file supplying one (none if no file does) *)
Theorem chain_one_soa l z : Forall soa_ok l -> flat_chain l = Some z ->
  forall r, (In ([], r) (f_norm z) /\ zr_type r = RT_SOA) <-> exists so, last_defined snd l = Some so /\ r = soa_zrec so.
Proof.
  intros Hok Hc r. rewrite (chain_norm ([], r) l z Hc). split.
  - intros [(pre & fa & post & -> & Hin & Hs) Ht].
    apply Forall_app in Hok as [_ Hok]. inversion Hok as [|? ? Hfa _]; subst.
    destruct (proj1 (Hfa r) (conj Hin Ht)) as (so & Hso & ->). exists so. split; [|reflexivity].
    apply last_defined_split. exists pre, fa, post. split; [reflexivity|]. split; [exact Hso|].
    assert (Hx : apex_soa ([], soa_zrec so)) by (split; reflexivity).
    specialize (Hs Hx). eapply Forall_impl; [|exact Hs]. intros fb Hfb. unfold is_auth in Hfb. destruct (snd fb); [discriminate|reflexivity].
  - intros (so & Hl & ->). apply last_defined_split in Hl as (pre & fa & post & -> & Hso & Hp).
    apply Forall_app in Hok as [_ Hok]. inversion Hok as [|? ? Hfa _]; subst.
    destruct (proj2 (Hfa (soa_zrec so))) as [Hin Ht]; [exists so; auto|]. split; [|exact Ht].
    exists pre, fa, post. split; [reflexivity|]. split; [exact Hin|]. intros _.
    eapply Forall_impl; [|exact Hp]. intros fb Hfb. unfold is_auth. rewrite Hfb. reflexivity.
Qed.

(* the SOA field of the merged zone value is that same last SOA *)
Lemma merge_chain_soa : forall l acc, Forall (fun z => z_apex z = z_apex acc) l ->
  exists m, fold_left merge_step l (Some acc) = Some m /\ z_apex m = z_apex acc /\
            z_soa m = match last_defined z_soa l with Some s => Some s | None => z_soa acc end.
Proof.
  induction l as [|z t IH]; intros acc HF; cbn [fold_left merge_step last_defined].
  - exists acc. auto.
  - inversion HF as [|? ? Hz Ht]; subst.
    destruct (zone_merge_same_apex acc z (eq_sym Hz)) as (m & Hm & Ha & Hs). rewrite Hm.
    destruct (IH m) as (m' & Hm' & Ha' & Hs').
    { eapply Forall_impl; [|exact Ht]. intros y Hy. cbn beta in Hy. congruence. }
    exists m'. split; [exact Hm'|]. split; [congruence|]. rewrite Hs'.
    destruct (last_defined z_soa t); [reflexivity|]. rewrite Hs. destruct (z_soa z); reflexivity.
Qed.

Section WithMergeLemma.
  (* Zone::merge refines the flat merge on zones satisfying a structural invariant [zone_wf] of
     record trees, which [zrepr] (it only speaks about what lookups see) does not imply -- e.g. that
     the child labels of a node are pairwise distinct, which Zone::insert and Zone::merge maintain.
     Invariant and refinement are parameters of this section because C12_zone_is_chain_of_files_partial
     states the chain for ANY such pair; Config/ConfigMerge.v instantiates them with
     Zone/ZoneMergeProofs.v (wf_tree, zone_merge_repr). *)
  Variable zone_wf : zone -> Prop.
  Hypothesis merge_refines : forall a b fa fb m,
    zone_wf a -> zone_wf b -> zrepr a fa -> zrepr b fb -> zone_merge a b = Some m ->
    zone_wf m /\ zrepr m (fz_merge fa fb (zone_is_authoritative b)).

  Definition ffile_of (flat_of : zone -> fzone) (z : zone) : ffile := (flat_of z, z_soa z).

  (* an input zone and what it stands for: its apex and a flat file (records, SOA) *)
  Definition zin_of (z : zone) (kf : dname * ffile) : Prop :=
    z_apex z = fst kf /\ zone_wf z /\ zrepr z (fst (snd kf)) /\ z_soa z = snd (snd kf).

  Lemma merge_chain_rel k : forall (l : list zone) (fl : list (dname * ffile)) acc facc,
    Forall2 zin_of l fl -> Forall (fun kf => fst kf = k) fl ->
    z_apex acc = k -> zone_wf acc -> zrepr acc facc ->
    exists m fm, fold_left merge_step l (Some acc) = Some m /\
                 fold_left fmerge_step (map snd fl) (Some facc) = Some fm /\
                 z_apex m = k /\ zone_wf m /\ zrepr m fm.
  Proof.
    induction l as [|z t IH]; intros fl acc facc HF Hk Ha Hw HR; inversion HF as [|? kf ? fl' Hz Ht]; subst;
      cbn [fold_left merge_step fmerge_step map].
    - exists acc, facc. auto.
    - destruct Hz as (Hzk & Hwz & HRz & Hsoa). inversion Hk as [|? ? Hk1 Hk2]; subst.
      destruct (zone_merge_same_apex acc z) as (m & Hm & Hma & _); [congruence|]. rewrite Hm.
      destruct (merge_refines acc z facc (fst (snd kf)) m Hw Hwz HR HRz Hm) as [Hwm HRm].
      apply IH; [exact Ht|exact Hk2|congruence|exact Hwm|].
      unfold is_auth. rewrite <- Hsoa. exact HRm.
  Qed.

  (* the inputs of one apex: the chain of Zone::merge represents the flat chain *)
  Lemma chain_rel_apex k l fl : Forall2 zin_of l fl -> Forall (fun kf => fst kf = k) fl ->
    match fold_left merge_step l None, flat_chain (map snd fl) with
    | Some m, Some fm => z_apex m = k /\ zrepr m fm
    | None, None => map snd fl = []
    | _, _ => False
    end.
  Proof.
    intros HF Hk. unfold flat_chain.
    destruct HF as [|z kf l' fl' Hz Ht]; cbn [fold_left merge_step fmerge_step map]; [reflexivity|].
    inversion Hk as [|? ? Hk1 Hk2]; subst. destruct Hz as (Hzk & Hwz & HRz & _).
    destruct (merge_chain_rel (fst kf) l' fl' z (fst (snd kf)) Ht Hk2 Hzk Hwz HRz) as (m & fm & -> & -> & Hma & _ & HRm).
    auto.
  Qed.

  Lemma for_apex_rel k : forall l fl, Forall2 zin_of l fl ->
    Forall2 zin_of (for_apex k l) (filter (fun kf => dname_eqb (fst kf) k) fl).
  Proof.
    induction 1 as [|z kf l fl Hz _ IH]; cbn [for_apex filter]; [constructor|].
    rewrite (proj1 Hz). destruct (dname_eqb (fst kf) k); [constructor; assumption|exact IH].
  Qed.

  Lemma chain_rel k l fl : Forall2 zin_of l fl ->
    match fold_left merge_step (for_apex k l) None,
          flat_chain (map snd (filter (fun kf => dname_eqb (fst kf) k) fl)) with
    | Some m, Some fm => z_apex m = k /\ zrepr m fm
    | None, None => map snd (filter (fun kf => dname_eqb (fst kf) k) fl) = []
    | _, _ => False
    end.
  Proof.
    intro HF. apply chain_rel_apex; [apply for_apex_rel, HF|].
    apply Forall_forall. intros kf Hin. apply filter_In in Hin as [_ Hin]. apply dname_eqb_eq. exact Hin.
  Qed.

  (* C12, tree level: after loading, the zone of every apex represents the flat chain of the files
     for that apex (the hosts zone last), for any flat reading [flat_of] of the individual files *)
  Theorem load_zone_repr a f zs (flat_of : zone -> fzone) : config_hosts_wf a f -> load a f = Some zs ->
    exists hz, hosts_to_zone (loaded_hosts a f) = Ok hz /\ z_apex hz = root_domain /\ z_soa hz = None /\
      forall k, Forall (fun z => zone_wf z /\ zrepr z (flat_of z)) (for_apex k (zone_inputs a f hz)) ->
        match alookup dname_eqb k zs, flat_chain (map (ffile_of flat_of) (for_apex k (zone_inputs a f hz))) with
        | Some m, Some fm => z_apex m = k /\ zrepr m fm
        | None, None => for_apex k (zone_inputs a f hz) = []
        | _, _ => False
        end.
  Proof.
    intros Hwf Hl. destruct (load_inputs a f zs Hwf Hl) as (hz & Hh & Ha & Hs & _ & Hk).
    exists hz. split; [exact Hh|]. split; [exact Ha|]. split; [exact Hs|].
    intros k HF. rewrite Hk. set (l := for_apex k (zone_inputs a f hz)) in *.
    assert (HF2 : Forall2 zin_of l (map (fun z => (k, ffile_of flat_of z)) l)).
    { apply Forall2_map_r, Forall_forall. intros z Hz. rewrite Forall_forall in HF. destruct (HF z Hz) as [Hw HR].
      apply filter_In in Hz as [_ Hz]. apply dname_eqb_eq in Hz. repeat split; assumption. }
    assert (Hfst : Forall (fun kf : dname * ffile => fst kf = k) (map (fun z => (k, ffile_of flat_of z)) l))
      by (apply Forall_map, Forall_forall; reflexivity).
    pose proof (chain_rel_apex k l _ HF2 Hfst) as H. rewrite map_map in H.
    change (map (fun z => snd (k, ffile_of flat_of z)) l) with (map (ffile_of flat_of) l) in H.
    destruct (fold_left merge_step l None), (flat_chain (map (ffile_of flat_of) l)); try exact H.
    destruct l; [reflexivity|discriminate H].
  Qed.
End WithMergeLemma.

(* C12 with C02: a zone that represents a flat zone answers every question as RFC 1034 4.3.2 does on
   that flat zone; with load_zone_repr: every loaded zone answers from the union of its files *)
Theorem zone_answers_from_flat z fz name qt p :
  zrepr z fz -> no_occlusion fz -> recs_ok fz -> wf_name name ->
  rel_path (labels (z_apex z)) name = Some p ->
  exists r, zone_resolve z name qt = Some (Ok r) /\
            zres_equiv r (flat_resolve (labels (z_apex z)) fz name p qt).
Proof.
  intros HR Hd Hok Hn Hp. unfold zone_resolve. rewrite relative_rp_rel, Hp. cbn [option_map].
  pose proof (rel_path_some _ _ _ Hp) as Hl.
  destruct (resolve_R (labels (z_apex z)) (z_records z) fz name qt (rev p) HR Hd Hok) as (r & Hr & Heq & _).
  - rewrite rev_involutive, <- Hl. apply Hn.
  - exists r. rewrite rev_involutive in Heq. rewrite Hr. auto.
Qed.

Lemma flat_of_ops_soa_ok apex s ops : Forall (fun o => op_type o <> RT_SOA) ops -> soa_ok (flat_of_ops apex s ops, s).
Proof.
  intros HF r. cbn [fst snd]. unfold flat_of_ops. rewrite (In_side_fold _ _ false). split.
  - intros [[Hin|(o & p & Hin & _ & _ & Hx)] Ht].
    + destruct s as [so|]; cbn [fz_init f_norm In] in Hin; [|contradiction]. destruct Hin as [Hin|[]].
      inversion Hin; subst. exists so. auto.
    + inversion Hx; subst. rewrite Forall_forall in HF. exfalso. apply (HF o Hin). exact Ht.
  - intros (so & -> & ->). split; [|reflexivity]. left. cbn [fz_init f_norm In]. left. reflexivity.
Qed.

Lemma hosts_flat_soa_ok h : soa_ok (hosts_flat h, None).
Proof.
  unfold hosts_flat. apply flat_of_ops_soa_ok. unfold hosts_ops. apply Forall_app. split; apply Forall_map, Forall_forall;
    intros kv _; cbn [op_v4 op_v6 op_type]; intro H; discriminate H.
Qed.

Lemma fz_apply_nodup apexl s fz o : NoDup (f_norm fz) -> NoDup (f_wild fz) ->
  NoDup (f_norm (fz_apply apexl s fz o)) /\ NoDup (f_wild (fz_apply apexl s fz o)).
Proof.
  intros Hn Hw. unfold fz_apply. destruct (rel_path apexl (op_name o)); [|auto].
  unfold fz_add. destruct (op_wild o); cbn [f_norm f_wild]; split; try assumption; apply add_rec_nodup; assumption.
Qed.

Lemma flat_of_ops_nodup apex s ops : NoDup (f_norm (flat_of_ops apex s ops)) /\ NoDup (f_wild (flat_of_ops apex s ops)).
Proof.
  unfold flat_of_ops. assert (H0 : NoDup (f_norm (fz_init s)) /\ NoDup (f_wild (fz_init s))).
  { destruct s; cbn [fz_init f_norm f_wild]; split; repeat constructor. intros []. }
  revert H0. apply (fold_left_inv (fun fz => NoDup (f_norm fz) /\ NoDup (f_wild fz))). intros fz o [Hn Hw]. apply fz_apply_nodup; assumption.
Qed.

Definition ex_apex : dname := {| labels := [[101]; []]; nlen := 3 |}.        (* "e." *)
Definition ex_host : dname := {| labels := [[104]; []]; nlen := 3 |}.        (* "h." *)
Definition ex_soa (serial : N) : soa :=
  {| soa_mname := ex_apex; soa_rname := ex_apex; soa_serial := serial; soa_refresh := 1; soa_retry := 1;
     soa_expire := 1; soa_minimum := 5 |}.
Definition ex_zone (serial addr : N) : option zone :=
  match zone_insert false (zone_new ex_apex (Some (ex_soa serial))) ex_apex RT_A (RD_A addr) 5 with
  | Ok z => Some z
  | _ => None
  end.
Definition ex_hosts (addr : N) : hosts := hosts_of_entries [HV4 ex_host addr].
(* directory "z" holding "9", "10" and a sub-directory "s"; directory "h" holding "b", "a" *)
Definition ex_fs : fs :=
  {| fs_files := [];
     fs_dirs := [([122], [([57], EFile (ZoneFile (ex_zone 1 1))); ([49; 48], EFile (ZoneFile (ex_zone 2 2))); ([115], ESubdir)]);
                 ([104], [([98], EFile (HostsFile (Some (ex_hosts 7)))); ([97], EFile (HostsFile (Some (ex_hosts 8))))])] |}.
Definition ex_args : config_args :=
  {| a_hosts_files := []; a_hosts_dirs := [[104]]; a_zone_files := []; a_zone_dirs := [[122]] |}.
(* the same with "9" replaced by an unparsable file *)
Definition ex_fs_bad : fs :=
  {| fs_files := [];
     fs_dirs := [([122], [([57], EFile (ZoneFile None)); ([49; 48], EFile (ZoneFile (ex_zone 2 2)))]);
                 ([104], [([98], EFile (HostsFile (Some (ex_hosts 7))))])] |}.

(* "10" sorts before "9"; the sub-directory is skipped *)
Example ex_sorted_order : zone_file_seq ex_args ex_fs = ([RDirFile [122] [49; 48]; RDirFile [122] [57]], false).
Proof. vm_compute. reflexivity. Qed.

Example ex_hosts_wf : config_hosts_wf ex_args ex_fs.
Proof.
  assert (Hw : wf_name ex_host).
  { split; [|reflexivity]. exists [[104]]. split; [reflexivity|]. split.
    - repeat constructor; try discriminate; cbn; try lia.
    - cbn. lia. }
  assert (Hh : forall a, hosts_wf (ex_hosts a)).
  { intro a. split; cbn; [constructor; [exact Hw|constructor]|constructor]. }
  unfold config_hosts_wf. 
  replace (readable_hosts ex_fs (fst (hosts_file_seq ex_args ex_fs))) with [ex_hosts 8; ex_hosts 7] by (vm_compute; reflexivity).
  constructor; [apply Hh|]. constructor; [apply Hh|constructor].
Qed.

(* the SOA of the file applied last ("9", serial 1) wins; the hosts entry of the file applied last ("b") wins *)
Example ex_last_wins :
  option_map (fun zs => (option_map (fun z => option_map soa_serial (z_soa z)) (alookup dname_eqb ex_apex zs),
                         option_map (fun z => zone_resolve z ex_host RT_A) (alookup dname_eqb root_domain zs)))
             (load ex_args ex_fs)
  = Some (Some (Some 1),
          Some (Some (Ok (ZAnswer [{| rr_name := ex_host; rr_type := RT_A; rr_class := RC_IN; rr_ttl := HOSTS_TTL; rr_data := RD_A 7 |}])))).
Proof. vm_compute. reflexivity. Qed.

Example ex_bad_is_none : load ex_args ex_fs_bad = None /\ config_bad ex_args ex_fs_bad = true.
Proof. split; vm_compute; reflexivity. Qed.

(* a failed reload keeps the state, a successful one replaces it whatever it was *)
Example ex_reload : forall st, reload ex_args st ex_fs_bad = st /\ load ex_args ex_fs <> None /\ reload ex_args st ex_fs = reload ex_args [] ex_fs.
Proof.
  intro st. split; [apply reload_failure; vm_compute; reflexivity|].
  assert (H : load ex_args ex_fs <> None) by (vm_compute; discriminate).
  split; [exact H|]. apply reload_forgets. exact H.
Qed.

