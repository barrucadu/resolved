(* Config/ConfigConcurrent.v -- reload and queries as concurrent tasks around zones_lock (C19).

   crates/resolved/src/main.rs: `zones_lock : Arc<RwLock<Zones>>`.
   * reload_task, per SIGUSR1: load_zone_configuration(...) into a FRESH value (no lock held); only if
     that is Some: `let mut lock = zones_lock.write().await; *lock = zones;` -- a write section whose
     body stores a value computed beforehand;
   * resolve_and_build_response, per query carrying one known question:
     `let zones = args.zones_lock.read().await;` then resolve(..., &zones, ...) -- a read section that
     dereferences the guard as often as the resolution needs (once per zone lookup, with awaits in
     between in recursive / forwarding mode) -- then drops the guard with the reply built.

   Base/Locks.v supplies the semantics of tasks around one reader-writer lock; Config/ConfigModel.v the
   sequential meaning ([load], [query]).  Here: for EVERY schedule of signals, queries, lock
   acquisitions, task steps and releases,

   * every reply is computed from ONE configuration, which is the initial one or the COMPLETE result of
     one successful load -- never a mixture, however the reload interleaves with the resolution;
   * a failed load changes nothing (it never reaches the lock);
   * every configuration the server is ever in is the initial one or [load a f] for a delivered signal.

   The handler's computation is a parameter [F] (what it computes from the values it saw); the only
   assumption is that on reads that all returned the same configuration it computes [query] of that
   configuration -- which is what ConfigModel.query models and the C09/C19 streams tie to the code.
   That the critical sections have this shape in the source is read by tools/tables.py
   (Base/TablesOk.zones_lock_sections_ok).  Outside: tokio's RwLock itself, signal delivery, liveness. *)
From RV Require Import Base.Prelude Base.Locks Name.NameModel Wire.WireTypes Zone.ZoneModel Config.ConfigModel Config.ConfigProofs.

Section Conc.
Variable a : config_args.

(* what a handler computes from the configurations it saw while holding the read guard *)
Variable F : list state -> question -> res unit answer.
Hypothesis F_consistent : forall s seen q, seen <> [] -> Forall (eq s) seen -> F seen q = query s q.

Definition zexec (now : N) (old : state) (z : state) : state * option (res unit answer) := (z, None).
Definition zrexec (seen : list state) (q : question) : option (res unit answer) := Some (F seen q).

Definition zev := ev state question.
Definition zsys := sys state state question (option (res unit answer)).

(* the events of the running server; task 0 is reload_task, task (S t) a request handler *)
Inductive cevent :=
| CTick (d : N)
| CSignal (f : fs)                 (* SIGUSR1 is handled with the files as in f *)
| CQuery (t : nat) (q : question)  (* handler t receives a question *)
| CAcq (t : nat) | CStep (t : nat) | CRel (t : nat).

Definition to_ev (e : cevent) : list zev :=
  match e with
  | CTick d => [Tick _ _ d]
  | CSignal f => match load a f with Some z => [CallW _ _ 0%nat z] | None => [] end
  | CQuery t q => [CallR _ _ (Datatypes.S t) q]
  | CAcq t => [Acq _ _ t]
  | CStep t => [Step _ _ t]
  | CRel t => [Rel _ _ t]
  end.

Definition crun (st0 : state) (cevs : list cevent) : zsys :=
  run_sched state state question (option (res unit answer)) zexec zrexec
    (init_sys state state question (option (res unit answer)) st0) (flat_map to_ev cevs).

Lemma callw_origin cevs t z : In (CallW state question t z) (flat_map to_ev cevs) ->
  exists f, In (CSignal f) cevs /\ load a f = Some z.
Proof.
  intro H. apply in_flat_map in H. destruct H as (e & He & Hin).
  destruct e as [d|f|t' q|t'|t'|t']; cbn [to_ev] in Hin; try (destruct Hin as [E|[]]; discriminate).
  destruct (load a f) as [z'|] eqn:L; [|contradiction]. destruct Hin as [[= _ <-]|[]]. eauto.
Qed.

Lemma callr_origin cevs t q : In (CallR state question t q) (flat_map to_ev cevs) ->
  exists t', t = Datatypes.S t' /\ In (CQuery t' q) cevs.
Proof.
  intro H. apply in_flat_map in H. destruct H as (e & He & Hin).
  destruct e as [d|f|t' q'|t'|t'|t']; cbn [to_ev] in Hin; try (destruct Hin as [E|[]]; discriminate).
  - destruct (load a f); [destruct Hin as [E|[]]; discriminate|contradiction].
  - destruct Hin as [[= <- <-]|[]]. eauto.
Qed.

(* every configuration the server is ever in: the initial one, or the complete result of one load *)
Theorem concurrent_states_origin st0 cevs :
  forall v, In v (Locks.hist _ _ _ _ (crun st0 cevs)) ->
    v = st0 \/ exists f, In (CSignal f) cevs /\ load a f = Some v.
Proof.
  intros v Hv.
  destruct (proj2 (hist_origin _ _ _ _ zexec zrexec st0 (flat_map to_ev cevs)) v Hv)
    as [->|(l & s1 & Hl & _ & ->)]; [left; reflexivity|right].
  destruct (only_called_sections_run state state question (option (res unit answer)) zexec zrexec st0 (flat_map to_ev cevs)) as [Hc _].
  fold (crun st0 cevs) in Hc. cbn [zexec fst]. eapply callw_origin. apply Hc. exact Hl.
Qed.

(* every reply: to a question some handler really received, computed from ONE configuration of the
   history (old or new, never a mixture), whatever ran between the handler's reads *)
Theorem concurrent_query_sees_one_config st0 cevs :
  forall t q seen o, In (RRet state state question (option (res unit answer)) t q seen o) (rets _ _ _ _ (crun st0 cevs)) ->
    (exists t', t = Datatypes.S t' /\ In (CQuery t' q) cevs) /\
    (seen <> [] ->
       exists v, o = Some (query v q) /\ In v (Locks.hist _ _ _ _ (crun st0 cevs)) /\
                 (v = st0 \/ exists f, In (CSignal f) cevs /\ load a f = Some v)) /\
    (seen = [] -> o = Some (F [] q)).
Proof.
  intros t q seen o H.
  destruct (reads_consistent state state question (option (res unit answer)) zexec zrexec st0 (flat_map to_ev cevs) t q seen o H)
    as (Ho & v & Hf & Hv & _).
  destruct (only_called_sections_run state state question (option (res unit answer)) zexec zrexec st0 (flat_map to_ev cevs)) as [_ Hc].
  split; [eapply callr_origin; eapply Hc; exact H|]. split.
  - intro Hne. exists v. split; [|split; [exact Hv|apply concurrent_states_origin; exact Hv]].
    rewrite Ho. unfold zrexec. f_equal. apply F_consistent; assumption.
  - intros ->. exact Ho.
Qed.

(* a signal whose load fails contributes no event at all: the state, the lock and every task are
   exactly as if it had not been delivered *)
Theorem concurrent_failed_reload_is_noop st0 cevs1 f cevs2 :
  load a f = None -> crun st0 (cevs1 ++ CSignal f :: cevs2) = crun st0 (cevs1 ++ cevs2).
Proof.
  intro L. unfold crun. rewrite !flat_map_app. cbn [flat_map to_ev]. rewrite L. reflexivity.
Qed.

(* the current configuration is always the last value stored (or the initial one) *)
Theorem concurrent_current_in_history st0 cevs :
  exists tl, Locks.hist _ _ _ _ (crun st0 cevs) = shared _ _ _ _ (crun st0 cevs) :: tl.
Proof. exact (proj1 (hist_origin _ _ _ _ zexec zrexec st0 (flat_map to_ev cevs))). Qed.

End Conc.

(* Why the ONE read section matters: a handler that took the read lock twice (two sections for one
   query) can see two configurations.  Two consecutive read sections of handler 1 around a completed
   reload see the old and the new value. *)
Example two_sections_can_differ :
  let s := run_sched nat nat unit (list nat) (fun _ _ z => (z, [])) (fun seen _ => seen)
             (init_sys nat nat unit (list nat) 0%nat)
             [CallR _ _ 1%nat tt; Acq _ _ 1%nat; Step _ _ 1%nat; Rel _ _ 1%nat;
              CallW _ _ 0%nat 7%nat; Acq _ _ 0%nat; Step _ _ 0%nat; Rel _ _ 0%nat;
              CallR _ _ 1%nat tt; Acq _ _ 1%nat; Step _ _ 1%nat; Rel _ _ 1%nat] in
  map (fun r => match r with RRet _ _ _ _ _ _ seen _ => seen | WRet _ _ _ _ _ => [] end) (rets _ _ _ _ s)
  = [[7%nat]; []; [0%nat]].
Proof. vm_compute. reflexivity. Qed.

(* ... while inside ONE section the writer cannot get in: the same reload attempted between two reads
   of one section has to wait, and the section sees one value *)
Example one_section_sees_one :
  let s := run_sched nat nat unit (list nat) (fun _ _ z => (z, [])) (fun seen _ => seen)
             (init_sys nat nat unit (list nat) 0%nat)
             [CallR _ _ 1%nat tt; Acq _ _ 1%nat; Step _ _ 1%nat;
              CallW _ _ 0%nat 7%nat; Acq _ _ 0%nat; Step _ _ 0%nat; Rel _ _ 0%nat;
              Step _ _ 1%nat; Rel _ _ 1%nat; Acq _ _ 0%nat; Step _ _ 0%nat; Rel _ _ 0%nat] in
  map (fun r => match r with RRet _ _ _ _ _ _ seen _ => seen | WRet _ _ _ _ _ => [] end) (rets _ _ _ _ s)
  = [[]; [0%nat; 0%nat]] /\ shared _ _ _ _ s = 7%nat.
Proof. vm_compute. split; reflexivity. Qed.
