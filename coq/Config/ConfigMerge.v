(* Config/ConfigMerge.v -- discharges the premise of ConfigProofs.load_zone_repr with the lemmas of
   Zone/ZoneMergeProofs.v: the tree invariant is [wf_tree] (unique child labels), Zone::merge
   preserves it and refines the flat merge. *)
From RV Require Import Base.Prelude Name.NameModel Zone.ZoneModel Zone.ZoneFlat
     Zone.ZoneMergeProofs Config.ConfigModel Config.ConfigProofs.

Definition zone_wf (z : zone) : Prop := wf_tree (z_records z).

Lemma zone_merge_wf a b m : zone_wf a -> zone_wf b -> zone_merge a b = Some m -> zone_wf m.
Proof.
  unfold zone_wf, zone_merge. intros Ha Hb Hm.
  destruct (negb (dname_eqb (z_apex a) (z_apex b))); [discriminate|].
  destruct (z_soa b); inversion Hm; subst m; cbn [z_records].
  - apply node_merge_wf_tree; [|exact Hb].
    (* wf_tree looks at the children only: dropping the apex SOA entry does not matter *)
    destruct (z_records a). exact Ha.
  - apply node_merge_wf_tree; assumption.
Qed.

Lemma zone_merge_repr_wf : forall a b fa fb m,
  zone_wf a -> zone_wf b -> zrepr a fa -> zrepr b fb -> zone_merge a b = Some m ->
  zone_wf m /\ zrepr m (fz_merge fa fb (zone_is_authoritative b)).
Proof.
  intros a b fa fb m Ha Hb Ra Rb Hm. split.
  - exact (zone_merge_wf a b m Ha Hb Hm).
  - unfold zrepr in *. destruct (zone_merge_repr a b fa fb m Ra Rb Hb Hm) as [_ H]. exact H.
Qed.

(* per apex, the loaded zone represents the flat chain (union, last SOA wins) of the files for that apex *)
Theorem load_zone_repr_closed :
  forall a f zs (flat_of : zone -> fzone), config_hosts_wf a f -> load a f = Some zs ->
  exists hz, hosts_to_zone (loaded_hosts a f) = Ok hz /\ z_apex hz = root_domain /\ z_soa hz = None /\
    forall k, Forall (fun z => zone_wf z /\ zrepr z (flat_of z)) (for_apex k (zone_inputs a f hz)) ->
      match alookup dname_eqb k zs, flat_chain (map (ffile_of flat_of) (for_apex k (zone_inputs a f hz))) with
      | Some m, Some fm => z_apex m = k /\ zrepr m fm
      | None, None => for_apex k (zone_inputs a f hz) = []
      | _, _ => False
      end.
Proof. exact (load_zone_repr zone_wf zone_merge_repr_wf). Qed.
