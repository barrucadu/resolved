(* Name/NameWireCase.v -- C16, wire side of case-insensitivity: two byte strings that
   differ only in the ASCII case of the LABEL octets of the name being read (same length
   octets, same pointers) decode to the same name, and leave the cursor at the same offset.

   [decode_name hops (map lower bs) ..] = [decode_name hops bs ..] is false: lower-casing
   every octet would also change length octets 65..90.  The relation below therefore
   follows the name grammar (RFC 1035 4.1.4, NameAt in Wire/WireGrammar.v): root octet /
   length octet + label octets equal after case folding / pointer to a target that is again
   a variant.  Nothing is assumed about pointer direction or total length: where the decoder
   rejects (forward pointer, name longer than 255) it rejects both strings alike. *)
From RV Require Import Base.Prelude Base.Cursor Name.NameModel Name.NameSpec Name.NameProofs.
Open Scope N_scope.

Inductive name_case_variant (bs bs' : list byte) : N -> Prop :=
| NCV_root pos :
    nthN bs pos = Some 0 -> nthN bs' pos = Some 0 ->
    name_case_variant bs bs' pos
| NCV_label pos sz os os' :
    nthN bs pos = Some sz -> nthN bs' pos = Some sz -> 1 <= sz <= 63 ->
    sliceN bs (pos + 1) sz = Some os -> sliceN bs' (pos + 1) sz = Some os' ->
    map lower os = map lower os' ->
    name_case_variant bs bs' (pos + 1 + sz) ->
    name_case_variant bs bs' pos
| NCV_ptr pos hi lo :
    nthN bs pos = Some hi -> nthN bs' pos = Some hi -> 192 <= hi <= 255 ->
    nthN bs (pos + 1) = Some lo -> nthN bs' (pos + 1) = Some lo ->
    name_case_variant bs bs' ((hi - 192) * 256 + lo) ->
    name_case_variant bs bs' pos.

(* what the caller of the decoder sees of a result: the name and the offset reached *)
Definition res_at (r : res werr_kind (dname * cur)) : res werr_kind (dname * N) :=
  match r with
  | Ok (n, c) => Ok (n, cpos c)
  | Err e => Err e
  | Panic => Panic
  | OutOfFuel => OutOfFuel
  end.

Lemma decode_name_at_res_at bs pos :
  decode_name_at bs pos = res_at (decode_name HOP_FUEL bs (at_offset bs pos)).
Proof. unfold decode_name_at, res_at. destruct (decode_name _ _ _) as [[n c]| | |]; reflexivity. Qed.

Lemma nwc_sliceN_len {A} (l : list A) i n os : sliceN l i n = Some os -> llen os = n.
Proof. intro H. apply sliceN_spec in H. tauto. Qed.

Lemma res_at_finish ls len c c' : cpos c = cpos c' ->
  res_at (name_finish ls len c) = res_at (name_finish ls len c').
Proof. intro H. unfold name_finish. destruct (len <=? DOMAINNAME_MAX_LEN); cbn [res_at]; congruence. Qed.

Lemma name_loop_case bs bs' pos : name_case_variant bs bs' pos ->
  forall h start lf len acc,
    res_at (name_loop (fun p => decode_name h bs (at_offset bs p)) start lf (at_offset bs pos) len acc)
    = res_at (name_loop (fun p => decode_name h bs' (at_offset bs' p)) start lf (at_offset bs' pos) len acc).
Proof.
  induction 1 as [pos H0 H0' | pos sz os os' Hsz Hsz' Hr Hos Hos' Hlow _ IH
                  | pos hi lo Hhi Hhi' Hr Hlo Hlo' _ IH];
    intros h start lf len acc; (destruct lf as [|lf]; [reflexivity|]); cbn [name_loop];
    rewrite !next_u8_nth.
  - rewrite H0, H0'. unfold LABEL_MAX_LEN. change (0 <=? 63) with true. change (0 =? 0) with true.
    cbv iota. apply res_at_finish. reflexivity.
  - rewrite Hsz, Hsz'. unfold LABEL_MAX_LEN.
    rewrite (proj2 (N.leb_le sz 63)) by lia. rewrite (proj2 (N.eqb_neq sz 0)) by lia.
    replace (pos + 1 + sz) with ((pos + 1) + sz) in IH by lia.
    rewrite (take_at_slice _ _ _ _ Hos), (take_at_slice _ _ _ _ Hos'). rewrite Hlow.
    destruct (DOMAINNAME_MAX_LEN <? len + 1 + sz).
    + apply res_at_finish. reflexivity.
    + apply IH.
  - rewrite Hhi, Hhi'. unfold LABEL_MAX_LEN.
    rewrite (proj2 (N.leb_gt hi 63)) by lia. rewrite (proj2 (N.leb_le 192 hi)) by lia.
    rewrite !next_u8_nth. rewrite Hlo, Hlo'. unfold u16_be. rewrite (land_63 hi) by lia.
    destruct (start <=? (hi - 192) * 256 + lo); [reflexivity|].
    destruct h as [|h]; [reflexivity|]. cbn [decode_name].
    change (cpos (at_offset bs ((hi - 192) * 256 + lo))) with ((hi - 192) * 256 + lo).
    change (cpos (at_offset bs' ((hi - 192) * 256 + lo))) with ((hi - 192) * 256 + lo).
    specialize (IH h ((hi - 192) * 256 + lo) LABEL_FUEL 0 []).
    destruct (name_loop _ _ _ (at_offset bs _) _ _) as [[o1 c1]| | |];
      destruct (name_loop _ _ _ (at_offset bs' _) _ _) as [[o2 c2]| | |];
      cbn [res_at] in IH; try discriminate; try reflexivity.
    + injection IH as -> _. apply res_at_finish. reflexivity.
    + exact IH.
Qed.

Lemma decode_name_case bs bs' pos h : name_case_variant bs bs' pos ->
  res_at (decode_name h bs (at_offset bs pos)) = res_at (decode_name h bs' (at_offset bs' pos)).
Proof.
  intro H. destruct h as [|h]; [reflexivity|]. cbn [decode_name].
  change (cpos (at_offset bs pos)) with pos. change (cpos (at_offset bs' pos)) with pos.
  apply name_loop_case, H.
Qed.

Lemma wire_case_insensitive bs bs' pos :
  name_case_variant bs bs' pos -> decode_name_at bs pos = decode_name_at bs' pos.
Proof. intro H. rewrite !decode_name_at_res_at. apply decode_name_case, H. Qed.

(* the relation is not vacuous and not just equality: "www.example" spelled in two
   mixed cases at offset 0, and at offset 13 the name "A" / "a" followed by a pointer to it *)
Definition nwc_ex  : list byte := [3;87;119;87; 7;101;88;97;109;80;108;69; 0; 1;65; 192;0].
Definition nwc_ex' : list byte := [3;119;87;119; 7;69;120;65;77;112;76;101; 0; 1;97; 192;0].

Lemma nwc_ex_variant : name_case_variant nwc_ex nwc_ex' 13.
Proof.
  eapply NCV_label with (sz := 1); try reflexivity; [lia|].
  eapply NCV_ptr with (hi := 192) (lo := 0); try reflexivity; [lia|].
  eapply NCV_label with (sz := 3); try reflexivity; [lia|].
  eapply NCV_label with (sz := 7); try reflexivity; [lia|].
  apply NCV_root; reflexivity.
Qed.
