(* C16: the constructors of Name/NameModel.v against the well-formedness of Name/NameSpec.v. *)
From RV Require Export Base.PreludeFacts.
From RV Require Import Base.Prelude Base.Cursor Base.AssocFacts Name.NameModel Name.NameSpec.

Lemma subdomain_is_suffix a b :
  is_subdomain_of a b = true <-> is_suffix (labels b) (labels a).
Proof.
  unfold is_subdomain_of, ends_with, is_suffix.
  destruct (Nat.leb (length (labels b)) (length (labels a))) eqn:E.
  - apply PeanoNat.Nat.leb_le in E. split.
    + intro H. apply lleqb_eq in H.
      exists (firstn (length (labels a) - length (labels b)) (labels a)).
      rewrite <- H at 2. symmetry. apply firstn_skipn.
    + intros [pre H]. apply lleqb_eq. rewrite H.
      rewrite app_length. replace (length pre + length (labels b) - length (labels b))%nat with (length pre) by lia.
      rewrite skipn_app, skipn_all, PeanoNat.Nat.sub_diag. reflexivity.
  - apply PeanoNat.Nat.leb_gt in E. split; [discriminate|].
    intros [pre H]. rewrite H, app_length in E. lia.
Qed.

Ltac ll :=
  unfold byte, label in *;
  repeat first [rewrite llen_cons in * | rewrite llen_app in * | rewrite llen_map in *];
  repeat match goal with
         | |- context [@llen ?A (@nil ?B)] => change (@llen A (@nil B)) with 0
         | H : context [@llen ?A (@nil ?B)] |- _ => change (@llen A (@nil B)) with 0 in H
         end.

Lemma llen_zero {A} (l : list A) : llen l = 0 -> l = [].
Proof. destruct l as [|x l]; [reflexivity|]. rewrite llen_cons. lia. Qed.

Lemma sum_lens_app a b : sum_lens (a ++ b) = sum_lens a + sum_lens b.
Proof.
  induction a as [|l a IH]; cbn [app sum_lens]; [lia|]. rewrite IH. lia.
Qed.

Lemma sum_lens_root : sum_lens [[]] = 1.
Proof. reflexivity. Qed.

Lemma sum_lens_cons l ls : sum_lens (l :: ls) = 1 + llen l + sum_lens ls.
Proof. reflexivity. Qed.

Lemma sum_lens_ge ls : llen ls <= sum_lens ls.
Proof.
  induction ls as [|l ls IH]; cbn [sum_lens]; [ll; lia|].
  rewrite llen_cons. lia.
Qed.

Lemma lower_eq_46 b : lower b = 46 <-> b = 46.
Proof. destruct (lower_cases b) as [[H ->]|[H ->]]; lia. Qed.

Lemma lower_eqb_const c k : k < 65 -> (lower c =? k) = (c =? k).
Proof.
  intro Hk. destruct (lower_cases c) as [[Hr ->]|[Hr ->]]; [|reflexivity].
  rewrite (proj2 (N.eqb_neq _ _)) by lia. rewrite (proj2 (N.eqb_neq _ _)) by lia. reflexivity.
Qed.

Definition nonempty (l : label) : Prop := l <> [].

Lemma label_is_empty_true l : label_is_empty l = true <-> l = [].
Proof. destruct l; cbn; split; congruence. Qed.

Lemma loop_false ls : forall len b len',
  from_labels_loop ls false len = Some (b, len') ->
  len' + llen ls = len + sum_lens ls /\
  ((b = true /\ exists front, ls = front ++ [[]] /\ Forall nonempty front)
   \/ (b = false /\ Forall nonempty ls)).
Proof.
  induction ls as [|l t IH]; intros len b len' H; cbn [from_labels_loop] in H.
  - inversion H; subst. split; [cbn [sum_lens]; ll; lia|]. right. split; [reflexivity|constructor].
  - cbn [orb] in H. destruct l as [|x l]; cbn [label_is_empty] in H.
    + destruct t; cbn [from_labels_loop] in H; [|discriminate]. inversion H; subst.
      split; [cbn [sum_lens]; ll; lia|].
      left. split; [reflexivity|]. exists []. split; [reflexivity|constructor].
    + apply IH in H as [Hlen Hb]. split.
      * cbn [sum_lens]. ll. lia.
      * destruct Hb as [[-> (front & -> & Hf)]|[-> Hf]].
        -- left. split; [reflexivity|]. exists ((x :: l) :: front). split; [reflexivity|].
           constructor; [discriminate|assumption].
        -- right. split; [reflexivity|]. constructor; [discriminate|assumption].
Qed.

Lemma loop_complete front : forall len, Forall nonempty front ->
  exists len', from_labels_loop (front ++ [[]]) false len = Some (true, len')
               /\ len' + llen (front ++ [[]]) = len + sum_lens (front ++ [[]]).
Proof.
  induction front as [|l t IH]; intros len Hf.
  - exists (len + llen (@nil byte)). split; [reflexivity|]. cbn [app sum_lens]. ll. lia.
  - apply Forall_cons_iff in Hf as [Hl Ht]. destruct l as [|x l]; [exfalso; apply Hl; reflexivity|].
    cbn [app from_labels_loop orb label_is_empty].
    destruct (IH (len + llen (x :: l)) Ht) as (len' & E & Hlen).
    exists len'. split; [exact E|]. cbn [sum_lens]. ll. lia.
Qed.

Lemma from_labels_ne ls : ls <> [] ->
  from_labels ls = match from_labels_loop ls false (llen ls) with
                   | Some (true, len) =>
                     if len <=? 255 then Some {| labels := ls; nlen := len |} else None
                   | _ => None
                   end.
Proof. destruct ls; [contradiction|reflexivity]. Qed.

Lemma from_labels_inv ls n : from_labels ls = Some n ->
  labels n = ls /\ nlen n = sum_lens ls /\ sum_lens ls <= 255 /\
  exists front, ls = front ++ [[]] /\ Forall nonempty front.
Proof.
  intro H. rewrite from_labels_ne in H by (intros ->; discriminate).
  destruct (from_labels_loop ls false (llen ls)) as [[[|] len]|] eqn:E; try discriminate.
  destruct (N.leb_spec len 255) as [Hle|Hgt]; [|discriminate].
  inversion H; subst; clear H. cbn [labels nlen].
  apply loop_false in E as [Hlen [[_ Hf]|[Hb _]]]; [|discriminate].
  assert (len = sum_lens ls) by lia. subst len. auto.
Qed.

Lemma from_labels_intro front : Forall nonempty front -> sum_lens (front ++ [[]]) <= 255 ->
  from_labels (front ++ [[]]) = Some {| labels := front ++ [[]]; nlen := sum_lens (front ++ [[]]) |}.
Proof.
  intros Hf Hs. rewrite from_labels_ne by (destruct front; discriminate).
  destruct (loop_complete front (llen (front ++ [[]])) Hf) as (len' & E & Hlen). rewrite E.
  assert (len' = sum_lens (front ++ [[]])) by lia. subst len'.
  destruct (N.leb_spec (sum_lens (front ++ [[]])) 255); [reflexivity|lia].
Qed.

Definition good_front (front : list label) : Prop := Forall (fun l => l <> [] /\ wf_label l) front.

Lemma good_front_nonempty front : good_front front -> Forall nonempty front.
Proof. intro H. apply Forall_and_inv in H. tauto. Qed.

Lemma good_front_wf front : good_front front -> Forall wf_label front.
Proof. intro H. apply Forall_and_inv in H. tauto. Qed.

Lemma from_labels_wf ls n :
  Forall wf_label ls -> from_labels ls = Some n -> wf_name n /\ labels n = ls.
Proof.
  intros Hwf H. apply from_labels_inv in H as (Hl & Hn & Hs & front & Hls & Hf).
  split; [|assumption]. unfold wf_name. rewrite Hl. split; [|assumption].
  exists front. split; [assumption|]. split; [|assumption].
  rewrite Hls in Hwf. apply Forall_app in Hwf as [Hwf _]. apply Forall_and; assumption.
Qed.

Lemma wf_labels_from_labels ls : wf_labels ls -> exists n, from_labels ls = Some n.
Proof.
  intros (front & -> & Hf & Hs). eexists. apply from_labels_intro; [|assumption].
  apply good_front_nonempty, Hf.
Qed.

Lemma from_labels_complete ls :
  Forall wf_label ls -> (from_labels ls = None <-> ~ wf_labels ls).
Proof.
  intro Hwf. split.
  - intros H Hw. apply wf_labels_from_labels in Hw as [n Hn]. congruence.
  - intro Hnw. destruct (from_labels ls) as [n|] eqn:E; [|reflexivity].
    exfalso. apply Hnw. apply from_labels_wf in E as [[Hw _] Hl]; [|assumption]. rewrite <- Hl. assumption.
Qed.

Lemma from_labels_of_wf n : wf_name n -> from_labels (labels n) = Some n.
Proof.
  destruct n as [ls len]. intros [(front & Hls & Hf & Hs) Hn]. cbn [labels nlen] in *. subst ls len.
  apply from_labels_intro; [|assumption]. apply good_front_nonempty, Hf.
Qed.

Lemma wf_labels_all ls : wf_labels ls -> Forall wf_label ls.
Proof.
  intros (front & -> & Hf & _). apply Forall_app. split.
  - apply good_front_wf, Hf.
  - constructor; [|constructor]. split; [ll; lia|constructor].
Qed.

Definition small (b : N) : Prop := b < 256.

Lemma cont_byte x : 128 <= 128 + x mod 64 < 192.
Proof.
  assert (H : x mod 64 < 64) by (apply N.mod_lt; lia).
  set (m := x mod 64) in *. clearbody m. lia.
Qed.

Lemma lower_ge b : 91 <= b -> lower b = b.
Proof. intro H. apply lower_id, is_upper_false. lia. Qed.

Lemma lower_lead a x : 91 <= a -> lower (a + x) = a + x.
Proof. intro H. apply lower_ge. lia. Qed.

Lemma lower_cont x : lower (128 + x mod 64) = 128 + x mod 64.
Proof. apply lower_ge. pose proof (cont_byte x). lia. Qed.

Lemma utf8_char_ne c : utf8_char c <> [].
Proof.
  unfold utf8_char. destruct (c <? 128); [discriminate|].
  destruct (c <? 2048); [discriminate|]. destruct (c <? 65536); discriminate.
Qed.

Lemma utf8_char_small c : scalar c -> Forall small (utf8_char c).
Proof.
  unfold scalar, small, utf8_char. intro Hc.
  destruct (N.ltb_spec c 128) as [H1|H1]; [repeat constructor; lia|].
  destruct (N.ltb_spec c 2048) as [H2|H2].
  { assert (c / 64 < 32) by (apply N.div_lt_upper_bound; lia).
    pose proof (cont_byte c). set (d := c / 64) in *. clearbody d.
    repeat constructor; lia. }
  destruct (N.ltb_spec c 65536) as [H3|H3].
  { assert (c / 4096 < 16) by (apply N.div_lt_upper_bound; lia).
    pose proof (cont_byte c). pose proof (cont_byte (c / 64)).
    set (d := c / 4096) in *. clearbody d.
    repeat constructor; lia. }
  assert (c / 262144 < 16) by (apply N.div_lt_upper_bound; lia).
  pose proof (cont_byte c). pose proof (cont_byte (c / 64)). pose proof (cont_byte (c / 4096)).
  set (d := c / 262144) in *. clearbody d.
  repeat constructor; lia.
Qed.

Lemma utf8_char_lower c : map lower (utf8_char c) = utf8_char (lower c).
Proof.
  unfold utf8_char.
  destruct (N.ltb_spec c 128) as [H1|H1].
  - assert (H : lower c < 128) by (destruct (lower_cases c) as [[H ->]|[H ->]]; lia).
    apply N.ltb_lt in H. rewrite H. reflexivity.
  - rewrite (lower_ge c) by lia.
    destruct (N.ltb_spec c 128) as [H1'|_]; [lia|].
    destruct (c <? 2048); [|destruct (c <? 65536)]; cbn [map];
      rewrite !lower_lead by lia; reflexivity.
Qed.

Lemma utf8_cons c s : utf8 (c :: s) = utf8_char c ++ utf8 s.
Proof. reflexivity. Qed.

Lemma utf8_lower s : map lower (utf8 s) = utf8 (map lower s).
Proof.
  induction s as [|c s IH]; [reflexivity|].
  cbn [map]. rewrite !utf8_cons, map_app. f_equal; [apply utf8_char_lower | exact IH].
Qed.

Lemma utf8_nil_inv s : utf8 s = [] -> s = [].
Proof.
  destruct s as [|c s]; [reflexivity|]. rewrite utf8_cons. intro H.
  apply app_eq_nil in H as [H _]. exfalso. exact (utf8_char_ne c H).
Qed.

Lemma utf8_small s : Forall scalar s -> Forall small (utf8 s).
Proof.
  intro H. unfold utf8. apply Forall_flat_map.
  rewrite Forall_forall in *. intros c Hc. apply utf8_char_small, H, Hc.
Qed.

Lemma utf8_ascii l : Forall (fun b => b < 128) l -> utf8 l = l.
Proof.
  induction 1 as [|b l Hb _ IH]; [reflexivity|].
  rewrite utf8_cons, IH. unfold utf8_char. apply N.ltb_lt in Hb. rewrite Hb. reflexivity.
Qed.

(* the label a text chunk becomes *)
Definition lab (c : list N) : label := map lower (utf8 c).

Lemma lab_nil_inv c : lab c = [] -> c = [].
Proof. unfold lab. intro H. apply map_eq_nil in H. apply utf8_nil_inv; assumption. Qed.

Lemma lab_ne c : c <> [] -> nonempty (lab c).
Proof. intros H H'. apply H, lab_nil_inv, H'. Qed.

Lemma map_lower_wf l : Forall small l ->
  Forall (fun b => b < 256 /\ is_upper b = false) (map lower l).
Proof.
  intro H. apply Forall_map. rewrite Forall_forall in *. intros b Hb.
  split; [apply lower_small, H, Hb | apply lower_not_upper].
Qed.

Lemma lab_wf c : Forall scalar c -> llen (utf8 c) <= 63 -> wf_label (lab c).
Proof.
  intros Hs Hl. split; [unfold lab; rewrite llen_map; assumption|].
  apply map_lower_wf, utf8_small, Hs.
Qed.

(* a well-formed ASCII label is the label of itself read as text *)
Lemma lab_ascii l : wf_label l -> Forall (fun b => b < 128 /\ b <> 46) l -> lab l = l.
Proof.
  intros [_ Hw] Ha. unfold lab. rewrite utf8_ascii.
  - apply map_lower_id. rewrite Forall_forall in *. intros b Hb. apply Hw, Hb.
  - rewrite Forall_forall in *. intros b Hb. apply Ha, Hb.
Qed.

Definition nodot (c : list N) : Prop := ~ In 46 c.
Definition dotjoin (cs : list (list N)) : list N := concat (map (fun c => c ++ [46]) cs).

Lemma split_on_ne d s : split_on d s <> [].
Proof.
  destruct s as [|x t]; cbn [split_on]; [discriminate|].
  destruct (N.eqb x d); [discriminate|]. destruct (split_on d t); discriminate.
Qed.

Lemma split_on_app_sep d a b : split_on d (a ++ d :: b) = split_on d a ++ split_on d b.
Proof.
  induction a as [|x a IH]; cbn [app split_on].
  - rewrite N.eqb_refl. reflexivity.
  - destruct (N.eqb x d); [rewrite IH; reflexivity|].
    rewrite IH. destruct (split_on d a) as [|h r] eqn:E; [exfalso; exact (split_on_ne d a E)|].
    reflexivity.
Qed.

Lemma split_on_nodot c : nodot c -> split_on 46 c = [c].
Proof.
  unfold nodot. induction c as [|x c IH]; intro H; cbn [split_on]; [reflexivity|].
  destruct (N.eqb_spec x 46) as [->|Hx]; [exfalso; apply H; left; reflexivity|].
  rewrite IH; [reflexivity|]. intro Hin. apply H. right. assumption.
Qed.

Lemma split_on_dotjoin cs : Forall nodot cs -> split_on 46 (dotjoin cs) = cs ++ [[]].
Proof.
  induction 1 as [|c cs Hc _ IH]; unfold dotjoin in *; cbn [map concat app]; [reflexivity|].
  rewrite <- app_assoc. cbn [app]. rewrite split_on_app_sep, IH, split_on_nodot by assumption. reflexivity.
Qed.

Lemma split_on_all_nodot s : Forall nodot (split_on 46 s).
Proof.
  induction s as [|x t IH]; cbn [split_on].
  - constructor; [intros []|constructor].
  - destruct (N.eqb_spec x 46) as [->|Hx].
    + constructor; [intros []|assumption].
    + destruct (split_on 46 t) as [|h r]; [constructor; [|constructor]|].
      * intros [H|[]]. congruence.
      * apply Forall_cons_iff in IH as [Hh Hr]. constructor; [|assumption].
        intros [H|H]; [congruence|exact (Hh H)].
Qed.

Lemma join_dots_snoc cs l : join_dots (cs ++ [l]) = dotjoin cs ++ l.
Proof.
  unfold dotjoin. induction cs as [|c cs IH]; [reflexivity|].
  cbn [app map concat]. rewrite <- !app_assoc, <- IH. cbn [app join_dots].
  destruct (cs ++ [l]) eqn:E; [destruct cs; discriminate|reflexivity].
Qed.

Lemma join_dots_split s : join_dots (split_on 46 s) = s.
Proof.
  induction s as [|x t IH]; cbn [split_on]; [reflexivity|].
  destruct (split_on 46 t) as [|h r] eqn:E; [exfalso; exact (split_on_ne 46 t E)|].
  destruct (N.eqb_spec x 46) as [->|Hx].
  - cbn [join_dots app] in *. rewrite IH. reflexivity.
  - destruct r as [|h' r]; cbn [join_dots app] in *; rewrite <- IH; reflexivity.
Qed.

Lemma split_on_lower s : split_on 46 (map lower s) = map (map lower) (split_on 46 s).
Proof.
  induction s as [|x t IH]; cbn [map split_on]; [reflexivity|].
  rewrite lower_eqb_const, IH by lia. destruct (N.eqb x 46); [reflexivity|].
  destruct (split_on 46 t); reflexivity.
Qed.

Lemma label_try_from_some os l : label_try_from os = Some l -> l = map lower os /\ llen os <= 63.
Proof.
  unfold label_try_from, LABEL_MAX_LEN. destruct (N.ltb_spec 63 (llen os)) as [H|H]; [discriminate|].
  intro E; inversion E; auto.
Qed.

Lemma label_try_from_ok os : llen os <= 63 -> label_try_from os = Some (map lower os).
Proof.
  intro H. unfold label_try_from, LABEL_MAX_LEN. destruct (N.ltb_spec 63 (llen os)); [lia|reflexivity].
Qed.

Lemma label_case_insensitive os os' :
  map lower os = map lower os' -> label_try_from os = label_try_from os'.
Proof.
  intro H. unfold label_try_from.
  assert (Hl : llen os = llen os') by (rewrite <- (llen_map lower os), H; apply llen_map).
  unfold byte in *. rewrite Hl, H. reflexivity.
Qed.

Lemma dotted_chunks_some chunks : forall ls, dotted_chunks chunks = Some ls ->
  ls = map lab chunks /\ Forall (fun c => llen (utf8 c) <= 63) chunks.
Proof.
  induction chunks as [|c rest IH]; intros ls H; cbn [dotted_chunks] in H.
  - inversion H. split; [reflexivity|constructor].
  - destruct (label_is_empty c && negb (is_nil rest)); [discriminate|].
    destruct (label_try_from (utf8 c)) as [l|] eqn:El; [|discriminate].
    destruct (dotted_chunks rest) as [ls'|]; [|discriminate].
    inversion H; subst ls. apply label_try_from_some in El as [-> Hlen].
    destruct (IH ls' eq_refl) as [-> Hrest]. split; [reflexivity|constructor; assumption].
Qed.

Lemma dotted_chunks_intro cs :
  Forall (fun c => c <> [] /\ llen (utf8 c) <= 63) cs ->
  dotted_chunks (cs ++ [[]]) = Some (map lab cs ++ [[]]).
Proof.
  induction 1 as [|c cs [Hc Hl] _ IH].
  - reflexivity.
  - cbn [app dotted_chunks map]. destruct c as [|x c]; [exfalso; apply Hc; reflexivity|].
    cbn [label_is_empty andb]. rewrite (label_try_from_ok _ Hl), IH. reflexivity.
Qed.

Lemma dotjoin_not_dot cs : Forall (fun c : list N => c <> []) cs -> dotjoin cs <> [46].
Proof.
  intros H E. destruct cs as [|c cs]; [discriminate|].
  apply Forall_cons_iff in H as [Hc _]. unfold dotjoin in E. cbn [map concat] in E.
  destruct c as [|x [|y c]]; [apply Hc; reflexivity|discriminate|discriminate].
Qed.

Lemma from_dotted_nondot s : s <> [46] ->
  from_dotted_string s = match dotted_chunks (split_on 46 s) with
                         | Some ls => from_labels ls
                         | None => None
                         end.
Proof. intro H. unfold from_dotted_string. rewrite (leqb_false _ _ H). reflexivity. Qed.

Definition chunk_ok (c : list N) : Prop := c <> [] /\ ~ In 46 c /\ llen (utf8 c) <= 63.

(* accepted text other than "." *)
Lemma dotted_inv s n : s <> [46] -> from_dotted_string s = Some n ->
  exists cs, split_on 46 s = cs ++ [[]] /\ s = dotjoin cs /\ Forall chunk_ok cs
             /\ labels n = map lab cs ++ [[]] /\ nlen n = sum_lens (labels n) /\ nlen n <= 255.
Proof.
  intros Hs H. rewrite from_dotted_nondot in H by assumption.
  destruct (dotted_chunks (split_on 46 s)) as [ls|] eqn:Ec; [|discriminate].
  apply dotted_chunks_some in Ec as [-> Hlen].
  apply from_labels_inv in H as (Hl & Hn & Hsum & front & Hfront & Hne).
  destruct (exists_last (split_on_ne 46 s)) as (cs & last & Ecs). rewrite Ecs in *.
  rewrite map_app in Hfront. cbn [map] in Hfront. apply app_inj_tail in Hfront as [Hfront Hlast].
  apply lab_nil_inv in Hlast. subst last.
  exists cs. split; [reflexivity|].
  pose proof (join_dots_split s) as Hj. rewrite Ecs, join_dots_snoc, app_nil_r in Hj.
  split; [symmetry; exact Hj|].
  pose proof (split_on_all_nodot s) as Hnd. rewrite Ecs in Hnd. apply Forall_app in Hnd as [Hnd _].
  apply Forall_app in Hlen as [Hlen _].
  split; [|rewrite Hl, Hn; rewrite map_app in *; cbn [map] in *; repeat split; try assumption; reflexivity].
  rewrite Forall_forall in *. intros c Hc. split; [|split; [exact (Hnd c Hc) | exact (Hlen c Hc)]].
  intros ->. apply (Hne (lab [])); [|reflexivity]. rewrite <- Hfront. apply in_map with (f := lab) in Hc. exact Hc.
Qed.

Lemma dotted_intro cs n : Forall chunk_ok cs ->
  labels n = map lab cs ++ [[]] -> nlen n = sum_lens (labels n) -> nlen n <= 255 ->
  from_dotted_string (dotjoin cs) = Some n.
Proof.
  intros Hcs Hl Hn H255. rewrite Forall_forall in Hcs.
  rewrite from_dotted_nondot by (apply dotjoin_not_dot, Forall_forall; intros c Hc; apply (Hcs c Hc)).
  rewrite split_on_dotjoin by (apply Forall_forall; intros c Hc; apply (Hcs c Hc)).
  rewrite dotted_chunks_intro by (apply Forall_forall; intros c Hc; destruct (Hcs c Hc) as (? & ? & ?); auto).
  destruct n as [ls len]. cbn [labels nlen] in *. subst ls len.
  apply from_labels_intro; [|assumption].
  apply Forall_map, Forall_forall. intros c Hc. apply lab_ne, (Hcs c Hc).
Qed.

Lemma dotted_complete s n :
  Forall scalar s -> (from_dotted_string s = Some n <-> dotted_spec s n).
Proof.
  intros _. split.
  - intro H. destruct (list_eq_dec N.eq_dec s [46]) as [->|Hs].
    + left. split; [reflexivity|]. change (from_dotted_string [46]) with (Some root_domain) in H. congruence.
    + right. destruct (dotted_inv s n Hs H) as (cs & _ & Hj & Hok & Hl & Hn & H255).
      exists cs. repeat split; assumption.
  - intros [[-> ->]|(cs & -> & Hok & Hl & Hn & H255)]; [reflexivity|].
    apply dotted_intro; assumption.
Qed.

Lemma wf_name_intro front len :
  Forall (fun l => l <> [] /\ wf_label l) front -> len = sum_lens (front ++ [[]]) -> len <= 255 ->
  wf_name {| labels := front ++ [[]]; nlen := len |}.
Proof.
  intros Hf -> H. split; [|reflexivity]. exists front. auto.
Qed.

Lemma root_wf : wf_name root_domain.
Proof. apply (wf_name_intro [] 1); [constructor|reflexivity|lia]. Qed.

Lemma dotjoin_scalar cs : Forall scalar (dotjoin cs) -> Forall (Forall scalar) cs.
Proof.
  unfold dotjoin. induction cs as [|c cs IH]; cbn [map concat]; intro H; [constructor|].
  apply Forall_app in H as [H1 H2]. apply Forall_app in H1 as [H1 _].
  constructor; [assumption|apply IH; assumption].
Qed.

Lemma dotted_wf s n : Forall scalar s -> from_dotted_string s = Some n -> wf_name n.
Proof.
  intros Hsc H. apply (dotted_complete s n Hsc) in H as [[_ ->]|(cs & Hj & Hok & Hl & Hn & H255)]; [apply root_wf|].
  destruct n as [ls len]. cbn [labels nlen] in *. subst ls.
  apply wf_name_intro; [|assumption|assumption].
  rewrite Hj in Hsc. apply dotjoin_scalar in Hsc.
  apply Forall_map. rewrite Forall_forall in *. intros c Hc.
  destruct (Hok c Hc) as (Hne & _ & Hlen). split; [apply lab_ne; assumption|].
  apply lab_wf; [apply Hsc, Hc | assumption].
Qed.

Lemma leqb_lower_single s k : k < 65 -> leqb (map lower s) [k] = leqb s [k].
Proof.
  intro Hk. destruct s as [|x [|y t]]; cbn [map leqb]; try reflexivity.
  - rewrite (lower_eqb_const x k Hk). reflexivity.
  - rewrite !andb_false_r. reflexivity.
Qed.

Lemma dotted_chunks_lower chunks : dotted_chunks (map (map lower) chunks) = dotted_chunks chunks.
Proof.
  induction chunks as [|c rest IH]; [reflexivity|].
  cbn [map dotted_chunks]. rewrite IH.
  assert (E1 : label_is_empty (map lower c) = label_is_empty c) by (destruct c; reflexivity).
  assert (E2 : is_nil (map (map lower) rest) = is_nil rest) by (destruct rest; reflexivity).
  assert (E3 : label_try_from (utf8 (map lower c)) = label_try_from (utf8 c)).
  { apply label_case_insensitive. rewrite <- utf8_lower. apply map_lower_idem. }
  rewrite E1, E2, E3. reflexivity.
Qed.

Lemma from_dotted_lower s : from_dotted_string (map lower s) = from_dotted_string s.
Proof.
  unfold from_dotted_string. rewrite leqb_lower_single, split_on_lower, dotted_chunks_lower by lia. reflexivity.
Qed.

Lemma dotted_case_insensitive s s' :
  same_modulo_case s s' -> from_dotted_string s = from_dotted_string s'.
Proof.
  unfold same_modulo_case. intro H. rewrite <- (from_dotted_lower s), H. apply from_dotted_lower.
Qed.

Lemma wf_name_dest n : wf_name n ->
  exists front, n = {| labels := front ++ [[]]; nlen := sum_lens (front ++ [[]]) |}
                /\ good_front front /\ sum_lens (front ++ [[]]) <= 255.
Proof.
  destruct n as [ls len]. intros [(front & Hls & Hf & Hs) Hn]. cbn [labels nlen] in *. subst ls len.
  exists front. auto.
Qed.

Lemma to_dotted_nonroot front len : front <> [] -> Forall nonempty front ->
  to_dotted_string {| labels := front ++ [[]]; nlen := len |} = dotjoin front.
Proof.
  intros Hne Hf. unfold to_dotted_string.
  assert (E : is_root {| labels := front ++ [[]]; nlen := len |} = false).
  { destruct front as [|l f]; [contradiction|]. apply Forall_cons_iff in Hf as [Hl _].
    unfold is_root. cbn [labels app]. destruct l; [exfalso; apply Hl; reflexivity|].
    cbn [label_is_empty]. apply andb_false_r. }
  rewrite E. cbn [labels]. rewrite join_dots_snoc. apply app_nil_r.
Qed.

Definition ascii_label (l : label) : Prop := Forall (fun b => b < 128 /\ b <> 46) l.

Lemma map_lab_ascii front : Forall wf_label front -> Forall ascii_label front -> map lab front = front.
Proof.
  induction 1 as [|l front Hl _ IH]; intro Ha; [reflexivity|].
  apply Forall_cons_iff in Ha as [Hal Ha]. cbn [map]. rewrite IH by assumption.
  rewrite lab_ascii by assumption. reflexivity.
Qed.

Lemma ascii_label_nodot l : ascii_label l -> nodot l.
Proof.
  unfold ascii_label, nodot. rewrite Forall_forall. intros H Hin. destruct (H 46 Hin) as [_ Hne]. apply Hne; reflexivity.
Qed.

Lemma ascii_label_utf8 l : ascii_label l -> utf8 l = l.
Proof.
  intro H. apply utf8_ascii. unfold ascii_label in H. rewrite Forall_forall in *. intros b Hb. apply (H b Hb).
Qed.

Lemma dotted_roundtrip n :
  wf_name n -> ascii_nodot n -> from_dotted_string (to_dotted_string n) = Some n.
Proof.
  intros Hwf Ha. destruct (wf_name_dest n Hwf) as (front & -> & Hf & Hs).
  unfold ascii_nodot in Ha. cbn [labels] in Ha. apply Forall_app in Ha as [Ha _].
  fold ascii_label in Ha.
  destruct front as [|l0 f0] eqn:Ef; [reflexivity|]. rewrite <- Ef in *.
  rewrite to_dotted_nonroot; [|rewrite Ef; discriminate|apply good_front_nonempty; assumption].
  apply dotted_intro; cbn [labels nlen]; [| |reflexivity|assumption].
  - unfold good_front in Hf. rewrite Forall_forall in *. intros c Hc.
    destruct (Hf c Hc) as [Hne [Hlen _]]. specialize (Ha c Hc).
    split; [assumption|]. split; [apply ascii_label_nodot; assumption|].
    rewrite ascii_label_utf8; assumption.
  - rewrite map_lab_ascii; [reflexivity|apply good_front_wf; assumption|assumption].
Qed.

Definition starts_dot (l : list N) : bool := match l with 46 :: _ => true | _ => false end.

(* a [match] that singles out the octet 46 is a test [=? 46]: the one place where the binary
   representation of 46 is gone through *)
Lemma match_46 {T} (b : N) (A B : T) : match b with 46 => A | _ => B end = if b =? 46 then A else B.
Proof.
  destruct (N.eqb_spec b 46) as [->|H]; [reflexivity|]. destruct b as [|p]; [reflexivity|].
  repeat (destruct p as [p|p|]; try reflexivity; try (exfalso; apply H; reflexivity)).
Qed.

Lemma starts_dot_cons b t : b <> 46 -> starts_dot (b :: t) = false.
Proof. intro H. apply N.eqb_neq in H. unfold starts_dot. rewrite match_46, H. reflexivity. Qed.

Lemma match_dot {T} (l : list N) (A B : T) :
  match l with 46 :: _ => A | _ => B end = if starts_dot l then A else B.
Proof.
  destruct l as [|b t]; [reflexivity|]. unfold starts_dot. rewrite !match_46.
  destruct (b =? 46); reflexivity.
Qed.

Lemma dotjoin_wf_scalar front : Forall wf_label front -> Forall scalar (dotjoin front).
Proof.
  unfold dotjoin, scalar. induction 1 as [|l front [_ Hl] _ IH]; cbn [map concat]; [constructor|].
  apply Forall_app. split; [|assumption]. apply Forall_app. split.
  - rewrite Forall_forall in *. intros b Hb. destruct (Hl b Hb). lia.
  - constructor; [lia|constructor].
Qed.

Lemma to_dotted_scalar o : wf_name o -> Forall scalar (to_dotted_string o).
Proof.
  intro Ho. destruct (wf_name_dest o Ho) as (front & -> & Hf & _).
  destruct front as [|l0 f0]; [change (Forall scalar [46]); constructor; [unfold scalar; lia|constructor]|].
  rewrite to_dotted_nonroot by (try discriminate; apply good_front_nonempty, Hf).
  apply dotjoin_wf_scalar, good_front_wf, Hf.
Qed.

Lemma join_wf o s n :
  wf_name o -> Forall scalar s -> from_relative_dotted_string o s = Some n ->
  wf_name n /\ (ends_with_dot s = false -> ascii_nodot o -> is_suffix (labels o) (labels n)).
Proof.
  intros Ho Hs H. unfold from_relative_dotted_string in H.
  destruct s as [|x0 s0] eqn:Es.
  { inversion H; subst. split; [assumption|]. intros _ _. exists []. reflexivity. }
  rewrite <- Es in *.
  assert (Hsne : s <> []) by (rewrite Es; discriminate). clear Es x0 s0.
  destruct (ends_with_dot s) eqn:Ed.
  { split; [eapply dotted_wf; eassumption|discriminate]. }
  rewrite match_dot in H.
  pose proof (to_dotted_scalar o Ho) as Hsuf.
  assert (Hn : wf_name n).
  { destruct (starts_dot (to_dotted_string o)); (eapply dotted_wf; [|exact H]); apply Forall_app; split;
      try assumption. constructor; [unfold scalar; lia|assumption]. }
  split; [assumption|]. intros _ Ha.
  destruct (wf_name_dest o Ho) as (front & -> & Hf & H255).
  unfold ascii_nodot in Ha. cbn [labels] in *. apply Forall_app in Ha as [Ha _]. fold ascii_label in Ha.
  destruct front as [|l0 f0] eqn:Ef.
  { destruct (wf_name_dest n Hn) as (fn & -> & _). exists fn. reflexivity. }
  rewrite <- Ef in *.
  assert (Hfne : front <> []) by (rewrite Ef; discriminate).
  rewrite to_dotted_nonroot in H by (try assumption; apply good_front_nonempty, Hf).
  assert (Esd : starts_dot (dotjoin front) = false).
  { rewrite Ef in *. apply Forall_cons_iff in Ha as [Hl0 _]. apply Forall_cons_iff in Hf as [[Hne0 _] _].
    unfold dotjoin. cbn [map concat]. destruct l0 as [|b l0]; [exfalso; apply Hne0; reflexivity|].
    apply Forall_cons_iff in Hl0 as [[_ Hb] _]. cbn [app]. apply starts_dot_cons, Hb. }
  rewrite Esd in H.
  assert (Hnd : s ++ 46 :: dotjoin front <> [46]).
  { destruct s as [|x [|y t]]; [contradiction| |discriminate].
    cbn [app]. intro E. inversion E. }
  destruct (dotted_inv _ n Hnd H) as (cs & Hsplit & _ & _ & Hl & _).
  rewrite split_on_app_sep in Hsplit.
  rewrite split_on_dotjoin in Hsplit.
  2: { rewrite Forall_forall in *. intros c Hc. apply ascii_label_nodot, Ha, Hc. }
  rewrite app_assoc in Hsplit. apply app_inj_tail in Hsplit as [Hcs _].
  rewrite Hl, <- Hcs, map_app, (map_lab_ascii front) by (try assumption; apply good_front_wf, Hf).
  exists (map lab (split_on 46 s)). rewrite app_assoc. reflexivity.
Qed.

Lemma make_subdomain_wf a o n :
  wf_name a -> wf_name o -> make_subdomain_of a o = Some n ->
  wf_name n /\ labels n = removelast (labels a) ++ labels o.
Proof.
  intros Ha Ho H. unfold make_subdomain_of in H. apply from_labels_wf in H; [exact H|].
  apply Forall_app. split.
  - destruct (wf_name_dest a Ha) as (front & -> & Hf & _). cbn [labels].
    rewrite removelast_last. apply good_front_wf, Hf.
  - apply wf_labels_all, Ho.
Qed.

Lemma take_spec size c os c2 : take size c = Some (os, c2) ->
  crest c = os ++ crest c2 /\ llen os = size.
Proof.
  unfold take. rewrite split_exact_firstn.
  destruct (Nat.leb (N.to_nat size) (length (crest c))) eqn:E; [|discriminate]. apply PeanoNat.Nat.leb_le in E.
  intro H; inversion H; subst. cbn [crest]. split; [symmetry; apply firstn_skipn|].
  unfold llen. rewrite (firstn_length_le _ E). apply N2Nat.id.
Qed.

Lemma next_u8_spec c b c1 : next_u8 c = Some (b, c1) -> crest c = b :: crest c1.
Proof.
  unfold next_u8. destruct (crest c) as [|x r]; [discriminate|].
  intro H; inversion H; subst. reflexivity.
Qed.

Lemma name_finish_ok ls len c n c' : name_finish ls len c = Ok (n, c') ->
  len <= 255 /\ n = {| labels := ls; nlen := len |}.
Proof.
  unfold name_finish, DOMAINNAME_MAX_LEN. destruct (N.leb_spec len 255) as [Hle|Hgt]; intro H; [|discriminate].
  inversion H; subst. split; [assumption|reflexivity].
Qed.

Section NameLoopWf.
  Variable rec : N -> res werr_kind (dname * cur).
  Variable start : N.
  Hypothesis Hrec : forall p other c', rec p = Ok (other, c') -> wf_name other.

  Lemma name_loop_wf : forall lf c len acc n c',
    Forall small (crest c) -> good_front acc -> len = sum_lens acc ->
    name_loop rec start lf c len acc = Ok (n, c') -> wf_name n.
  Proof.
    induction lf as [|lf IH]; intros c len acc n c' Hc Hacc Hlen H; cbn [name_loop] in H; [discriminate|].
    destruct (next_u8 c) as [[size c1]|] eqn:E1; [|discriminate].
    apply next_u8_spec in E1. rewrite E1 in Hc. apply Forall_cons_iff in Hc as [Hsize Hc1].
    unfold LABEL_MAX_LEN, DOMAINNAME_MAX_LEN in H.
    destruct (size <=? 63) eqn:Ele.
    - apply N.leb_le in Ele.
      destruct (size =? 0) eqn:Ez.
      + apply name_finish_ok in H as [H255 ->].
        apply wf_name_intro; [exact Hacc| |exact H255].
        rewrite sum_lens_app, sum_lens_root. lia.
      + apply N.eqb_neq in Ez.
        destruct (take size c1) as [[os c2]|] eqn:E2; [|discriminate].
        apply take_spec in E2 as [Hc1' Hos].
        destruct (255 <? len + 1 + size) eqn:Elong.
        * apply N.ltb_lt in Elong. apply name_finish_ok in H as [H255 _]. lia.
        * apply N.ltb_ge in Elong. rewrite Hc1' in Hc1. apply Forall_app in Hc1 as [Hos_small Hc2].
          apply (IH c2 (len + 1 + size) (acc ++ [map lower os]) n c'); [exact Hc2| | |exact H].
          -- apply Forall_app. split; [exact Hacc|]. constructor; [|constructor]. split.
             ++ intro E. apply map_eq_nil in E. subst os. apply Ez. symmetry. exact Hos.
             ++ split; [ll; lia|]. apply map_lower_wf, Hos_small.
          -- rewrite sum_lens_app. cbn [sum_lens]. ll. lia.
    - destruct (192 <=? size); [|discriminate].
      destruct (next_u8 c1) as [[lo c2]|]; [|discriminate].
      destruct (start <=? u16_be (N.land size 63) lo); [discriminate|].
      destruct (rec (u16_be (N.land size 63) lo)) as [[other cx]| | |] eqn:Er; try discriminate.
      apply Hrec in Er. destruct (wf_name_dest other Er) as (front & -> & Hf & _).
      cbn [labels nlen] in H. apply name_finish_ok in H as [H255 ->].
      rewrite app_assoc. apply wf_name_intro; [|subst len; rewrite !sum_lens_app; lia|exact H255].
      apply Forall_app. split; assumption.
  Qed.
End NameLoopWf.

Lemma wire_wf hops bs : forall c n c',
  Forall (fun b => b < 256) bs -> Forall (fun b => b < 256) (crest c) ->
  decode_name hops bs c = Ok (n, c') -> wf_name n.
Proof.
  induction hops as [|h IH]; intros c n c' Hbs Hc H; cbn [decode_name] in H; [discriminate|].
  eapply name_loop_wf; [| exact Hc | constructor | reflexivity | exact H].
  intros p other cx Hp. eapply IH; [exact Hbs| |exact Hp]. cbn [at_offset crest]. apply Forall_skipn, Hbs.
Qed.

Lemma dname_eqb_eq a b : dname_eqb a b = true <-> a = b.
Proof.
  unfold dname_eqb. rewrite andb_true_iff, lleqb_eq, N.eqb_eq.
  destruct a as [la na], b as [lb nb]; cbn [labels nlen]. split.
  - intros [-> ->]. reflexivity.
  - intro H; inversion H; auto.
Qed.

Lemma dname_eqb_refl a : dname_eqb a a = true.
Proof. apply dname_eqb_eq. reflexivity. Qed.

Lemma alookup_some {V} k (m : list (dname * V)) v : alookup dname_eqb k m = Some v -> In (k, v) m.
Proof. apply (alookup_in dname_eqb dname_eqb_eq). Qed.

Lemma alookup_none {V} k (m : list (dname * V)) v : alookup dname_eqb k m = None -> ~ In (k, v) m.
Proof.
  intros H Hin. apply (alookup_none_notin dname_eqb dname_eqb_eq _ _ H). apply (in_map fst) in Hin. exact Hin.
Qed.

Lemma is_suffix_cons_inv {A} (p : list A) x t : is_suffix p (x :: t) -> p = x :: t \/ is_suffix p t.
Proof.
  intros [[|y pre] H]; [left; symmetry; exact H|]. right. cbn [app] in H. inversion H. exists pre. reflexivity.
Qed.

Lemma is_suffix_length {A} (p q : list A) : is_suffix p q -> (length p <= length q)%nat.
Proof. intros [pre ->]. rewrite app_length. lia. Qed.

Lemma zones_loop_spec {Z} (zs : list (dname * Z)) z : forall l,
  zones_get_loop zs (suffixes l) = Some z ->
  exists ls nm, is_suffix ls l /\ from_labels ls = Some nm /\ alookup dname_eqb nm zs = Some z /\
    forall p nm', is_suffix p l -> (length ls < length p)%nat -> from_labels p = Some nm' ->
                  alookup dname_eqb nm' zs = None.
Proof.
  induction l as [|x t IH]; cbn [suffixes zones_get_loop]; [discriminate|].
  intro H.
  assert (Hrest : zones_get_loop zs (suffixes t) = Some z ->
                  (forall nm', from_labels (x :: t) = Some nm' -> alookup dname_eqb nm' zs = None) ->
          exists ls nm, is_suffix ls (x :: t) /\ from_labels ls = Some nm /\ alookup dname_eqb nm zs = Some z /\
            forall p nm', is_suffix p (x :: t) -> (length ls < length p)%nat -> from_labels p = Some nm' ->
                          alookup dname_eqb nm' zs = None).
  { intros Hz Hhead. destruct (IH Hz) as (ls & nm & [pre Hsuf] & Hfl & Hlk & Hmax).
    exists ls, nm. split; [exists (x :: pre); rewrite Hsuf; reflexivity|]. split; [exact Hfl|]. split; [exact Hlk|].
    intros p nm' Hp Hlen Hfp. apply is_suffix_cons_inv in Hp as [->|Hp]; [apply Hhead, Hfp|].
    eapply Hmax; eassumption. }
  destruct (from_labels (x :: t)) as [nm|] eqn:Efl.
  - destruct (alookup dname_eqb nm zs) as [z0|] eqn:Elk.
    + inversion H; subst z0. exists (x :: t), nm. split; [exists []; reflexivity|]. split; [exact Efl|]. split; [exact Elk|].
      intros p nm' Hp Hlen _. apply is_suffix_length in Hp. lia.
    + apply Hrest; [exact H|]. intros nm' E. inversion E; subst. exact Elk.
  - apply Hrest; [exact H|]. intros nm' E. discriminate.
Qed.

Lemma zones_get_longest_suffix (Z : Type) (zs : list (dname * Z)) n z :
  wf_name n -> zones_get zs n = Some z ->
  exists k, In (k, z) zs /\ is_suffix (labels k) (labels n) /\
    forall k' z', In (k', z') zs -> wf_name k' -> is_suffix (labels k') (labels n) ->
                  (length (labels k') <= length (labels k))%nat.
Proof.
  intros _ H. unfold zones_get in H.
  destruct (zones_loop_spec zs z (labels n) H) as (ls & nm & Hsuf & Hfl & Hlk & Hmax).
  assert (Hl : labels nm = ls) by (apply from_labels_inv in Hfl; tauto).
  exists nm. split; [apply alookup_some, Hlk|]. rewrite Hl. split; [exact Hsuf|].
  intros k' z' Hin Hwf Hsuf'.
  destruct (PeanoNat.Nat.le_gt_cases (length (labels k')) (length ls)) as [Hle|Hgt]; [exact Hle|].
  exfalso. apply (alookup_none k' zs z'); [|exact Hin].
  apply (Hmax (labels k') k' Hsuf' Hgt). apply from_labels_of_wf, Hwf.
Qed.
