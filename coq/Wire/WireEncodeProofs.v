(* C04: the encoder of Wire/WireModel.v (a model of
   protocol/serialise.rs) produces byte strings that the relational grammar of
   Wire/WireGrammar.v parses back to the same message.

   Names written in full parse as names ([PlainAt], [plain_NameAt]); the invariant [wb_ok]
   says that every entry of the pointer table addresses such a name.  Each step of the
   encoder is described once by [Enc s P] (the invariant is kept, octets are only appended,
   and [P] holds of what was written); descriptions compose by [Enc_seq], and RDLENGTH
   back-patching is shown to equal writing the length in the first place
   ([encode_rr_unpatched]).  [encode_parses], [encode_bytes], [encode_succeeds] follow. *)
From Coq Require Import ZArith.
From RV Require Export Base.PreludeFacts Name.NameProofs.
From RV Require Import Base.AssocFacts.
From RV Require Import Base.Prelude Name.NameModel Name.NameSpec
  Wire.WireTypes Wire.WireModel Wire.WireGrammar Wire.WireDecodeProofs.
Open Scope N_scope.

(* lia with division / modulo by constants *)
Ltac dlia := zify; Z.to_euclidean_division_equations; lia.
(* equalities between differently bracketed appends / conses *)
Ltac norm_app := cbn [app]; rewrite <- ?app_assoc; cbn [app]; rewrite <- ?app_assoc; reflexivity.
(* split syntactic conjunctions only (never unfolds a definition, never splits an [exists]) *)
Ltac splits := repeat match goal with |- _ /\ _ => split end.


Lemma nthN_lt {A} (l : list A) i x : nthN l i = Some x -> i < llen l.
Proof. apply nthN_Some_lt. Qed.

(* big-endian fields as written *)
Lemma u16_bytes_val v : v < 65536 -> v = u16_hi v * 256 + u16_lo v.
Proof. unfold u16_hi, u16_lo. intros. dlia. Qed.
Lemma u32_bytes_val v : v < 4294967296 ->
  v = (((v / 16777216) mod 256 * 256 + (v / 65536) mod 256) * 256 + (v / 256) mod 256) * 256 + v mod 256.
Proof.
  (* the four octets are the base-256 digits: three divisions with remainder *)
  intro H. assert (E1 := N.div_mod v 256). assert (E2 := N.div_mod (v / 256) 256).
  assert (E3 := N.div_mod (v / 65536) 256). rewrite N.div_div in E2, E3 by lia.
  change (256 * 256) with 65536 in E2. change (65536 * 256) with 16777216 in E3.
  rewrite (N.mod_small (v / 16777216) 256) by (apply N.div_lt_upper_bound; lia). lia.
Qed.
Lemma u16_hi_lt v : u16_hi v < 256.
Proof. unfold u16_hi. dlia. Qed.
Lemma u16_lo_lt v : u16_lo v < 256.
Proof. unfold u16_lo. dlia. Qed.

(* a 16-bit field written big-endian reads back *)
Lemma u16At_written pre v post : v < 65536 -> u16At (pre ++ u16_bytes v ++ post) (llen pre) v.
Proof.
  intro Hv. exists (u16_hi v), (u16_lo v). cbn [u16_bytes app]. split; [apply nthN_app_mid|].
  split; [unfold at_; rewrite nthN_app_r; reflexivity | now apply u16_bytes_val].
Qed.

Definition bytes (l : list N) : Prop := Forall (fun b => b < 256) l.

Lemma bytes_u16 v : bytes (u16_bytes v).
Proof. repeat constructor; [apply u16_hi_lt | apply u16_lo_lt]. Qed.
Lemma bytes_u32 v : bytes (u32_bytes v).
Proof. unfold u32_bytes. repeat constructor; dlia. Qed.
Lemma bytes_app a b : bytes a -> bytes b -> bytes (a ++ b).
Proof. unfold bytes. intros. apply Forall_app. auto. Qed.

Lemma lor_192 x : x < 64 -> N.lor x 192 = x + 192.
Proof.
  intros Hx.
  assert (H : (N.lor x 192 =? x + 192) = true).
  { revert x Hx. apply (N_lt_sweep (fun x => N.lor x 192 =? x + 192) 64). vm_compute. reflexivity. }
  now apply N.eqb_eq in H.
Qed.

(* the grammar predicates only read the octets they mention: appending is harmless *)

Lemma at_app bs more i x : at_ bs i = Some x -> at_ (bs ++ more) i = Some x.
Proof. apply nthN_app_l. Qed.
Lemma u16At_app bs more i v : u16At bs i v -> u16At (bs ++ more) i v.
Proof. intros (a & b & Ha & Hb & E). exists a, b. auto using at_app. Qed.
Lemma u32At_app bs more i v : u32At bs i v -> u32At (bs ++ more) i v.
Proof. intros (a & b & c & d & Ha & Hb & Hc & Hd & E). exists a, b, c, d. auto 6 using at_app. Qed.
Lemma octetsAt_app bs more i n os : octetsAt bs i n os -> octetsAt (bs ++ more) i n os.
Proof. apply sliceN_app_l. Qed.
Lemma u16sAt_app bs more vs : forall i, u16sAt bs i vs -> u16sAt (bs ++ more) i vs.
Proof. induction vs; cbn; auto. intros i [H1 H2]. auto using u16At_app. Qed.
Lemma NameAt_app bs more s p ls nx : NameAt bs s p ls nx -> NameAt (bs ++ more) s p ls nx.
Proof.
  induction 1.
  - apply NA_root. now apply at_app.
  - eapply NA_label; eauto using at_app, octetsAt_app.
  - eapply NA_ptr; eauto using at_app.
Qed.
Lemma NameIs_app bs more p n nx : NameIs bs p n nx -> NameIs (bs ++ more) p n nx.
Proof. intros (H & ?). split; auto using NameAt_app. Qed.
Lemma RDataAt_app bs more ty len pos d nx :
  RDataAt bs ty len pos d nx -> RDataAt (bs ++ more) ty len pos d nx.
Proof.
  destruct 1;
    [ eapply RDA_A | eapply RDA_Name | eapply RDA_SOA | eapply RDA_Octets | eapply RDA_MINFO
    | eapply RDA_MX | eapply RDA_AAAA | eapply RDA_SRV ];
    eauto using u32At_app, u16At_app, NameIs_app, octetsAt_app, u16sAt_app.
Qed.
Lemma RRAt_app bs more pos r nx : RRAt bs pos r nx -> RRAt (bs ++ more) pos r nx.
Proof.
  intros (p1 & len & H1 & H2 & H3 & H4 & H5 & H6 & H7). exists p1, len.
  splits; auto using NameIs_app, u16At_app, u32At_app, RDataAt_app.
Qed.
Lemma QuestionAt_app bs more pos q nx : QuestionAt bs pos q nx -> QuestionAt (bs ++ more) pos q nx.
Proof.
  intros (p1 & H1 & H2 & H3 & H4). exists p1. splits; auto using NameIs_app, u16At_app.
Qed.
Lemma HeaderIs_app bs more h : HeaderIs bs h -> HeaderIs (bs ++ more) h.
Proof.
  intros (f1 & f2 & H0 & H1 & H2 & H). exists f1, f2. auto using u16At_app, at_app.
Qed.

(* the octets [write_labels] produces *)
Definition wire_labels (ls : list label) : list byte := flat_map (fun l => llen l :: l) ls.

Lemma llen_wire_labels ls : llen (wire_labels ls) = sum_lens ls.
Proof.
  induction ls as [|l ls IH]; [reflexivity|].
  cbn [wire_labels flat_map sum_lens]. fold (wire_labels ls).
  change (llen l :: l ++ wire_labels ls) with ((llen l :: l) ++ wire_labels ls).
  rewrite llen_app, llen_cons, IH. lia.
Qed.

(* the labels [ls] are written out in full, length octet + octets each, from offset [off] *)
Definition PlainAt (bs : list byte) (off : N) (ls : list label) : Prop :=
  exists pre post, bs = pre ++ wire_labels ls ++ post /\ llen pre = off.

Lemma PlainAt_app bs more off ls : PlainAt bs off ls -> PlainAt (bs ++ more) off ls.
Proof.
  intros (pre & post & -> & H). exists pre, (post ++ more). split; auto.
  now rewrite <- !app_assoc.
Qed.
Lemma PlainAt_end bs off ls : PlainAt bs off ls -> off + sum_lens ls <= llen bs.
Proof.
  intros (pre & post & -> & H). rewrite !llen_app, llen_wire_labels. lia.
Qed.

Lemma NA_label_plain bs start pos l ls next :
  l <> [] /\ wf_label l -> at_ bs pos = Some (llen l) -> octetsAt bs (pos + 1) (llen l) l ->
  NameAt bs start (pos + 1 + llen l) ls next ->
  NameAt bs start pos (l :: ls) next.
Proof.
  intros [Hne [Hlen Hl]] Hat Hos Hrest.
  rewrite <- (map_lower_id l) by (eapply Forall_impl; [|exact Hl]; cbn beta; tauto).
  eapply NA_label; eauto.
  destruct l; [congruence|]. rewrite llen_cons in *. lia.
Qed.

(* a plainly written well-formed label sequence parses as a name, whatever [start] is *)
Lemma plain_NameAt front : forall pre post start, good_front front ->
  NameAt (pre ++ wire_labels (front ++ [[]]) ++ post) start (llen pre) (front ++ [[]])
         (llen pre + sum_lens (front ++ [[]])).
Proof.
  induction front as [|l front IH]; intros pre post start Hf.
  - cbn [app]. rewrite sum_lens_root. apply NA_root. cbn. apply nthN_app_mid.
  - inversion Hf as [|? ? Hl Hf']; subst.
    cbn [app]. rewrite sum_lens_cons.
    cbn [wire_labels flat_map]. fold (wire_labels (front ++ [[]])).
    set (W := wire_labels (front ++ [[]])). cbn [app].
    apply NA_label_plain; auto.
    + cbn [app]. unfold at_. apply nthN_app_mid.
    + unfold octetsAt.
      match goal with |- sliceN ?L _ _ = _ =>
        replace L with ((pre ++ [llen l]) ++ l ++ (W ++ post)) by norm_app end.
      replace (llen pre + 1) with (llen (pre ++ [llen l])) by (rewrite llen_app, llen_cons, llen_nil; lia).
      apply sliceN_app_mid.
    + match goal with |- NameAt ?L _ _ _ _ =>
        replace L with ((pre ++ [llen l] ++ l) ++ W ++ post) by norm_app end.
      replace (llen pre + 1 + llen l) with (llen (pre ++ [llen l] ++ l))
        by (rewrite !llen_app, llen_cons, llen_nil; lia).
      replace (llen pre + (1 + llen l + sum_lens (front ++ [[]])))
        with (llen (pre ++ [llen l] ++ l) + sum_lens (front ++ [[]]))
        by (rewrite !llen_app, llen_cons, llen_nil; lia).
      apply IH; auto.
Qed.

Lemma wf_name_front n : wf_name n ->
  exists front, labels n = front ++ [[]] /\ good_front front
                /\ nlen n = sum_lens (labels n) /\ nlen n <= 255.
Proof.
  intros [(front & E & Hf & Hs) Hn]. exists front. splits; auto. lia.
Qed.

Lemma PlainAt_NameAt bs off n start : wf_name n -> PlainAt bs off (labels n) ->
  NameAt bs start off (labels n) (off + nlen n).
Proof.
  intros Hwf (pre & post & -> & <-).
  destruct (wf_name_front n Hwf) as (front & E & Hf & Hn & _).
  rewrite Hn, E. now apply plain_NameAt.
Qed.

Lemma PlainAt_NameIs bs off n : wf_name n -> PlainAt bs off (labels n) ->
  NameIs bs off n (off + nlen n).
Proof.
  intros Hwf Hp. destruct (wf_name_front n Hwf) as (front & E & Hf & Hn & Hle).
  split; [now apply PlainAt_NameAt | auto].
Qed.

Lemma wb_octets_rev (b : wbuf) : wb_octets b = rev (wb_rev b).
Proof. unfold wb_octets. symmetry. apply rev_alt. Qed.

Lemma octets_write_octets os b : wb_octets (write_octets os b) = wb_octets b ++ os.
Proof.
  rewrite !wb_octets_rev. unfold write_octets; cbn [wb_rev].
  now rewrite rev_append_rev, rev_app_distr, rev_involutive.
Qed.
Lemma len_write_octets os b : wb_len (write_octets os b) = wb_len b + llen os.
Proof. reflexivity. Qed.
Lemma ptrs_write_octets os b : wb_ptrs (write_octets os b) = wb_ptrs b.
Proof. reflexivity. Qed.

(* one entry of the name -> pointer table: the pointer is 0xC000 + off with off < 2^14, and
   the (non-root, well-formed) name is written out in full, without pointers, at [off] *)
Definition entry_ok (bs : list byte) (e : dname * N) : Prop :=
  exists off, snd e = 49152 + off /\ off < 16384 /\ wf_name (fst e) /\ is_root (fst e) = false
              /\ PlainAt bs off (labels (fst e)).

Record wb_ok (b : wbuf) : Prop := {
  ok_len : wb_len b = llen (wb_octets b);
  ok_bytes : bytes (wb_octets b);
  ok_ptrs : Forall (entry_ok (wb_octets b)) (wb_ptrs b);
  ok_keys : NoDup (map fst (wb_ptrs b)) }.

Lemma entry_ok_app bs more e : entry_ok bs e -> entry_ok (bs ++ more) e.
Proof.
  intros (off & H1 & H2 & H3 & H4 & H5). exists off. splits; auto using PlainAt_app.
Qed.

Lemma wb_ok_empty : wb_ok wb_empty.
Proof. split; cbn; try constructor. Qed.

Lemma wb_ok_write_octets os b : bytes os -> wb_ok b -> wb_ok (write_octets os b).
Proof.
  intros Hos [H1 H2 H3 H4]. split.
  - rewrite len_write_octets, octets_write_octets, llen_app. lia.
  - rewrite octets_write_octets. now apply bytes_app.
  - rewrite octets_write_octets, ptrs_write_octets.
    eapply Forall_impl; [|exact H3]. intros e. apply entry_ok_app.
  - now rewrite ptrs_write_octets.
Qed.

(* what [wb_ok] says about every table entry (DESIGN C04 T1): the pointer addresses the start
   of the same name written earlier, in full, strictly before the write position *)
Theorem enc_table_inv_entry b n p : wb_ok b -> In (n, p) (wb_ptrs b) ->
  exists off, p = 49152 + off /\ off < 16384 /\ off < wb_len b /\ off + nlen n <= wb_len b
    /\ wf_name n /\ is_root n = false
    /\ PlainAt (wb_octets b) off (labels n)
    /\ NameAt (wb_octets b) off off (labels n) (off + nlen n)
    /\ NameIs (wb_octets b) off n (off + nlen n).
Proof.
  intros Hok Hin.
  pose proof (ok_ptrs b Hok) as Hp. rewrite Forall_forall in Hp.
  destruct (Hp _ Hin) as (off & H1 & H2 & H3 & H4 & H5). cbn [fst snd] in *.
  pose proof (PlainAt_end _ _ _ H5) as He.
  destruct (wf_name_front n H3) as (front & E & Hf & Hn & Hle).
  assert (1 <= sum_lens (labels n)).
  { rewrite E. clear. induction front; cbn [app]; [rewrite sum_lens_root; lia | rewrite sum_lens_cons; lia]. }
  exists off. rewrite (ok_len b Hok). splits; auto; try lia.
  - now apply PlainAt_NameAt.
  - now apply PlainAt_NameIs.
Qed.

Lemma write_labels_spec ls : forall b,
  wb_octets (write_labels ls b) = wb_octets b ++ wire_labels ls
  /\ wb_len (write_labels ls b) = wb_len b + sum_lens ls
  /\ wb_ptrs (write_labels ls b) = wb_ptrs b.
Proof.
  unfold write_labels.
  induction ls as [|l ls IH]; intros b; cbn [fold_left].
  - cbn. rewrite app_nil_r. splits; auto. lia.
  - destruct (IH (write_octets l (write_u8 (llen l) b))) as (H1 & H2 & H3).
    rewrite H1, H2, H3. unfold write_u8.
    rewrite !octets_write_octets, !len_write_octets, !ptrs_write_octets.
    cbn [wire_labels flat_map]. rewrite sum_lens_cons, llen_cons, llen_nil.
    splits; auto; [|lia]. rewrite <- !app_assoc. reflexivity.
Qed.

Lemma bytes_wire_labels front : good_front front -> bytes (wire_labels (front ++ [[]])).
Proof.
  induction 1 as [|l front [Hne [Hlen Hl]] _ IH]; cbn [app wire_labels flat_map].
  - repeat constructor.
  - fold (wire_labels (front ++ [[]])). cbn [app]. constructor; [cbn beta; unfold byte in *; lia|]. apply bytes_app; auto.
    eapply Forall_impl; [|exact Hl]. cbn beta. tauto.
Qed.

(* [b'] has the octets of [b] plus some more *)
Definition ext (b b' : wbuf) : Prop := exists os, wb_octets b' = wb_octets b ++ os.

Lemma ext_refl b : ext b b.
Proof. exists []. now rewrite app_nil_r. Qed.
Lemma ext_trans a b c : ext a b -> ext b c -> ext a c.
Proof. intros [x Hx] [y Hy]. exists (x ++ y). now rewrite Hy, Hx, app_assoc. Qed.
Lemma ext_write_octets os b : ext b (write_octets os b).
Proof. exists os. apply octets_write_octets. Qed.
Lemma ext_len a b : wb_ok a -> wb_ok b -> ext a b -> wb_len a <= wb_len b.
Proof. intros Ha Hb [os E]. rewrite (ok_len a Ha), (ok_len b Hb), E, llen_app. lia. Qed.

Ltac solve_ext :=
  repeat first [ assumption | apply ext_refl | apply ext_write_octets
               | eapply ext_trans; [eassumption|] ].

Lemma at_ext a b i x : ext a b -> at_ (wb_octets a) i = Some x -> at_ (wb_octets b) i = Some x.
Proof. intros [os ->]. apply at_app. Qed.
Lemma u16At_ext a b i v : ext a b -> u16At (wb_octets a) i v -> u16At (wb_octets b) i v.
Proof. intros [os ->]. apply u16At_app. Qed.
Lemma RDataAt_ext a b ty len pos d nx :
  ext a b -> RDataAt (wb_octets a) ty len pos d nx -> RDataAt (wb_octets b) ty len pos d nx.
Proof. intros [os ->]. apply RDataAt_app. Qed.
Lemma RRAt_ext a b pos r nx : ext a b -> RRAt (wb_octets a) pos r nx -> RRAt (wb_octets b) pos r nx.
Proof. intros [os ->]. apply RRAt_app. Qed.
Lemma SeqAt_ext {A} (P : list byte -> N -> A -> N -> Prop)
  (HP : forall bs more pos x nx, P bs pos x nx -> P (bs ++ more) pos x nx) a b xs :
  ext a b -> forall pos nx, SeqAt (P (wb_octets a)) pos xs nx -> SeqAt (P (wb_octets b)) pos xs nx.
Proof.
  intros [os ->]. induction xs; cbn; auto. intros pos nx (mid & H1 & H2). exists mid. auto.
Qed.
Lemma HeaderIs_ext a b h : ext a b -> HeaderIs (wb_octets a) h -> HeaderIs (wb_octets b) h.
Proof. intros [os ->]. apply HeaderIs_app. Qed.

(* [Enc s P]: applied to a buffer satisfying the invariant, [s] keeps the invariant, only appends,
   and [P bs p q] holds of the octets [bs] written, [p] the length before and [q] after; [P] reads
   only the octets it mentions (it survives appending).  Steps compose by [Enc_seq]. *)
Record Enc (s : wbuf -> wbuf) (P : list byte -> N -> N -> Prop) : Prop := {
  enc_stable : forall bs more p q, P bs p q -> P (bs ++ more) p q;
  enc_ok : forall b, wb_ok b ->
    wb_ok (s b) /\ ext b (s b) /\ P (wb_octets (s b)) (wb_len b) (wb_len (s b)) }.

Lemma Enc_weaken s (P P' : list byte -> N -> N -> Prop) :
  (forall bs more p q, P' bs p q -> P' (bs ++ more) p q) ->
  (forall bs p q, P bs p q -> P' bs p q) -> Enc s P -> Enc s P'.
Proof.
  intros St HP [_ Ok]. split; [exact St|]. intros b Hb. destruct (Ok b Hb) as (ok & e & H). auto.
Qed.

Lemma Enc_seq s t P Q : Enc s P -> Enc t Q ->
  Enc (fun b => t (s b)) (fun bs p r => exists q, P bs p q /\ Q bs q r).
Proof.
  intros [SP OP] [SQ OQ]. split.
  - intros bs more p r (q & HP & HQ). exists q. auto.
  - intros b Hb. destruct (OP b Hb) as (ok1 & e1 & H1). destruct (OQ _ ok1) as (ok2 & e2 & H2).
    split; [exact ok2|]. split; [eapply ext_trans; eassumption|].
    exists (wb_len (s b)). split; [|exact H2]. destruct e2 as [os ->]. apply SP, H1.
Qed.

(* the last step is [t], described by [L]; what comes before it remains to be described *)
Ltac enc_then t L := eapply (Enc_seq _ t); [|apply L].

(* writing the octets [os]: what they look like at the end of any buffer *)
Lemma Enc_write os (P : list byte -> N -> N -> Prop) : bytes os ->
  (forall bs more p q, P bs p q -> P (bs ++ more) p q) ->
  (forall pre, P (pre ++ os) (llen pre) (llen pre + llen os)) -> Enc (write_octets os) P.
Proof.
  intros Hos St H. split; [exact St|]. intros b Hb.
  split; [now apply wb_ok_write_octets|]. split; [apply ext_write_octets|].
  rewrite octets_write_octets, len_write_octets, (ok_len b Hb). apply H.
Qed.

Lemma Enc_octets os : bytes os ->
  Enc (write_octets os) (fun bs p q => octetsAt bs p (llen os) os /\ q = p + llen os).
Proof.
  intro Hos. apply Enc_write; [exact Hos| |].
  - intros bs more p q [H ->]. auto using octetsAt_app.
  - intro pre. split; [|reflexivity]. unfold octetsAt. rewrite <- (app_nil_r os) at 1. apply sliceN_app_mid.
Qed.

Lemma Enc_u8 v : v < 256 -> Enc (write_u8 v) (fun bs p q => at_ bs p = Some v /\ q = p + 1).
Proof.
  intro Hv. apply Enc_write; [repeat constructor; exact Hv| |].
  - intros bs more p q [H ->]. auto using at_app.
  - intro pre. split; [apply nthN_app_mid|reflexivity].
Qed.

Lemma Enc_u16 v : u16 v -> Enc (write_u16 v) (fun bs p q => u16At bs p v /\ q = p + 2).
Proof.
  intro Hv. apply Enc_write; [apply bytes_u16| |].
  - intros bs more p q [H ->]. auto using u16At_app.
  - intro pre. split; [|reflexivity]. rewrite <- (app_nil_r (u16_bytes v)). now apply u16At_written.
Qed.

Lemma Enc_u32 v : u32 v -> Enc (write_u32 v) (fun bs p q => u32At bs p v /\ q = p + 4).
Proof.
  intro Hv. apply Enc_write; [apply bytes_u32| |].
  - intros bs more p q [H ->]. auto using u32At_app.
  - intro pre. split; [|reflexivity].
    exists ((v / 16777216) mod 256), ((v / 65536) mod 256), ((v / 256) mod 256), (v mod 256).
    unfold u32_bytes, at_. split; [apply nthN_app_mid|]. rewrite !nthN_app_r.
    splits; try reflexivity. now apply u32_bytes_val.
Qed.

(* memoise_name: octets untouched; the table gains at most the entry for the current offset,
   and only when that offset is below 2^14 *)
Lemma memoise_name_spec n b :
  wb_octets (memoise_name n b) = wb_octets b /\ wb_len (memoise_name n b) = wb_len b
  /\ (wb_ptrs (memoise_name n b) = wb_ptrs b
      \/ (wb_ptrs (memoise_name n b) = wb_ptrs b ++ [(n, 49152 + wb_len b)]
          /\ wb_len b < 16384 /\ is_root n = false /\ alookup dname_eqb n (wb_ptrs b) = None)).
Proof.
  unfold memoise_name.
  destruct (is_root n) eqn:R; cbn [negb andb]; auto.
  destruct (alookup dname_eqb n (wb_ptrs b)) eqn:L; cbn [negb]; auto.
  destruct (wb_len b <? 65536) eqn:L1; cbn [andb]; auto.
  destruct (wb_len b <? 16384) eqn:L2; auto.
  apply N.ltb_lt in L2. cbn [wb_octets wb_rev wb_len wb_ptrs]. splits; auto. right. splits; auto.
  do 3 f_equal. unfold u16_be. rewrite lor_192 by (unfold u16_hi; dlia).
  unfold u16_hi, u16_lo. dlia.
Qed.

(* DomainName::serialise *)
Lemma encode_name_ok n c : wf_name n ->
  Enc (encode_name n c) (fun bs p q => NameIs bs p n q /\ (c = false -> q = p + nlen n)).
Proof.
  intro Hwf. split; [intros bs more p q [H L]; auto using NameIs_app|].
  intros b Hok. unfold encode_name.
  destruct (if c then alookup dname_eqb n (wb_ptrs b) else None) as [p|] eqn:L.
  - (* a pointer to an earlier occurrence *)
    destruct c; [|discriminate].
    destruct (enc_table_inv_entry b n p Hok (alookup_some _ _ _ L))
      as (off & Hp & Ho & Hlt & _ & Hwf' & _ & Hpl & _).
    assert (l1 : wb_len (write_u16 p b) = wb_len b + 2) by reflexivity.
    splits; [apply wb_ok_write_octets; auto using bytes_u16|apply ext_write_octets| |discriminate].
    destruct (wf_name_front n Hwf) as (front & E & Hf & Hn & Hle).
    split; [|auto]. rewrite l1.
    unfold write_u16. rewrite octets_write_octets.
    assert (Hhi : u16_hi p = 192 + off / 256) by (unfold u16_hi; dlia).
    assert (Hlo : u16_lo p = off mod 256) by (unfold u16_lo; dlia).
    assert (Ht : (u16_hi p - 192) * 256 + u16_lo p = off) by (rewrite Hhi, Hlo; dlia).
    eapply NA_ptr with (hi := u16_hi p) (lo := u16_lo p).
    + rewrite (ok_len b Hok). apply nthN_app_mid.
    + rewrite Hhi. dlia.
    + rewrite (ok_len b Hok). unfold at_. rewrite nthN_app_r. reflexivity.
    + rewrite Ht. exact Hlt.
    + rewrite Ht. apply NameAt_app. now apply PlainAt_NameAt.
  - (* written in full *)
    destruct (memoise_name_spec n b) as (Ho & Hl & Hp).
    destruct (write_labels_spec (labels n) (memoise_name n b)) as (Wo & Wl & Wp).
    rewrite Ho in Wo. rewrite Hl in Wl.
    destruct (wf_name_front n Hwf) as (front & E & Hf & Hn & Hle).
    assert (Hplain : PlainAt (wb_octets (write_labels (labels n) (memoise_name n b))) (wb_len b) (labels n)).
    { rewrite Wo. exists (wb_octets b), []. rewrite app_nil_r. split; auto.
      symmetry. apply (ok_len b Hok). }
    assert (ok' : wb_ok (write_labels (labels n) (memoise_name n b))).
    { split.
      - rewrite Wl, Wo, llen_app, llen_wire_labels, (ok_len b Hok). reflexivity.
      - rewrite Wo. apply bytes_app; [apply (ok_bytes b Hok)|]. rewrite E. now apply bytes_wire_labels.
      - rewrite Wp, Wo. destruct Hp as [-> | (-> & Hlt & Hr & Hnone)].
        + eapply Forall_impl; [|apply (ok_ptrs b Hok)]. intros e. apply entry_ok_app.
        + apply Forall_app. split.
          * eapply Forall_impl; [|apply (ok_ptrs b Hok)]. intros e. apply entry_ok_app.
          * constructor; [|constructor]. exists (wb_len b). cbn [fst snd]. splits; auto.
            rewrite <- Wo. exact Hplain.
      - rewrite Wp. destruct Hp as [-> | (-> & Hlt & Hr & Hnone)]; [apply (ok_keys b Hok)|].
        rewrite map_app. cbn [map fst]. apply NoDup_snoc; [apply (ok_keys b Hok)|].
        now apply (alookup_none_notin dname_eqb dname_eqb_eq). }
    splits; auto.
    + exists (wire_labels (labels n)). exact Wo.
    + rewrite Wl, <- Hn. now apply PlainAt_NameIs.
    + intros _. rewrite Wl. lia.
Qed.

(* AAAA: eight big-endian u16 segments *)
Lemma bytes_u16s segs : bytes (flat_map u16_bytes segs).
Proof. induction segs; cbn [flat_map]; [constructor | apply bytes_app; auto using bytes_u16]. Qed.
Lemma llen_u16s segs : llen (flat_map u16_bytes segs) = 2 * llen segs.
Proof.
  induction segs; cbn [flat_map]; [reflexivity|].
  rewrite llen_app, IHsegs, llen_cons. change (llen (u16_bytes a)) with 2. lia.
Qed.
Lemma u16sAt_written segs : forall pre post, Forall u16 segs ->
  u16sAt (pre ++ flat_map u16_bytes segs ++ post) (llen pre) segs.
Proof.
  induction segs as [|v segs IH]; intros pre post H; cbn [u16sAt]; auto.
  inversion H as [|? ? Hv Hs]; subst. cbn [flat_map]. split.
  - rewrite <- app_assoc. now apply u16At_written.
  - replace (pre ++ (u16_bytes v ++ flat_map u16_bytes segs) ++ post)
      with ((pre ++ u16_bytes v) ++ flat_map u16_bytes segs ++ post) by norm_app.
    replace (llen pre + 2) with (llen (pre ++ u16_bytes v)) by (rewrite llen_app; reflexivity).
    now apply IH.
Qed.
Lemma Enc_u16s segs : Forall u16 segs ->
  Enc (write_octets (flat_map u16_bytes segs)) (fun bs p q => u16sAt bs p segs /\ q = p + 2 * llen segs).
Proof.
  intro Hs. apply Enc_write; [apply bytes_u16s| |].
  - intros bs more p q [H ->]. auto using u16sAt_app.
  - intro pre. rewrite llen_u16s. split; [|reflexivity].
    rewrite <- (app_nil_r (flat_map u16_bytes segs)). now apply u16sAt_written.
Qed.

(* number of RDATA octets the encoder writes *)
Definition rdata_len (d : rdata) : N :=
  match d with
  | RD_A _ => 4
  | RD_Name n => nlen n
  | RD_SOA m r _ _ _ _ _ => nlen m + nlen r + 20
  | RD_Octets os => llen os
  | RD_MINFO r e => nlen r + nlen e
  | RD_MX _ e => 2 + nlen e
  | RD_AAAA segs => 2 * llen segs
  | RD_SRV _ _ _ t => 6 + nlen t
  end.

(* the RDATA part of ResourceRecord::serialise.  The RDLENGTH argument of the grammar is the
   number of octets actually written. *)
(* [by_steps tac]: the steps of this shape are described by [tac]; what they wrote is an RDATA *)
Ltac by_steps tac :=
  eapply Enc_weaken; [intros bs more p q [H ->]; auto using RDataAt_app | | tac].

Lemma encode_rdata_ok ty d : wf_rdata ty d ->
  Enc (encode_rdata d) (fun bs p q => RDataAt bs ty (rdata_len d) p d q /\ q = p + rdata_len d).
Proof.
  intros [Hsh Hwf]. symmetry in Hsh.
  destruct d as [a | n | m r serial refresh retry expire minimum | os | r e | pr e | segs | pr w o t];
    cbn [encode_rdata shape_of_rdata rdata_len] in *.
  - (* A *)
    by_steps ltac:(apply (Enc_u32 a Hwf)).
    intros bs p q [Ha ->]. split; [apply RDA_A; assumption|reflexivity].
  - (* NS CNAME PTR ... *)
    by_steps ltac:(apply (encode_name_ok n false Hwf)).
    intros bs p q [Hn L]. split; [apply RDA_Name; assumption|auto].
  - (* SOA *)
    destruct Hwf as (Hm & Hr & H1 & H2 & H3 & H4 & H5).
    by_steps ltac:(enc_then (write_u32 minimum) (Enc_u32 _ H5);
                   enc_then (write_u32 expire) (Enc_u32 _ H4);
                   enc_then (write_u32 retry) (Enc_u32 _ H3);
                   enc_then (write_u32 refresh) (Enc_u32 _ H2);
                   enc_then (write_u32 serial) (Enc_u32 _ H1);
                   enc_then (encode_name r false) (encode_name_ok r false Hr);
                   apply (encode_name_ok m false Hm)).
    intros bs p q (q6 & (q5 & (q4 & (q3 & (q2 & (q1 & [Nm Lm] & [Nr Lr]) & [U1 ->]) & [U2 ->]) & [U3 ->])
                   & [U4 ->]) & [U5 ->]).
    specialize (Lm eq_refl). specialize (Lr eq_refl). split; [|lia].
    replace (q2 + 4 + 4 + 4 + 4 + 4) with (q2 + 20) by lia.
    apply RDA_SOA with (p1 := q1); auto; [plia U3|plia U4|plia U5].
  - (* NULL WKS HINFO TXT Unknown *)
    by_steps ltac:(apply (Enc_octets os Hwf)).
    intros bs p q [Ho ->]. split; [apply RDA_Octets; assumption|reflexivity].
  - (* MINFO *)
    destruct Hwf as (Hr & He).
    by_steps ltac:(enc_then (encode_name e false) (encode_name_ok e false He); apply (encode_name_ok r false Hr)).
    intros bs p q (q1 & [Nr Lr] & [Ne Le]). specialize (Lr eq_refl). specialize (Le eq_refl).
    split; [apply RDA_MINFO with (p1 := q1); assumption|lia].
  - (* MX *)
    destruct Hwf as (Hp & He).
    by_steps ltac:(enc_then (encode_name e false) (encode_name_ok e false He); apply (Enc_u16 pr Hp)).
    intros bs p q (q1 & [Up ->] & [Ne Le]). specialize (Le eq_refl).
    split; [apply RDA_MX; assumption|lia].
  - (* AAAA *)
    destruct Hwf as (Hlen & Hsegs).
    by_steps ltac:(apply (Enc_u16s segs Hsegs)).
    assert (E16 : 2 * llen segs = 16) by (unfold llen; rewrite Hlen; reflexivity).
    intros bs p q [Us ->]. rewrite E16. split; [apply RDA_AAAA; assumption|reflexivity].
  - (* SRV *)
    destruct Hwf as (Hp & Hw & Ho & Ht).
    by_steps ltac:(enc_then (encode_name t false) (encode_name_ok t false Ht);
                   enc_then (write_u16 o) (Enc_u16 _ Ho); enc_then (write_u16 w) (Enc_u16 _ Hw);
                   apply (Enc_u16 pr Hp)).
    intros bs p q (q3 & (q2 & (q1 & [Up ->] & [Uw ->]) & [Uo ->]) & [Nt Lt]). specialize (Lt eq_refl).
    split; [apply RDA_SRV; [assumption|assumption|assumption|plia Uo|plia Nt]|lia].
Qed.

(* Question::serialise *)
Lemma encode_question_ok q : wf_question q ->
  Enc (encode_question q) (fun bs p r => QuestionAt bs p q r).
Proof.
  intros (Hn & Ht & Hc). eapply Enc_weaken; [intros; now apply QuestionAt_app| |].
  2: { unfold encode_question. enc_then (write_u16 (q_class q)) (Enc_u16 _ Hc).
       enc_then (write_u16 (q_type q)) (Enc_u16 _ Ht). apply (encode_name_ok _ true Hn). }
  intros bs p r (q2 & (q1 & [HN _] & [HT ->]) & [HC ->]). exists q1.
  repeat (split; [assumption|]). lia.
Qed.

Lemma encode_questions_ok qs : Forall wf_question qs ->
  Enc (fun b => fold_left (fun acc q => encode_question q acc) qs b)
      (fun bs p r => SeqAt (QuestionAt bs) p qs r).
Proof.
  induction 1 as [|q qs Hq _ IH]; cbn [fold_left SeqAt].
  - split; [auto|]. intros b Hb. auto using ext_refl.
  - exact (Enc_seq _ _ _ _ (encode_question_ok q Hq) IH).
Qed.

(* Two buffers that were equal up to some point, differ in the octets [sa] / [sb] written
   then (same number of octets), and have since received the same writes.  No encoder step
   looks at octets already written, so every step preserves the relation. *)
Definition differ (sa sb : list byte) (a b : wbuf) : Prop :=
  exists news, wb_rev a = news ++ sa /\ wb_rev b = news ++ sb
               /\ wb_len a = wb_len b /\ wb_ptrs a = wb_ptrs b.

Lemma differ_write_octets sa sb os a b : differ sa sb a b -> differ sa sb (write_octets os a) (write_octets os b).
Proof.
  intros (news & Ha & Hb & Hl & Hp). exists (rev os ++ news). unfold write_octets; cbn [wb_rev wb_len wb_ptrs].
  rewrite !rev_append_rev, Ha, Hb, Hl, Hp, <- !app_assoc. auto.
Qed.
Lemma differ_memoise sa sb n a b : differ sa sb a b -> differ sa sb (memoise_name n a) (memoise_name n b).
Proof.
  intros (news & Ha & Hb & Hl & Hp). unfold memoise_name. rewrite Hl, Hp.
  destruct (negb (is_root n) && negb match alookup dname_eqb n (wb_ptrs b) with Some _ => true | None => false end).
  - destruct ((wb_len b <? 65536) && (wb_len b <? 16384)).
    + exists news. cbn [wb_rev wb_len wb_ptrs]. auto.
    + exists news. auto.
  - exists news. auto.
Qed.
Lemma differ_write_labels sa sb ls : forall a b, differ sa sb a b ->
  differ sa sb (write_labels ls a) (write_labels ls b).
Proof.
  unfold write_labels. induction ls as [|l ls IH]; intros a b H; cbn [fold_left]; auto.
  apply IH. unfold write_u8. auto using differ_write_octets.
Qed.
Lemma differ_encode_name sa sb n c a b : differ sa sb a b ->
  differ sa sb (encode_name n c a) (encode_name n c b).
Proof.
  intros H. unfold encode_name.
  replace (wb_ptrs a) with (wb_ptrs b) by (destruct H as (? & ? & ? & ? & ?); auto).
  destruct (if c then alookup dname_eqb n (wb_ptrs b) else None).
  - unfold write_u16. now apply differ_write_octets.
  - now apply differ_write_labels, differ_memoise.
Qed.
Lemma differ_encode_rdata sa sb d a b : differ sa sb a b ->
  differ sa sb (encode_rdata d a) (encode_rdata d b).
Proof.
  intros H. destruct d; cbn [encode_rdata]; unfold write_u32, write_u16;
    auto 12 using differ_write_octets, differ_encode_name.
Qed.

Lemma wb_len_rev b : wb_ok b -> wb_len b = llen (wb_rev b).
Proof. intros H. rewrite (ok_len b H), wb_octets_rev. unfold llen. now rewrite rev_length. Qed.

(* patching the placeholder afterwards = having written the final value in the first place *)
Lemma patch_differ a b tail x1 x0 v :
  wb_len a = llen (wb_rev a) ->
  differ (x0 :: x1 :: tail) (u16_lo v :: u16_hi v :: tail) a b ->
  patch_u16 (llen tail) v a = b.
Proof.
  intros Hlen (news & Ha & Hb & Hl & Hp). unfold patch_u16.
  assert (Hk : N.to_nat (wb_len a - llen tail - 2) = length news).
  { rewrite Hlen, Ha. unfold llen. rewrite app_length. cbn [length]. lia. }
  rewrite Hk, Ha, firstn_app_exact.
  replace (news ++ x0 :: x1 :: tail) with ((news ++ [x0; x1]) ++ tail) by norm_app.
  replace (length news + 2)%nat with (length (news ++ [x0; x1])) by (rewrite app_length; cbn [length]; lia).
  rewrite skipn_app_exact.
  destruct b as [br bl bp]; cbn [wb_rev wb_len wb_ptrs] in *. subst. reflexivity.
Qed.

(* ResourceRecord::serialise without the back-patch: RDLENGTH is the number of RDATA octets *)
Definition rr_fixed (r : rr) (b : wbuf) : wbuf :=
  write_u32 (rr_ttl r) (write_u16 (rr_class r) (write_u16 (rr_type r) (encode_name (rr_name r) true b))).

Lemma wb_ok_write_u16 v b : wb_ok b -> wb_ok (write_u16 v b).
Proof. apply wb_ok_write_octets, bytes_u16. Qed.
Lemma wb_ok_write_u32 v b : wb_ok b -> wb_ok (write_u32 v b).
Proof. apply wb_ok_write_octets, bytes_u32. Qed.

Lemma encode_rr_unpatched r b : wb_ok b -> wf_rr r ->
  encode_rr r b =
    if rdata_len (rr_data r) <? 65536
    then Ok (encode_rdata (rr_data r) (write_u16 (rdata_len (rr_data r)) (rr_fixed r b)))
    else Err (CounterTooLarge (rdata_len (rr_data r))).
Proof.
  intros Hok Hwf. assert (ok2 : wb_ok (rr_fixed r b)) by
    apply wb_ok_write_u32, wb_ok_write_u16, wb_ok_write_u16, (enc_ok _ _ (encode_name_ok _ true (proj1 Hwf))), Hok.
  destruct Hwf as (_ & _ & _ & _ & Hd).
  unfold encode_rr. fold (rr_fixed r b). set (b2 := rr_fixed r b) in *.
  destruct (enc_ok _ _ (encode_rdata_ok _ _ Hd) _ (wb_ok_write_u16 0 b2 ok2)) as (ok4 & _ & _ & l4).
  change (wb_len (write_u16 0 b2)) with (wb_len b2 + 2) in l4.
  replace (wb_len (encode_rdata (rr_data r) (write_u16 0 b2)) - wb_len b2 - 2)
    with (rdata_len (rr_data r)) by lia.
  destruct (rdata_len (rr_data r) <? 65536); [|reflexivity].
  f_equal. rewrite (wb_len_rev b2 ok2).
  eapply patch_differ with (x0 := 0) (x1 := 0); [now apply wb_len_rev|].
  apply differ_encode_rdata.
  exists []. cbn [app]. unfold write_u16, write_octets; cbn [wb_rev wb_len wb_ptrs rev_append u16_bytes].
  splits; auto.
Qed.

(* ResourceRecord::serialise *)
Lemma Enc_rr r : wf_rr r -> rdata_len (rr_data r) < 65536 ->
  Enc (fun b => encode_rdata (rr_data r) (write_u16 (rdata_len (rr_data r)) (rr_fixed r b)))
      (fun bs p q => RRAt bs p r q).
Proof.
  intros (Hn & Ht & Hc & Httl & Hd) Hfit. eapply Enc_weaken; [intros; now apply RRAt_app| |].
  2: { unfold rr_fixed. enc_then (encode_rdata (rr_data r)) (encode_rdata_ok _ _ Hd).
       enc_then (write_u16 (rdata_len (rr_data r))) (Enc_u16 _ Hfit).
       enc_then (write_u32 (rr_ttl r)) (Enc_u32 _ Httl). enc_then (write_u16 (rr_class r)) (Enc_u16 _ Hc).
       enc_then (write_u16 (rr_type r)) (Enc_u16 _ Ht). apply (encode_name_ok _ true Hn). }
  intros bs p q (q5 & (q4 & (q3 & (q2 & (q1 & [N1 _] & [U2 ->]) & [U3 ->]) & [U4 ->]) & [U5 ->]) & [R6 ->]).
  exists q1, (rdata_len (rr_data r)).
  split; [exact N1|]. split; [exact U2|]. split; [exact U3|]. split; [plia U4|]. split; [plia U5|].
  split; [plia R6|lia].
Qed.

Lemma encode_rr_ok r b b' : wb_ok b -> wf_rr r -> encode_rr r b = Ok b' ->
  wb_ok b' /\ ext b b' /\ RRAt (wb_octets b') (wb_len b) r (wb_len b').
Proof.
  intros Hok Hwf. rewrite (encode_rr_unpatched r b Hok Hwf).
  destruct (rdata_len (rr_data r) <? 65536) eqn:Hfit; [|discriminate]. intros [= <-].
  apply N.ltb_lt in Hfit. apply (enc_ok _ _ (Enc_rr r Hwf Hfit) b Hok).
Qed.

Lemma encode_rrs_ok rs : forall b b', wb_ok b -> Forall wf_rr rs -> encode_rrs rs b = Ok b' ->
  wb_ok b' /\ ext b b' /\ SeqAt (RRAt (wb_octets b')) (wb_len b) rs (wb_len b').
Proof.
  induction rs as [|r rs IH]; intros b b' Hok Hwf; cbn [encode_rrs SeqAt].
  - intros [= <-]. splits; auto using ext_refl.
  - inversion Hwf as [|? ? Hr Hrs]; subst.
    destruct (encode_rr r b) as [b1| | |] eqn:E1; cbn [bind]; try discriminate.
    intros E2.
    destruct (encode_rr_ok r b b1 Hok Hr E1) as (ok1 & e1 & R1).
    destruct (IH b1 b' ok1 Hrs E2) as (ok2 & e2 & S2).
    splits; auto; [solve_ext|].
    exists (wb_len b1). split; auto.
    eapply RRAt_ext; [|exact R1]. exact e2.
Qed.

(* the two flag octets of Header::serialise *)
Definition hdr_flag (x : bool) (m : N) : N := if x then m else 0.
Definition hdr_f1 (qr : bool) (op : N) (aa tc rd : bool) : N :=
  N.lor (N.lor (N.lor (N.lor (hdr_flag qr HEADER_MASK_QR)
                             (N.land HEADER_MASK_OPCODE (N.land (N.shiftl op HEADER_OFFSET_OPCODE) 255)))
                      (hdr_flag aa HEADER_MASK_AA)) (hdr_flag tc HEADER_MASK_TC))
        (hdr_flag rd HEADER_MASK_RD).
Definition hdr_f2 (ra : bool) (rc : N) : N :=
  N.lor (hdr_flag ra HEADER_MASK_RA) (N.land HEADER_MASK_RCODE (N.land (N.shiftl rc HEADER_OFFSET_RCODE) 255)).

Lemma encode_header_eq h b :
  encode_header h b =
  write_u8 (hdr_f2 (h_ra h) (h_rcode h))
    (write_u8 (hdr_f1 (h_qr h) (h_opcode h) (h_aa h) (h_tc h) (h_rd h)) (write_u16 (h_id h) b)).
Proof. reflexivity. Qed.

(* the RFC's reading of the flag octets (bit 7 = QR, bits 6..3 = OPCODE, ...) against the
   code's masks: a sweep over all 2^4 * 16 and 2 * 16 combinations *)
Definition chk_f1 (qr aa tc rd : bool) (op : N) : bool :=
  let f1 := hdr_f1 qr op aa tc rd in
  (f1 <? 256) && Bool.eqb qr (N.testbit f1 7) && (op =? (f1 / 8) mod 16)
  && Bool.eqb aa (N.testbit f1 2) && Bool.eqb tc (N.testbit f1 1) && Bool.eqb rd (N.testbit f1 0).
Definition chk_f2 (ra : bool) (rc : N) : bool :=
  let f2 := hdr_f2 ra rc in
  (f2 <? 256) && Bool.eqb ra (N.testbit f2 7) && (rc =? f2 mod 16).

Lemma hdr_f1_spec qr aa tc rd op : op < 16 ->
  let f1 := hdr_f1 qr op aa tc rd in
  f1 < 256 /\ qr = N.testbit f1 7 /\ op = (f1 / 8) mod 16 /\ aa = N.testbit f1 2
  /\ tc = N.testbit f1 1 /\ rd = N.testbit f1 0.
Proof.
  intros H. assert (C : chk_f1 qr aa tc rd op = true)
    by (destruct qr, aa, tc, rd; (apply (N_lt_sweep (chk_f1 _ _ _ _) 16); [vm_compute; reflexivity | exact H])).
  unfold chk_f1 in C.
  repeat (apply andb_true_iff in C; destruct C as [C ?]).
  cbn zeta. splits; try (now apply eqb_prop); [now apply N.ltb_lt | now apply N.eqb_eq].
Qed.
Lemma hdr_f2_spec ra rc : rc < 16 ->
  let f2 := hdr_f2 ra rc in f2 < 256 /\ ra = N.testbit f2 7 /\ rc = f2 mod 16.
Proof.
  intros H. assert (C : chk_f2 ra rc = true)
    by (destruct ra; (apply (N_lt_sweep (chk_f2 _) 16); [vm_compute; reflexivity | exact H])).
  unfold chk_f2 in C.
  repeat (apply andb_true_iff in C; destruct C as [C ?]).
  cbn zeta. splits; [now apply N.ltb_lt | now apply eqb_prop | now apply N.eqb_eq].
Qed.

(* Header::serialise on the empty buffer *)
Lemma encode_header_ok h : wf_header h ->
  wb_ok (encode_header h wb_empty) /\ wb_len (encode_header h wb_empty) = 4
  /\ HeaderIs (wb_octets (encode_header h wb_empty)) h.
Proof.
  intros (Hid & Hop & Hrc). rewrite encode_header_eq.
  destruct (hdr_f1_spec (h_qr h) (h_aa h) (h_tc h) (h_rd h) (h_opcode h) Hop) as (F1 & A1 & A2 & A3 & A4 & A5).
  destruct (hdr_f2_spec (h_ra h) (h_rcode h) Hrc) as (F2 & B1 & B2).
  set (f1 := hdr_f1 _ _ _ _ _) in *. set (f2 := hdr_f2 _ _) in *.
  destruct (enc_ok _ _ (Enc_seq _ _ _ _ (Enc_seq _ _ _ _ (Enc_u16 _ Hid) (Enc_u8 f1 F1)) (Enc_u8 f2 F2))
              wb_empty wb_ok_empty) as (ok & _ & q2 & (q1 & [U ->] & [U1 ->]) & [U2 E]).
  cbv beta in *. split; [exact ok|]. split; [exact E|]. exists f1, f2. splits; auto.
Qed.

Lemma usize_to_u16_ok n v : usize_to_u16 n = Ok v -> v = n /\ n < 65536.
Proof.
  unfold usize_to_u16. destruct (n <? 65536) eqn:E; [|discriminate].
  intros [= <-]. split; auto. now apply N.ltb_lt.
Qed.

(* The whole run of Message::to_octets, in one statement: the final buffer satisfies the
   invariant, and its octets parse (by the grammar) as the message. *)
Lemma encode_run m bs : wf_message m -> encode m = Ok bs ->
  exists b, bs = wb_octets b /\ wb_ok b /\ Parses bs m.
Proof.
  intros (Hh & Hq & Han & Hns & Har). unfold encode.
  destruct (usize_to_u16 (llen (m_questions m))) as [qd| | |] eqn:Eqd; cbn [bind]; try discriminate.
  destruct (usize_to_u16 (llen (m_answers m))) as [an| | |] eqn:Ean; cbn [bind]; try discriminate.
  destruct (usize_to_u16 (llen (m_authority m))) as [ns| | |] eqn:Ens; cbn [bind]; try discriminate.
  destruct (usize_to_u16 (llen (m_additional m))) as [ar| | |] eqn:Ear; cbn [bind]; try discriminate.
  apply usize_to_u16_ok in Eqd as [-> Hqd], Ean as [-> Hand], Ens as [-> Hnsd], Ear as [-> Hard].
  destruct (encode_header_ok (m_header m) Hh) as (okh & lh & HH).
  set (bh := encode_header (m_header m) wb_empty) in *.
  (* the four counts and the questions, as one step from the buffer holding the header *)
  pose proof (Enc_seq _ _ _ _ (Enc_seq _ _ _ _ (Enc_seq _ _ _ _ (Enc_seq _ _ _ _
                (Enc_u16 _ Hqd) (Enc_u16 _ Hand)) (Enc_u16 _ Hnsd)) (Enc_u16 _ Hard))
                (encode_questions_ok _ Hq)) as C.
  destruct (enc_ok _ _ C bh okh)
    as (okq & eq & p0 & (q3 & (q2 & (q1 & [U1 ->] & [U2 ->]) & [U3 ->]) & [U4 ->]) & Sq).
  cbv beta in *. rewrite lh in *. clear C.
  set (b1 := fold_left (fun acc q => encode_question q acc) (m_questions m) _) in *.
  destruct (encode_rrs (m_answers m) b1) as [b2| | |] eqn:E2; cbn [bind]; try discriminate.
  destruct (encode_rrs (m_authority m) b2) as [b3| | |] eqn:E3; cbn [bind]; try discriminate.
  destruct (encode_rrs (m_additional m) b3) as [b4| | |] eqn:E4; cbn [bind]; try discriminate.
  intros [= <-].
  destruct (encode_rrs_ok _ _ _ okq Han E2) as (okan & ean & San).
  destruct (encode_rrs_ok _ _ _ okan Hns E3) as (okns & ens & Sns).
  destruct (encode_rrs_ok _ _ _ okns Har E4) as (okar & ear & Sar).
  exists b4. split; [reflexivity|]. split; [exact okar|]. unfold Parses. splits.
  - eapply HeaderIs_ext; [|exact HH]. solve_ext.
  - eapply u16At_ext; [|exact U1]. solve_ext.
  - eapply u16At_ext; [|exact U2]. solve_ext.
  - eapply u16At_ext; [|exact U3]. solve_ext.
  - eapply u16At_ext; [|exact U4]. solve_ext.
  - exists (wb_len b1), (wb_len b2), (wb_len b3), (wb_len b4). splits.
    + eapply (SeqAt_ext QuestionAt QuestionAt_app); [|exact Sq]. solve_ext.
    + eapply (SeqAt_ext RRAt RRAt_app); [|exact San]. solve_ext.
    + eapply (SeqAt_ext RRAt RRAt_app); [|exact Sns]. solve_ext.
    + exact Sar.
Qed.

(* DESIGN C04 T2 *)
Theorem encode_parses m bs : wf_message m -> encode m = Ok bs -> Parses bs m.
Proof. intros Hwf E. destruct (encode_run m bs Hwf E) as (b & _ & _ & P). exact P. Qed.

(* the encoder emits octets *)
Theorem encode_bytes m bs : wf_message m -> encode m = Ok bs -> Forall (fun b => b < 256) bs.
Proof. intros Hwf E. destruct (encode_run m bs Hwf E) as (b & -> & ok & _). apply (ok_bytes b ok). Qed.

(* the table has one entry per name, and lookup finds it *)
Theorem enc_table_inv_keys b : wb_ok b -> NoDup (map fst (wb_ptrs b)).
Proof. apply ok_keys. Qed.

(* the invariant holds initially and is preserved by every encoder step *)
Theorem enc_table_inv :
  wb_ok wb_empty
  /\ (forall os b, bytes os -> wb_ok b -> wb_ok (write_octets os b))
  /\ (forall v b, wb_ok b -> wb_ok (write_u16 v b))
  /\ (forall v b, wb_ok b -> wb_ok (write_u32 v b))
  /\ (forall n c b, wf_name n -> wb_ok b -> wb_ok (encode_name n c b))
  /\ (forall ty d b, wf_rdata ty d -> wb_ok b -> wb_ok (encode_rdata d b))
  /\ (forall q b, wf_question q -> wb_ok b -> wb_ok (encode_question q b))
  /\ (forall h, wf_header h -> wb_ok (encode_header h wb_empty))
  /\ (forall r b b', wf_rr r -> wb_ok b -> encode_rr r b = Ok b' -> wb_ok b')
  /\ (forall rs b b', Forall wf_rr rs -> wb_ok b -> encode_rrs rs b = Ok b' -> wb_ok b').
Proof.
  splits.
  - exact wb_ok_empty.
  - intros. now apply wb_ok_write_octets.
  - intros. now apply wb_ok_write_u16.
  - intros. now apply wb_ok_write_u32.
  - intros n c b Hn Hb. apply (enc_ok _ _ (encode_name_ok n c Hn) b Hb).
  - intros ty d b Hd Hb. apply (enc_ok _ _ (encode_rdata_ok ty d Hd) b Hb).
  - intros q b Hq Hb. apply (enc_ok _ _ (encode_question_ok q Hq) b Hb).
  - intros. now apply encode_header_ok.
  - intros r b b' H1 H2 H3. eapply encode_rr_ok; eauto.
  - intros rs b b' H1 H2 H3. eapply encode_rrs_ok; eauto.
Qed.

(* DESIGN C04 T1, last clause: every pointer the encoder emits addresses the start of an
   identical name written earlier (in full), strictly before the pointer itself *)
Theorem encode_name_pointer b n p : wb_ok b -> alookup dname_eqb n (wb_ptrs b) = Some p ->
  exists off,
    wb_octets (encode_name n true b) = wb_octets b ++ [192 + off / 256; off mod 256]
    /\ off < 16384 /\ off + nlen n <= wb_len b
    /\ PlainAt (wb_octets b) off (labels n)
    /\ NameIs (wb_octets b) off n (off + nlen n).
Proof.
  intros Hok L.
  destruct (enc_table_inv_entry b n p Hok (alookup_some _ _ _ L))
    as (off & -> & Ho & Hlt & He & Hwf & _ & Hp & _ & Hn).
  exists off. splits; auto.
  unfold encode_name. rewrite L. unfold write_u16. rewrite octets_write_octets.
  unfold u16_bytes, u16_hi, u16_lo. do 2 f_equal; [dlia | f_equal; dlia].
Qed.

(* DESIGN C04 T1/T2 for one name *)
Theorem encode_name_parses n c b : wb_ok b -> wf_name n ->
  wb_ok (encode_name n c b)
  /\ NameIs (wb_octets (encode_name n c b)) (wb_len b) n (wb_len (encode_name n c b)).
Proof. intros H1 H2. destruct (enc_ok _ _ (encode_name_ok n c H2) b H1) as (? & _ & ? & _). auto. Qed.

Theorem encode_question_parses q b : wb_ok b -> wf_question q ->
  wb_ok (encode_question q b)
  /\ QuestionAt (wb_octets (encode_question q b)) (wb_len b) q (wb_len (encode_question q b)).
Proof. intros H1 H2. destruct (enc_ok _ _ (encode_question_ok q H2) b H1) as (? & _ & ?). auto. Qed.

Theorem encode_rr_parses r b b' : wb_ok b -> wf_rr r -> encode_rr r b = Ok b' ->
  wb_ok b' /\ RRAt (wb_octets b') (wb_len b) r (wb_len b').
Proof. intros H1 H2 H3. destruct (encode_rr_ok r b b' H1 H2 H3) as (? & _ & ?). auto. Qed.

(* the only ways to fail: a section with 65536 or more entries, or opaque RDATA of 65536 or
   more octets (RDATA made of names and fixed fields is at most 530 octets) *)
Definition rr_fits (r : rr) : Prop :=
  match rr_data r with RD_Octets os => llen os < 65536 | _ => True end.
Definition encodable (m : message) : Prop :=
  llen (m_questions m) < 65536 /\ llen (m_answers m) < 65536
  /\ llen (m_authority m) < 65536 /\ llen (m_additional m) < 65536
  /\ Forall rr_fits (m_answers m) /\ Forall rr_fits (m_authority m) /\ Forall rr_fits (m_additional m).

Lemma wf_name_nlen n : wf_name n -> nlen n <= 255.
Proof. intros H. destruct (wf_name_front n H) as (? & ? & ? & ? & ?). auto. Qed.

Lemma rdata_len_bound r : wf_rr r -> rr_fits r -> rdata_len (rr_data r) < 65536.
Proof.
  intros (_ & _ & _ & _ & _ & Hd). unfold rr_fits.
  destruct (rr_data r); cbn [rdata_len]; intros Hfit; auto;
    repeat match goal with
           | H : _ /\ _ |- _ => destruct H
           | H : wf_name _ |- _ => apply wf_name_nlen in H
           end; try lia.
  unfold llen in *. lia.
Qed.

Lemma encode_rr_succeeds r b : wb_ok b -> wf_rr r -> rr_fits r -> exists b', encode_rr r b = Ok b'.
Proof.
  intros Hok Hwf Hfit. rewrite (encode_rr_unpatched r b Hok Hwf).
  rewrite (proj2 (N.ltb_lt _ _) (rdata_len_bound r Hwf Hfit)). eauto.
Qed.

Lemma encode_rrs_succeeds rs : forall b, wb_ok b -> Forall wf_rr rs -> Forall rr_fits rs ->
  exists b', encode_rrs rs b = Ok b'.
Proof.
  induction rs as [|r rs IH]; intros b Hok Hwf Hfit; cbn [encode_rrs]; [eauto|].
  inversion Hwf; inversion Hfit; subst.
  destruct (encode_rr_succeeds r b) as (b1 & E1); auto. rewrite E1. cbn [bind].
  apply IH; auto. eapply encode_rr_ok; eauto.
Qed.

Theorem encode_succeeds m : wf_message m -> encodable m -> exists bs, encode m = Ok bs.
Proof.
  intros (Hh & Hq & Han & Hns & Har) (C1 & C2 & C3 & C4 & F1 & F2 & F3).
  unfold encode, usize_to_u16.
  rewrite (proj2 (N.ltb_lt _ _) C1), (proj2 (N.ltb_lt _ _) C2),
          (proj2 (N.ltb_lt _ _) C3), (proj2 (N.ltb_lt _ _) C4). cbn [bind].
  destruct (encode_header_ok (m_header m) Hh) as (okh & _).
  set (b0 := write_u16 _ (write_u16 _ (write_u16 _ (write_u16 _ _)))).
  assert (ok0 : wb_ok b0) by (apply wb_ok_write_u16, wb_ok_write_u16, wb_ok_write_u16, wb_ok_write_u16, okh).
  destruct (enc_ok _ _ (encode_questions_ok _ Hq) b0 ok0) as (ok1 & _).
  set (b1 := fold_left _ _ b0) in *.
  destruct (encode_rrs_succeeds _ b1 ok1 Han F1) as (b2 & E2). rewrite E2. cbn [bind].
  destruct (encode_rrs_ok _ _ _ ok1 Han E2) as (ok2 & _).
  destruct (encode_rrs_succeeds _ b2 ok2 Hns F2) as (b3 & E3). rewrite E3. cbn [bind].
  destruct (encode_rrs_ok _ _ _ ok2 Hns E3) as (ok3 & _).
  destruct (encode_rrs_succeeds _ b3 ok3 Har F3) as (b4 & E4). rewrite E4. cbn [bind].
  eauto.
Qed.

(* anything the grammar parses out of a string of octets is encodable: the counts and every
   RDLENGTH were read from 16-bit fields *)
Lemma RRAt_fits bs pos r nx : bytes bs -> RRAt bs pos r nx -> rr_fits r.
Proof.
  intros Hb (p1 & len & _ & _ & _ & _ & Hlen & Hd & _). unfold rr_fits.
  apply (u16At_lt _ Hb) in Hlen.
  destruct Hd; auto.
  match goal with H : octetsAt _ _ _ _ |- _ => apply sliceN_spec in H as (<- & _) end. exact Hlen.
Qed.

Theorem parses_encodable bs m : bytes bs -> Parses bs m -> encodable m.
Proof.
  intros Hb (_ & U1 & U2 & U3 & U4 & p1 & p2 & p3 & p4 & _ & S2 & S3 & S4).
  unfold encodable. splits; try (eapply (u16At_lt bs Hb); eassumption);
    (eapply SeqAt_Forall; [|eassumption]); intros; eapply RRAt_fits; eassumption.
Qed.

(* DESIGN C04 T3 against the grammar: whatever parses (as a well-formed message) can be
   re-encoded, and the re-encoding parses to the same message.  No extra hypothesis is needed:
   names that were compressed inside RDATA are written out in full by the encoder, but RDATA
   that contains names is at most 530 octets long, and opaque RDATA is re-emitted octet for
   octet, so RDLENGTH cannot overflow. *)
Theorem reencode_parses bs m : bytes bs -> Parses bs m -> wf_message m ->
  exists bs', encode m = Ok bs' /\ Parses bs' m /\ bytes bs'.
Proof.
  intros Hb HP Hwf.
  destruct (encode_succeeds m Hwf (parses_encodable bs m Hb HP)) as (bs' & E).
  exists bs'. splits; auto; [eapply encode_parses | eapply encode_bytes]; eauto.
Qed.

(* the encoder succeeds exactly on the encodable messages *)
Theorem encode_ok_iff m : wf_message m -> ((exists bs, encode m = Ok bs) <-> encodable m).
Proof.
  intros Hwf. split.
  - intros (bs & E). eapply parses_encodable; [eapply encode_bytes | eapply encode_parses]; eauto.
  - now apply encode_succeeds.
Qed.

(* patch_u16 read directly (C04_patch_local): it replaces the two octets at [p] and nothing else *)
Lemma octets_patch_u16 b p v : wb_ok b -> p + 2 <= wb_len b ->
  exists A x y B, wb_octets b = A ++ [x; y] ++ B /\ llen A = p
                  /\ wb_octets (patch_u16 p v b) = A ++ [u16_hi v; u16_lo v] ++ B.
Proof.
  intros Hok Hp. pose proof (wb_len_rev b Hok) as Hl. unfold llen in Hl.
  rewrite !wb_octets_rev. unfold patch_u16. cbn [wb_rev].
  set (k := N.to_nat (wb_len b - p - 2)). set (r := wb_rev b) in *.
  assert (Hs : length (skipn k r) = N.to_nat (p + 2)) by (rewrite skipn_length; lia).
  destruct (skipn k r) as [|y [|x rest]] eqn:E; cbn [length] in Hs; try lia.
  assert (Er : skipn (k + 2) r = rest).
  { rewrite skipn_add, E. reflexivity. }
  exists (rev rest), x, y, (rev (firstn k r)). splits.
  - rewrite <- (firstn_skipn k r) at 1. rewrite E, rev_app_distr. cbn [rev]. norm_app.
  - unfold llen. rewrite rev_length. lia.
  - rewrite Er, rev_app_distr. cbn [rev]. norm_app.
Qed.

Lemma patch_u16_nth b p v i : wb_ok b -> p + 2 <= wb_len b -> i < p \/ p + 2 <= i ->
  nthN (wb_octets (patch_u16 p v b)) i = nthN (wb_octets b) i.
Proof.
  intros Hok Hp Hi. destruct (octets_patch_u16 b p v Hok Hp) as (A & x & y & B & -> & <- & ->).
  unfold nthN, llen in *. destruct Hi as [Hi|Hi].
  - rewrite !nth_error_app1 by lia. reflexivity.
  - rewrite !nth_error_app2 by lia.
    rewrite !nth_error_app2 by (cbn [length]; lia). reflexivity.
Qed.

Lemma patch_u16_written b p v : wb_ok b -> p + 2 <= wb_len b -> v < 65536 ->
  u16At (wb_octets (patch_u16 p v b)) p v.
Proof.
  intros Hok Hp Hv. destruct (octets_patch_u16 b p v Hok Hp) as (A & x & y & B & _ & <- & ->).
  now apply (u16At_written A v B).
Qed.

(* a decision procedure for wf_message, for closed examples *)

Definition wf_label_b (l : label) : bool :=
  (llen l <=? 63) && forallb (fun b => (b <? 256) && negb (is_upper b)) l.
Definition wf_name_b (n : dname) : bool :=
  match rev (labels n) with
  | [] :: rfront =>
    forallb (fun l => negb (is_nil l) && wf_label_b l) rfront
    && (sum_lens (labels n) <=? 255) && (nlen n =? sum_lens (labels n))
  | _ => false
  end.
Definition u16_b (x : N) : bool := x <? 65536.
Definition u32_b (x : N) : bool := x <? 4294967296.
Definition wf_rdata_b (ty : N) (d : rdata) : bool :=
  shape_eqb (shape_of_rdata d) (shape_of_type ty) &&
  match d with
  | RD_A a => u32_b a
  | RD_Name n => wf_name_b n
  | RD_SOA m r a b c d e => wf_name_b m && wf_name_b r && u32_b a && u32_b b && u32_b c && u32_b d && u32_b e
  | RD_Octets os => forallb (fun x => x <? 256) os
  | RD_MINFO r e => wf_name_b r && wf_name_b e
  | RD_MX p e => u16_b p && wf_name_b e
  | RD_AAAA segs => Nat.eqb (length segs) 8 && forallb u16_b segs
  | RD_SRV p w o t => u16_b p && u16_b w && u16_b o && wf_name_b t
  end.
Definition wf_rr_b (r : rr) : bool :=
  wf_name_b (rr_name r) && u16_b (rr_type r) && u16_b (rr_class r) && u32_b (rr_ttl r)
  && wf_rdata_b (rr_type r) (rr_data r).
Definition wf_question_b (q : question) : bool :=
  wf_name_b (q_name q) && u16_b (q_type q) && u16_b (q_class q).
Definition wf_header_b (h : header) : bool := u16_b (h_id h) && (h_opcode h <? 16) && (h_rcode h <? 16).
Definition wf_message_b (m : message) : bool :=
  wf_header_b (m_header m) && forallb wf_question_b (m_questions m) && forallb wf_rr_b (m_answers m)
  && forallb wf_rr_b (m_authority m) && forallb wf_rr_b (m_additional m).

Ltac bsplit H := repeat (let H' := fresh H in apply andb_true_iff in H as [H H']).

Lemma wf_label_b_sound l : wf_label_b l = true -> wf_label l.
Proof.
  unfold wf_label_b, wf_label. intros H. bsplit H. split; [now apply N.leb_le|].
  rewrite forallb_forall in H0. apply Forall_forall. intros x Hx. apply H0 in Hx.
  bsplit Hx. split; [now apply N.ltb_lt | now apply negb_true_iff].
Qed.

Lemma wf_name_b_sound n : wf_name_b n = true -> wf_name n.
Proof.
  unfold wf_name_b, wf_name, wf_labels. intros H.
  destruct (rev (labels n)) as [|[|] rfront] eqn:E; try discriminate.
  bsplit H. apply N.leb_le in H1. apply N.eqb_eq in H0.
  assert (El : labels n = rev rfront ++ [[]]).
  { rewrite <- (rev_involutive (labels n)), E. reflexivity. }
  split; auto. exists (rev rfront). splits; auto.
  apply Forall_forall. intros l Hl. apply in_rev in Hl.
  rewrite forallb_forall in H. apply H in Hl. bsplit Hl. split.
  - destruct l; [discriminate | congruence].
  - now apply wf_label_b_sound.
Qed.

Lemma shape_eqb_eq a b : shape_eqb a b = true -> a = b.
Proof. destruct a, b; cbn; congruence. Qed.

Lemma wf_rdata_b_sound ty d : wf_rdata_b ty d = true -> wf_rdata ty d.
Proof.
  unfold wf_rdata_b, wf_rdata, u16_b, u32_b, u16, u32. intros H. bsplit H.
  split; [now apply shape_eqb_eq|].
  destruct d; bsplit H0;
    repeat match goal with
           | H : wf_name_b _ = true |- _ => apply wf_name_b_sound in H
           | H : (_ <? _) = true |- _ => apply N.ltb_lt in H
           end; splits; auto.
  - apply Forall_forall. intros x Hx. rewrite forallb_forall in H0. apply H0 in Hx. now apply N.ltb_lt.
  - now apply Nat.eqb_eq.
  - apply Forall_forall. intros x Hx. rewrite forallb_forall in H1. apply H1 in Hx. now apply N.ltb_lt.
Qed.

Lemma wf_rr_b_sound r : wf_rr_b r = true -> wf_rr r.
Proof.
  unfold wf_rr_b, wf_rr, u16_b, u32_b, u16, u32. intros H. bsplit H.
  splits; auto using wf_name_b_sound, wf_rdata_b_sound; now apply N.ltb_lt.
Qed.
Lemma wf_question_b_sound q : wf_question_b q = true -> wf_question q.
Proof.
  unfold wf_question_b, wf_question, u16_b, u16. intros H. bsplit H.
  splits; auto using wf_name_b_sound; now apply N.ltb_lt.
Qed.
Lemma forallb_Forall {A} (f : A -> bool) (P : A -> Prop) l :
  (forall x, f x = true -> P x) -> forallb f l = true -> Forall P l.
Proof.
  intros Hf H. rewrite forallb_forall in H. apply Forall_forall. auto.
Qed.
Theorem wf_message_b_sound m : wf_message_b m = true -> wf_message m.
Proof.
  unfold wf_message_b, wf_message, wf_header_b, wf_header, u16_b, u16. intros H. bsplit H.
  splits; try (now apply N.ltb_lt);
    eauto using forallb_Forall, wf_question_b_sound, wf_rr_b_sound.
Qed.

Definition mkname (front : list label) : dname :=
  {| labels := front ++ [[]]; nlen := sum_lens (front ++ [[]]) |}.

Definition L_www : label := [119; 119; 119].
Definition L_example : label := [101; 120; 97; 109; 112; 108; 101].
Definition L_com : label := [99; 111; 109].
Definition L_ns : label := [110; 115].
Definition L_host : label := [104; 111; 115; 116].
Definition N_www := mkname [L_www; L_example; L_com].
Definition N_host := mkname [L_host; L_example; L_com].
Definition N_example := mkname [L_example; L_com].
Definition N_ns := mkname [L_ns; L_example; L_com].
(* a name of maximal length: 3 labels of 63 octets and one of 61 *)
Definition N_max := mkname [repeat 97 63; repeat 98 63; repeat 99 63; repeat 100 61].

Definition mkrr n ty d := {| rr_name := n; rr_type := ty; rr_class := RC_IN; rr_ttl := 300; rr_data := d |}.

(* every record shape, names repeated as owners (compressed) and inside RDATA (not compressed,
   but memoised), a maximal name, empty RDATA *)
Definition ex_msg : message :=
  {| m_header := {| h_id := 4660; h_qr := true; h_opcode := 0; h_aa := true; h_tc := false;
                    h_rd := true; h_ra := true; h_rcode := 3 |};
     m_questions := [ {| q_name := N_www; q_type := 255; q_class := 1 |} ];
     m_answers := [ mkrr N_www RT_CNAME (RD_Name N_host);
                    mkrr N_host RT_A (RD_A 3232235777);
                    mkrr N_host RT_AAAA (RD_AAAA [8193; 3512; 0; 0; 0; 0; 0; 1]);
                    mkrr N_host RT_TXT (RD_Octets []);
                    mkrr N_max 65280 (RD_Octets [1; 2; 255]) ];
     m_authority := [ mkrr N_example RT_NS (RD_Name N_ns);
                      mkrr N_example RT_SOA (RD_SOA N_ns N_host 1 2 3 4 4294967295);
                      mkrr N_max RT_MINFO (RD_MINFO N_max N_ns) ];
     m_additional := [ mkrr N_ns RT_A (RD_A 167772161);
                       mkrr N_example RT_MX (RD_MX 10 N_host);
                       mkrr N_www RT_SRV (RD_SRV 1 2 443 N_host) ] |}.

Example ex_msg_wf : wf_message ex_msg.
Proof. apply wf_message_b_sound. vm_compute. reflexivity. Qed.

(* it encodes, to 859 octets; the model's own decoder returns the message *)
Example ex_msg_roundtrip :
  exists bs, encode ex_msg = Ok bs /\ llen bs = 859 /\ decode bs = Ok ex_msg.
Proof.
  destruct (encode_succeeds ex_msg ex_msg_wf) as (bs & E).
  { do 4 (split; [reflexivity|]). repeat split; repeat (apply Forall_cons; [first [exact I|reflexivity]|]); constructor. }
  exists bs. split; [exact E|]. split.
  - assert (L : match encode ex_msg with Ok b => llen b = 859 | _ => True end) by (vm_compute; reflexivity).
    rewrite E in L. exact L.
  - apply decode_complete; [eapply encode_bytes|eapply encode_parses]; eauto using ex_msg_wf.
Qed.

(* a small message byte for byte: the question name is written once, the owner of the answer
   is the pointer 0xC00C to it, the CNAME target is written in full (RDATA is never
   compressed) and the owner of the second answer is the pointer 0xC02D to that target *)
Example ex_small_bytes :
  encode {| m_header := {| h_id := 258; h_qr := true; h_opcode := 0; h_aa := false; h_tc := false;
                           h_rd := true; h_ra := true; h_rcode := 0 |};
            m_questions := [ {| q_name := N_www; q_type := 1; q_class := 1 |} ];
            m_answers := [ mkrr N_www RT_CNAME (RD_Name N_host); mkrr N_host RT_A (RD_A 16909060) ];
            m_authority := []; m_additional := [] |}
  = Ok ([1; 2; 129; 128; 0; 1; 0; 2; 0; 0; 0; 0]
        ++ [3; 119; 119; 119; 7; 101; 120; 97; 109; 112; 108; 101; 3; 99; 111; 109; 0] ++ [0; 1; 0; 1]
        ++ [192; 12] ++ [0; 5; 0; 1; 0; 0; 1; 44] ++ [0; 18]
        ++ [4; 104; 111; 115; 116; 7; 101; 120; 97; 109; 112; 108; 101; 3; 99; 111; 109; 0]
        ++ [192; 45] ++ [0; 1; 0; 1; 0; 0; 1; 44] ++ [0; 4] ++ [1; 2; 3; 4]).
Proof. vm_compute. reflexivity. Qed.

(* beyond the range of compression pointers: 17000 octets of TXT, then a new name three
   times.  Its first occurrence is at offset 17029 >= 16384, so it is never memoised and is
   written in full each time (3 * 17 octets); [N_www], first written at offset 12, is still
   compressed. *)
Definition ex_big : message :=
  {| m_header := {| h_id := 1; h_qr := true; h_opcode := 0; h_aa := false; h_tc := false;
                    h_rd := false; h_ra := false; h_rcode := 0 |};
     m_questions := [ {| q_name := N_www; q_type := 16; q_class := 1 |} ];
     m_answers := [ mkrr N_www RT_TXT (RD_Octets (repeat 7 (N.to_nat 17000)));
                    mkrr N_ns RT_A (RD_A 1);
                    mkrr N_ns RT_A (RD_A 2);
                    mkrr N_www RT_NS (RD_Name N_ns) ];
     m_authority := []; m_additional := [] |}.

(* a record of [k] octets of TXT is well formed whatever [k] is *)
Lemma wf_txt k : wf_rr (mkrr N_www RT_TXT (RD_Octets (repeat 7 k))).
Proof.
  split; [apply wf_name_b_sound; reflexivity|]. do 3 (split; [reflexivity|]). split; [reflexivity|].
  cbn [rr_data mkrr]. induction k; cbn [repeat]; constructor; [reflexivity|assumption].
Qed.

Lemma llen_txt k : llen (repeat 7 (N.to_nat k)) = k.
Proof. unfold llen. rewrite repeat_length. apply N2Nat.id. Qed.

Example ex_big_wf : wf_message ex_big.
Proof.
  split; [repeat split; reflexivity|].
  split; [apply Forall_cons; [apply wf_question_b_sound; reflexivity|constructor]|].
  split; [|split; constructor]. apply Forall_cons; [apply wf_txt|].
  repeat (apply Forall_cons; [apply wf_rr_b_sound; reflexivity|]). constructor.
Qed.

(* [decode] is not run on the 17133 octets: they decode because they were encoded *)
Example ex_big_roundtrip :
  exists bs, encode ex_big = Ok bs /\ decode bs = Ok ex_big
    /\ llen bs = 12 + (17 + 4) + (2 + 10 + 17000) + 2 * (16 + 10 + 4) + (2 + 10 + 16).
Proof.
  destruct (encode_succeeds ex_big ex_big_wf) as (bs & E).
  { do 4 (split; [reflexivity|]). split; [|split; constructor].
    apply Forall_cons; [unfold rr_fits; cbn [rr_data mkrr]; now rewrite llen_txt|].
    repeat (apply Forall_cons; [exact I|]). constructor. }
  exists bs. split; [exact E|]. split.
  - apply decode_complete; [eapply encode_bytes|eapply encode_parses]; eauto using ex_big_wf.
  - assert (L : match encode ex_big with Ok b => llen b = 17133 | _ => True end) by (vm_compute; reflexivity).
    rewrite E in L. exact L.
Qed.

(* a record the encoder refuses: 65536 octets of opaque RDATA (so [encode_parses] and
   C04_roundtrip (Properties/C04.v) keep the hypothesis that encoding succeeded) *)
Example ex_too_long :
  let m := {| m_header := m_header ex_big; m_questions := [];
              m_answers := [ mkrr N_www RT_TXT (RD_Octets (repeat 7 (N.to_nat 65536))) ];
              m_authority := []; m_additional := [] |} in
  wf_message m /\ encode m = Err (CounterTooLarge 65536).
Proof.
  assert (Hh : wf_header (m_header ex_big)) by (repeat split; reflexivity).
  split.
  { split; [exact Hh|]. split; [constructor|].
    split; [apply Forall_cons; [apply wf_txt|constructor]|split; constructor]. }
  unfold encode, usize_to_u16, llen. cbn [m_questions m_answers m_authority m_additional length].
  change (N.of_nat 0 <? 65536) with true. change (N.of_nat 1 <? 65536) with true.
  cbn [bind fold_left encode_rrs].
  rewrite encode_rr_unpatched; [|apply wb_ok_write_u16, wb_ok_write_u16, wb_ok_write_u16, wb_ok_write_u16,
                                   (encode_header_ok _ Hh)|apply wf_txt].
  cbn [rr_data mkrr rdata_len]. rewrite llen_txt. reflexivity.
Qed.
