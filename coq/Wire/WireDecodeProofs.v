(* C03: the decoder of Wire/WireModel.v (a model of
   protocol/deserialise.rs) is total, reports the message id in every error
   that can carry one, and accepts exactly the byte strings that the
   relational grammar of Wire/WireGrammar.v parses.

   Names are treated first (soundness, completeness up to fuel, fuel bounds).  Every other
   decoder is described once by [Dec f P] (what [f] does at a position of the buffer, in terms
   of a grammar relation [P]); descriptions compose along [bind], and the theorems about
   [decode] are read off the description of its body. *)
From Coq Require Import ZArith.
From RV Require Import Base.Prelude Base.Cursor Base.PreludeFacts Name.NameModel Name.NameSpec Name.NameProofs
  Wire.WireTypes Wire.WireModel Wire.WireGrammar.
Open Scope N_scope.

Definition bytes_ok (l : list byte) : Prop := Forall (fun b => b < 256) l.

(* neither of the two outcomes that no Rust execution has *)
Definition fine {E A} (r : res E A) : Prop := r <> Panic /\ r <> OutOfFuel.

Lemma fine_ok {E A} (a : A) : fine (@Ok E A a).
Proof. split; discriminate. Qed.
Lemma fine_err {E A} (e : E) : fine (@Err E A e).
Proof. split; discriminate. Qed.
#[local] Hint Resolve fine_ok fine_err : core.

Lemma wd_llen_app {A} (a b : list A) : llen (a ++ b) = llen a + llen b.
Proof. exact (llen_app a b). Qed.
Lemma at_byte bs p b : bytes_ok bs -> at_ bs p = Some b -> b < 256.
Proof.
  unfold at_, nthN. intros Hb H. apply nth_error_In in H.
  unfold bytes_ok in Hb. rewrite Forall_forall in Hb. apply Hb, H.
Qed.

(* the cursor facts of Base/PreludeFacts.v in the vocabulary of the grammar ([at_] is [nthN]) *)
Lemma next_u8_at bs p :
  next_u8 (at_offset bs p)
  = match at_ bs p with Some b => Some (b, at_offset bs (p + 1)) | None => None end.
Proof. exact (next_u8_nth bs p). Qed.

Lemma next_u16_at bs p :
  next_u16 (at_offset bs p)
  = match at_ bs p, at_ bs (p + 1) with
    | Some a, Some b => Some (u16_be a b, at_offset bs (p + 2))
    | _, _ => None
    end.
Proof. exact (next_u16_nth bs p). Qed.

Lemma next_u32_at bs p :
  next_u32 (at_offset bs p)
  = match at_ bs p, at_ bs (p + 1), at_ bs (p + 2), at_ bs (p + 3) with
    | Some a, Some b, Some c, Some d => Some (u32_be a b c d, at_offset bs (p + 4))
    | _, _, _, _ => None
    end.
Proof. exact (next_u32_nth bs p). Qed.

Lemma sliceN_bytes l i n os : bytes_ok l -> sliceN l i n = Some os -> bytes_ok os.
Proof.
  intros Hb H. apply sliceN_spec in H as (_ & _ & pre & post & ->).
  unfold bytes_ok in *. apply Forall_app in Hb as [_ Hb]. apply Forall_app in Hb as [Hb _]. exact Hb.
Qed.

Definition header_bits_ok (f : N) : bool :=
  Bool.eqb (bit f HEADER_MASK_QR) (N.testbit f 7)
  && Bool.eqb (bit f HEADER_MASK_AA) (N.testbit f 2)
  && Bool.eqb (bit f HEADER_MASK_TC) (N.testbit f 1)
  && Bool.eqb (bit f HEADER_MASK_RD) (N.testbit f 0)
  && Bool.eqb (bit f HEADER_MASK_RA) (N.testbit f 7)
  && (N.land (N.shiftr (N.land f HEADER_MASK_OPCODE) HEADER_OFFSET_OPCODE) OPCODE_FROM_MASK =? (f / 8) mod 16)
  && (N.land (N.shiftr (N.land f HEADER_MASK_RCODE) HEADER_OFFSET_RCODE) RCODE_FROM_MASK =? f mod 16).

(* the masks are those printed from the current source (Generated/Tables.v): all 256 octets *)
Lemma header_bits f : f < 256 ->
  bit f HEADER_MASK_QR = N.testbit f 7 /\ bit f HEADER_MASK_AA = N.testbit f 2
  /\ bit f HEADER_MASK_TC = N.testbit f 1 /\ bit f HEADER_MASK_RD = N.testbit f 0
  /\ bit f HEADER_MASK_RA = N.testbit f 7
  /\ N.land (N.shiftr (N.land f HEADER_MASK_OPCODE) HEADER_OFFSET_OPCODE) OPCODE_FROM_MASK = (f / 8) mod 16
  /\ N.land (N.shiftr (N.land f HEADER_MASK_RCODE) HEADER_OFFSET_RCODE) RCODE_FROM_MASK = f mod 16.
Proof.
  intro Hf.
  assert (H := N_lt_sweep header_bits_ok 256 ltac:(vm_compute; reflexivity) f Hf).
  unfold header_bits_ok in H. repeat rewrite andb_true_iff in H.
  destruct H as [[[[[[H1 H2] H3] H4] H5] H6] H7].
  apply eqb_prop in H1, H2, H3, H4, H5. apply N.eqb_eq in H6, H7. tauto.
Qed.


Lemma name_finish_inv ls len c n c' : name_finish ls len c = Ok (n, c') ->
  n = {| labels := ls; nlen := len |} /\ c' = c /\ len <= 255.
Proof.
  unfold name_finish, DOMAINNAME_MAX_LEN. destruct (N.leb_spec len 255); [|discriminate].
  intros [= <- <-]. auto.
Qed.

Lemma name_finish_le ls len c : len <= 255 ->
  name_finish ls len c = Ok ({| labels := ls; nlen := len |}, c).
Proof.
  intro H. unfold name_finish, DOMAINNAME_MAX_LEN. destruct (N.leb_spec len 255); [reflexivity|lia].
Qed.

Lemma name_finish_fine ls len c : fine (name_finish ls len c).
Proof. unfold name_finish. destruct (len <=? DOMAINNAME_MAX_LEN); auto. Qed.

Section Names.
  Variable bs : list byte.
  Hypothesis Hbs : bytes_ok bs.

  (* what the recursive call (the name a pointer refers to) is assumed to satisfy *)
  Definition rec_sound (rec : N -> res werr_kind (dname * cur)) (start : N) : Prop :=
    forall ptr other cx, ptr < start -> rec ptr = Ok (other, cx) ->
      exists nx, NameAt bs ptr ptr (labels other) nx /\ nlen other = sum_lens (labels other).

  Lemma name_loop_sound rec start : rec_sound rec start ->
    forall lf pos len acc n c',
      name_loop rec start lf (at_offset bs pos) len acc = Ok (n, c') ->
      exists ls next, labels n = acc ++ ls /\ NameAt bs start pos ls next /\ c' = at_offset bs next
        /\ next <= llen bs /\ nlen n = len + sum_lens ls /\ nlen n <= 255.
  Proof.
    intros Hrec. induction lf as [|lf IH]; intros pos len acc n c' H; cbn [name_loop] in H; [discriminate|].
    rewrite next_u8_at in H. destruct (at_ bs pos) as [size|] eqn:Esz; [|discriminate].
    pose proof (nthN_Some_lt _ _ _ Esz) as Hpos. pose proof (at_byte _ _ _ Hbs Esz) as Hsize.
    unfold LABEL_MAX_LEN, DOMAINNAME_MAX_LEN in H.
    destruct (N.leb_spec size 63) as [Hle|Hgt].
    - destruct (N.eqb_spec size 0) as [->|Hnz].
      + apply name_finish_inv in H as (-> & -> & Hl). exists [[]], (pos + 1). cbn [labels nlen].
        change (sum_lens [[]]) with 1.
        split; [reflexivity|]. split; [constructor; exact Esz|]. split; [reflexivity|]. lia.
      + rewrite take_at in H by lia.
        destruct (sliceN bs (pos + 1) size) as [os|] eqn:Eos; [|discriminate].
        destruct (N.ltb_spec 255 (len + 1 + size)) as [Hlong|Hshort].
        * apply name_finish_inv in H as (_ & _ & Hl). lia.
        * apply IH in H as (ls & next & Hlab & Hna & -> & Hnext & Hlen & H255).
          exists (map lower os :: ls), next.
          split; [rewrite Hlab, <- app_assoc; reflexivity|].
          split; [eapply NA_label; [exact Esz|lia|exact Eos|exact Hna]|].
          split; [reflexivity|]. split; [exact Hnext|].
          apply sliceN_spec in Eos as (Hos & _).
          unfold byte in Hos. rewrite sum_lens_cons, llen_map, Hos. lia.
    - destruct (N.leb_spec 192 size) as [H192|]; [|discriminate].
      rewrite next_u8_at in H. destruct (at_ bs (pos + 1)) as [lo|] eqn:Elo; [|discriminate].
      rewrite (land_63 size H192 Hsize) in H. unfold u16_be in H.
      destruct (N.leb_spec start ((size - 192) * 256 + lo)) as [|Hlt]; [discriminate|].
      destruct (rec ((size - 192) * 256 + lo)) as [[other cx]| | |] eqn:Er; try discriminate.
      apply name_finish_inv in H as (-> & -> & Hl). cbn [labels nlen] in *.
      destruct (Hrec _ _ _ Hlt Er) as (nx & Hna & Hnl).
      pose proof (nthN_Some_lt _ _ _ Elo) as Hpos1.
      exists (labels other), (pos + 2).
      split; [reflexivity|].
      split; [eapply NA_ptr with (hi := size) (lo := lo); eauto|].
      split; [f_equal; lia|]. lia.
  Qed.

  Lemma decode_name_sound : forall h pos n c',
    decode_name h bs (at_offset bs pos) = Ok (n, c') ->
    exists next, NameIs bs pos n next /\ c' = at_offset bs next /\ next <= llen bs.
  Proof.
    induction h as [|h IH]; intros pos n c' H; cbn [decode_name] in H; [discriminate|].
    change (cpos (at_offset bs pos)) with pos in H.
    apply name_loop_sound in H.
    - destruct H as (ls & next & Hlab & Hna & -> & Hnext & Hlen & H255). cbn [app] in Hlab.
      exists next. unfold NameIs. rewrite Hlab. repeat split; auto; lia.
    - intros ptr other cx Hlt Hr. apply IH in Hr as (nx & (Hna & Hl & _) & _).
      exists nx. split; assumption.
  Qed.

  Definition rec_complete (rec : N -> res werr_kind (dname * cur)) (start : N) : Prop :=
    forall ptr ls nx, ptr < start -> NameAt bs ptr ptr ls nx -> sum_lens ls <= 255 ->
      rec ptr = OutOfFuel \/ exists cx, rec ptr = Ok ({| labels := ls; nlen := sum_lens ls |}, cx).

  Lemma name_loop_complete start pos ls next : NameAt bs start pos ls next ->
    forall rec, rec_complete rec start -> forall lf len acc, len + sum_lens ls <= 255 ->
      name_loop rec start lf (at_offset bs pos) len acc = OutOfFuel \/
      name_loop rec start lf (at_offset bs pos) len acc
      = Ok ({| labels := acc ++ ls; nlen := len + sum_lens ls |}, at_offset bs next).
  Proof.
    induction 1 as [start pos Hz | start pos sz os ls next Hsz Hrange Hos Hna IH
                   | start pos hi lo ls nx Hhi H192 Hlo Hlt Hna IH];
      intros rec Hrec lf len acc Hlen; (destruct lf as [|lf]; [left; reflexivity|]);
      cbn [name_loop]; rewrite next_u8_at; unfold LABEL_MAX_LEN, DOMAINNAME_MAX_LEN.
    - rewrite Hz. change (0 <=? 63) with true. change (0 =? 0) with true. cbv iota.
      change (sum_lens [[]]) with 1 in *. right. apply name_finish_le. lia.
    - rewrite Hsz. pose proof (nthN_Some_lt _ _ _ Hsz) as Hpos.
      destruct (N.leb_spec sz 63); [|lia]. destruct (N.eqb_spec sz 0); [lia|].
      rewrite take_at by lia. rewrite Hos.
      apply sliceN_spec in Hos as (Hlos & _). unfold byte in Hlos.
      rewrite sum_lens_cons, llen_map, Hlos in Hlen.
      destruct (N.ltb_spec 255 (len + 1 + sz)); [lia|].
      specialize (IH rec Hrec lf (len + 1 + sz) (acc ++ [map lower os])).
      rewrite <- app_assoc in IH. cbn [app] in IH.
      rewrite sum_lens_cons, llen_map, Hlos.
      replace (len + (1 + sz + sum_lens ls)) with (len + 1 + sz + sum_lens ls) by lia.
      apply IH. lia.
    - rewrite Hhi. pose proof (at_byte _ _ _ Hbs Hhi) as Hhi256.
      destruct (N.leb_spec hi 63); [lia|]. destruct (N.leb_spec 192 hi); [|lia].
      rewrite next_u8_at, Hlo. rewrite (land_63 hi H192 Hhi256). unfold u16_be.
      destruct (N.leb_spec start ((hi - 192) * 256 + lo)); [lia|].
      destruct (Hrec _ _ _ Hlt Hna) as [->|(cx & ->)]; [lia|left; reflexivity|].
      cbn [labels nlen]. right. rewrite name_finish_le by lia.
      do 2 f_equal. f_equal. lia.
  Qed.

  Lemma decode_name_complete : forall h pos ls next,
    NameAt bs pos pos ls next -> sum_lens ls <= 255 ->
    decode_name h bs (at_offset bs pos) = OutOfFuel \/
    decode_name h bs (at_offset bs pos)
    = Ok ({| labels := ls; nlen := sum_lens ls |}, at_offset bs next).
  Proof.
    induction h as [|h IH]; intros pos ls next Hna Hs; cbn [decode_name]; [left; reflexivity|].
    change (cpos (at_offset bs pos)) with pos.
    apply (name_loop_complete pos pos ls next Hna
             (fun ptr => decode_name h bs (at_offset bs ptr))) with (len := 0) (acc := []).
    - intros ptr ls' nx Hlt Hna' Hs'.
      destruct (IH ptr ls' nx Hna' Hs') as [->| ->]; [left|right; eexists]; reflexivity.
    - exact Hs.
  Qed.

  (* fuel: each iteration of the label loop that does not end the name adds at
     least 2 to [len] and continues only while [len <= 255] *)
  Lemma name_loop_fine rec start :
    (forall p, p < start -> p < 16384 -> fine (rec p)) ->
    forall lf pos len acc, 257 <= len + 2 * N.of_nat lf -> len <= 255 ->
      fine (name_loop rec start lf (at_offset bs pos) len acc).
  Proof.
    intros Hrec. induction lf as [|lf IH]; intros pos len acc Hfuel Hlen; [lia|].
    cbn [name_loop]. rewrite next_u8_at. destruct (at_ bs pos) as [size|] eqn:Esz; [|auto].
    pose proof (nthN_Some_lt _ _ _ Esz) as Hpos. pose proof (at_byte _ _ _ Hbs Esz) as Hsize.
    unfold LABEL_MAX_LEN, DOMAINNAME_MAX_LEN.
    destruct (N.leb_spec size 63) as [Hle|Hgt].
    - destruct (N.eqb_spec size 0) as [->|Hnz]; [apply name_finish_fine|].
      rewrite take_at by lia. destruct (sliceN bs (pos + 1) size) as [os|]; [|auto].
      destruct (N.ltb_spec 255 (len + 1 + size)); [apply name_finish_fine|].
      apply IH; lia.
    - destruct (N.leb_spec 192 size) as [H192|]; [|auto].
      rewrite next_u8_at. destruct (at_ bs (pos + 1)) as [lo|] eqn:Elo; [|auto].
      pose proof (at_byte _ _ _ Hbs Elo) as Hlo.
      rewrite (land_63 size H192 Hsize). unfold u16_be.
      destruct (N.leb_spec start ((size - 192) * 256 + lo)) as [|Hlt]; [auto|].
      assert (Hp : (size - 192) * 256 + lo < 16384) by lia.
      destruct (Hrec _ Hlt Hp) as [HnP HnF].
      destruct (rec ((size - 192) * 256 + lo)) as [[other cx]| | |]; auto; try contradiction.
      apply name_finish_fine.
  Qed.

  (* hop bound: pointer targets strictly decrease and are below 2^14, so a name at
     [pos] needs at most min(pos, 16384) + 1 nested calls *)
  Lemma decode_name_hops : forall h pos,
    N.min pos 16384 < N.of_nat h -> fine (decode_name h bs (at_offset bs pos)).
  Proof.
    induction h as [|h IH]; intros pos Hh; [lia|].
    cbn [decode_name]. change (cpos (at_offset bs pos)) with pos.
    apply name_loop_fine.
    - intros p Hp1 Hp2. apply IH. lia.
    - unfold LABEL_FUEL. lia.
    - lia.
  Qed.

  (* ... and any fuel above that bound gives the same result *)
  Lemma name_loop_ext rec1 rec2 start :
    (forall p, p < start -> p < 16384 -> rec1 p = rec2 p) ->
    forall lf pos len acc,
      name_loop rec1 start lf (at_offset bs pos) len acc
      = name_loop rec2 start lf (at_offset bs pos) len acc.
  Proof.
    intros Hrec. induction lf as [|lf IH]; intros pos len acc; [reflexivity|].
    cbn [name_loop]. rewrite next_u8_at. destruct (at_ bs pos) as [size|] eqn:Esz; [|reflexivity].
    pose proof (nthN_Some_lt _ _ _ Esz) as Hpos. pose proof (at_byte _ _ _ Hbs Esz) as Hsize.
    destruct (size <=? LABEL_MAX_LEN).
    - destruct (size =? 0); [reflexivity|]. rewrite take_at by lia.
      destruct (sliceN bs (pos + 1) size) as [os|]; [|reflexivity].
      destruct (DOMAINNAME_MAX_LEN <? len + 1 + size); [reflexivity|apply IH].
    - destruct (192 <=? size); [|reflexivity].
      rewrite next_u8_at. destruct (at_ bs (pos + 1)) as [lo|] eqn:Elo; [|reflexivity].
      pose proof (at_byte _ _ _ Hbs Elo) as Hlo. pose proof (land_63_le size) as H63.
      destruct (N.leb_spec start (u16_be (N.land size 63) lo)) as [|Hlt]; [reflexivity|].
      rewrite Hrec; [reflexivity|exact Hlt|unfold u16_be; lia].
  Qed.

  Lemma decode_name_fuel_indep : forall h1 h2 pos,
    N.min pos 16384 < N.of_nat h1 -> N.min pos 16384 < N.of_nat h2 ->
    decode_name h1 bs (at_offset bs pos) = decode_name h2 bs (at_offset bs pos).
  Proof.
    induction h1 as [|a IH]; intros [|b] pos H1 H2; try lia.
    cbn [decode_name]. change (cpos (at_offset bs pos)) with pos.
    apply name_loop_ext. intros p Hp Hp2. apply IH; lia.
  Qed.

  Lemma decode_name_fuel pos : fine (decode_name HOP_FUEL bs (at_offset bs pos)).
  Proof. apply decode_name_hops. unfold HOP_FUEL. rewrite N2Nat.id. lia. Qed.
End Names.


Lemma fine_bind {E A B} (r : res E A) (f : A -> res E B) :
  fine r -> (forall a, r = Ok a -> fine (f a)) -> fine (bind r f).
Proof.
  intros [H1 H2] Hf. destruct r; cbn [bind]; auto; contradiction.
Qed.

Lemma of_opt_fine {E A} (o : option A) (e : E) : fine (of_opt o e).
Proof. destruct o; cbn [of_opt]; auto. Qed.

Lemma bind_Ok_inv {E A B} (r : res E A) (f : A -> res E B) y :
  bind r f = Ok y -> exists a, r = Ok a /\ f a = Ok y.
Proof. destruct r; cbn [bind]; intro H; try discriminate H. eauto. Qed.

Lemma bind_Err_inv {E A B} (r : res E A) (f : A -> res E B) e :
  bind r f = Err e -> r = Err e \/ exists a, r = Ok a /\ f a = Err e.
Proof.
  destruct r as [a|e'| |]; cbn [bind]; intro H; try discriminate H.
  - right. exists a. auto.
  - left. injection H as ->. reflexivity.
Qed.

(* [H : bind r (fun '(x, c) => k) = Ok _] becomes [Eq : r = Ok (x, c)] and [H : k = Ok _];
   the step is an application of [bind_Ok_inv], so that no proof term asks the kernel to
   compute with [r] (which may be a [decode_name HOP_FUEL ...]) *)
Ltac inv_bind H :=
  let Eq := fresh "Eq" in
  apply bind_Ok_inv in H as ([? ?] & Eq & H); cbv beta iota in H.

Section DecDef.
  Variable bs : list byte.

  (* [Dec f P]: run on the cursor at any position [p] of [bs], [f] neither panics nor runs out
     of fuel, and it returns [x] with the cursor at [q] exactly when [P p x q].  Decoders are chains of [bind]; [Dec_bind] composes their
     descriptions, and [Dec_equiv] replaces the composed relation by the grammar's. *)
  Record Dec {A} (f : cur -> res werr (A * cur)) (P : N -> A -> N -> Prop) : Prop := {
    dec_fine : forall p, p <= llen bs -> fine (f (at_offset bs p));
    dec_sound : forall p x c', p <= llen bs -> f (at_offset bs p) = Ok (x, c') ->
      exists q, P p x q /\ c' = at_offset bs q /\ q <= llen bs;
    dec_complete : forall p x q, p <= llen bs -> P p x q ->
      f (at_offset bs p) = Ok (x, at_offset bs q) }.

  Lemma Dec_equiv {A} (f : cur -> res werr (A * cur)) P P' :
    (forall p x q, P p x q <-> P' p x q) -> Dec f P -> Dec f P'.
  Proof.
    intros HP [F S C]. split; auto.
    - intros p x c' Hp H. destruct (S p x c' Hp H) as (q & HPq & Hq). exists q. split; [apply HP, HPq|exact Hq].
    - intros p x q Hp H. apply C; [exact Hp|apply HP, H].
  Qed.

  Lemma Dec_bind {A B} (f : cur -> res werr (A * cur)) (k : A * cur -> res werr (B * cur)) P Q :
    Dec f P -> (forall x, Dec (fun c => k (x, c)) (Q x)) ->
    Dec (fun c => bind (f c) k) (fun p y r => exists x q, P p x q /\ Q x q y r).
  Proof.
    intros [F S C] Hk. split.
    - intros p Hp. apply fine_bind; [apply F, Hp|]. intros [x c1] Eq.
      destruct (S _ _ _ Hp Eq) as (q & _ & -> & Hq). apply (dec_fine _ _ (Hk x)), Hq.
    - intros p y c' Hp H. apply bind_Ok_inv in H as ([x c1] & Eq & H).
      destruct (S _ _ _ Hp Eq) as (q & HPq & -> & Hq).
      destruct (dec_sound _ _ (Hk x) _ _ _ Hq H) as (r & HQ & -> & Hr).
      exists r. split; [exists x, q; auto|auto].
    - intros p y r Hp (x & q & HPq & HQ). pose proof (C _ _ _ Hp HPq) as Eq. rewrite Eq. cbn [bind].
      (* the position reached is inside the buffer: soundness of [f], read off the cursor *)
      destruct (S _ _ _ Hp Eq) as (q' & _ & Ec & Hq). apply (f_equal cpos) in Ec. cbn [cpos at_offset] in Ec.
      subst q'. apply (dec_complete _ _ (Hk x)); assumption.
  Qed.

  Lemma Dec_ret {A} (v : A) : Dec (fun c => Ok (v, c)) (fun p y q => y = v /\ q = p).
  Proof.
    split.
    - intros. apply fine_ok.
    - intros p x c' Hp [= <- <-]. exists p. auto.
    - intros p x q Hp [-> ->]. reflexivity.
  Qed.
End DecDef.

(* one [bind] of a decoder whose description is [L] *)
Ltac dec_step L := eapply Dec_bind; [apply L|]; intro; cbv beta iota.
(* a witness of the composed relation: the value read and the position after it *)
Ltac wit v q := exists v, q; split; [try first [assumption | split; [assumption|lia]]|].

(* the cases of [H : RDataAt ...]; those of another shape than the one at hand are closed *)
Ltac inv_rdata H :=
  destruct H as [a Hsh Ha | n nx Hsh Hn
                | m r serial refresh retry expire minimum p1 p2 Hsh Hm Hr H1 H2 H3 H4 H5
                | os Hsh Hos | r e p1 p2 Hsh Hr He | pr e nx Hsh Hp1 He | segs Hsh Hlen Hs
                | pr w o t nx Hsh H1 H2 H3 Ht]; try congruence.

Section Body.
  Variable bs : list byte.
  Hypothesis Hbs : bytes_ok bs.
  Variable id : N.

  Lemma dname_at_sound p n c1 : dname_at bs id (at_offset bs p) = Ok (n, c1) ->
    exists next, NameIs bs p n next /\ c1 = at_offset bs next /\ next <= llen bs.
  Proof.
    unfold dname_at. destruct (decode_name HOP_FUEL bs (at_offset bs p)) as [[n' c']| | |] eqn:Ed;
      try discriminate.
    intros [= <- <-]. eapply decode_name_sound; eassumption.
  Qed.

  Lemma dname_at_complete p n next : NameIs bs p n next ->
    dname_at bs id (at_offset bs p) = Ok (n, at_offset bs next).
  Proof.
    intros (Hna & Hl & H255). unfold dname_at.
    assert (Hs : sum_lens (labels n) <= 255) by lia.
    destruct (decode_name_complete bs Hbs HOP_FUEL p (labels n) next Hna Hs) as [Ed|Ed].
    - destruct (decode_name_fuel bs Hbs p) as [_ HF]. contradiction.
    - rewrite Ed. destruct n as [ls ln]. cbn [labels nlen] in *. subst ln. reflexivity.
  Qed.

  Lemma dname_at_fine p : fine (dname_at bs id (at_offset bs p)).
  Proof.
    unfold dname_at. destruct (decode_name_fuel bs Hbs p) as [HP HF].
    destruct (decode_name HOP_FUEL bs (at_offset bs p)); auto; exfalso; congruence.
  Qed.

  Lemma dname_at_err c e : dname_at bs id c = Err e -> snd e = Some id.
  Proof.
    unfold dname_at. destruct (decode_name HOP_FUEL bs c); try discriminate.
    intros [= <-]. reflexivity.
  Qed.

  Lemma Dec_u16 k : Dec bs (u16_or id k) (fun p v q => u16At bs p v /\ q = p + 2).
  Proof.
    unfold u16_or. split.
    - intros. apply of_opt_fine.
    - intros p v c' _. rewrite next_u16_at.
      destruct (at_ bs p) as [a|] eqn:Ea; [|discriminate].
      destruct (at_ bs (p + 1)) as [b|] eqn:Eb; [|discriminate]. intros [= <- <-].
      exists (p + 2). split; [split; [exists a, b; auto|reflexivity]|]. split; [reflexivity|].
      apply nthN_Some_lt in Eb. lia.
    - intros p v q _ [(a & b & Ea & Eb & ->) ->]. rewrite next_u16_at, Ea, Eb. reflexivity.
  Qed.

  Lemma Dec_u32 k : Dec bs (u32_or id k) (fun p v q => u32At bs p v /\ q = p + 4).
  Proof.
    unfold u32_or. split.
    - intros. apply of_opt_fine.
    - intros p v c' _. rewrite next_u32_at.
      destruct (at_ bs p) as [a|] eqn:Ea; [|discriminate].
      destruct (at_ bs (p + 1)) as [b|] eqn:Eb; [|discriminate].
      destruct (at_ bs (p + 2)) as [c|] eqn:Ec; [|discriminate].
      destruct (at_ bs (p + 3)) as [d|] eqn:Ed; [|discriminate]. intros [= <- <-].
      exists (p + 4). split; [split; [exists a, b, c, d; auto 6|reflexivity]|]. split; [reflexivity|].
      apply nthN_Some_lt in Ed. lia.
    - intros p v q _ [(a & b & c & d & Ea & Eb & Ec & Ed & ->) ->].
      rewrite next_u32_at, Ea, Eb, Ec, Ed. reflexivity.
  Qed.

  Lemma Dec_name : Dec bs (dname_at bs id) (NameIs bs).
  Proof.
    split.
    - intros. apply dname_at_fine.
    - intros p v c' _. apply dname_at_sound.
    - intros p v q _. apply dname_at_complete.
  Qed.

  (* opaque RDATA: [rdlength] octets *)
  Lemma Dec_octets len :
    Dec bs (fun c => match take len c with
                  | Some (os, c1) => Ok (RD_Octets os, c1)
                  | None => Err (E id ResourceRecordTooShort)
                  end)
        (fun p d q => exists os, octetsAt bs p len os /\ d = RD_Octets os /\ q = p + len).
  Proof.
    split; intros p; intros.
    - rewrite take_at by assumption. destruct (sliceN bs p len); auto.
    - rewrite take_at in H0 by assumption. destruct (sliceN bs p len) as [os|] eqn:Eos; [|discriminate].
      injection H0 as <- <-. exists (p + len). split; [exists os; auto|]. split; [reflexivity|].
      apply sliceN_spec in Eos. tauto.
    - destruct H0 as (os & Hos & -> & ->). rewrite take_at by assumption.
      unfold octetsAt in Hos. rewrite Hos. reflexivity.
  Qed.

  (* the eight segments of an AAAA *)
  Lemma Dec_u16s : forall k, Dec bs (decode_u16s id k)
    (fun p vs q => length vs = k /\ u16sAt bs p vs /\ q = p + 2 * N.of_nat k).
  Proof.
    induction k as [|k IH]; cbn [decode_u16s].
    - eapply Dec_equiv; [|apply Dec_ret]. intros p vs q. cbv beta. split.
      + intros [-> ->]. cbn [length u16sAt]. repeat split. lia.
      + intros (Hl & _ & ->). destruct vs; [|discriminate]. split; [reflexivity|lia].
    - eapply Dec_equiv; [|dec_step Dec_u16; dec_step IH; apply Dec_ret].
      intros p ws q. cbv beta. split.
      + intros (v & q1 & [Hv ->] & vs & q2 & (Hl & Hvs & ->) & -> & ->). cbn [length u16sAt].
        split; [congruence|]. split; [auto|lia].
      + intros (Hl & Hws & ->). destruct ws as [|v vs]; [discriminate|]. destruct Hws as [Hv Hvs].
        exists v, (p + 2). split; [auto|]. exists vs, (p + 2 + 2 * N.of_nat k).
        injection Hl as Hl. repeat split; auto. lia.
  Qed.

  Lemma Dec_rdata ty len : Dec bs (decode_rdata bs id ty len) (RDataAt bs ty len).
  Proof.
    unfold decode_rdata. destruct (shape_of_type ty) eqn:Esh.
    - eapply Dec_equiv; [|dec_step Dec_u32; apply Dec_ret]. intros p d q. cbv beta. split.
      + intros (a & q1 & [Ha ->] & -> & ->). apply RDA_A; assumption.
      + intro H. inv_rdata H. wit a (p + 4). auto.
    - eapply Dec_equiv; [|dec_step Dec_name; apply Dec_ret]. intros p d q. cbv beta. split.
      + intros (n & q1 & Hn & -> & ->). apply RDA_Name; assumption.
      + intro H. inv_rdata H. wit n nx. auto.
    - eapply Dec_equiv; [|dec_step Dec_name; dec_step Dec_name; do 5 dec_step Dec_u32; apply Dec_ret].
      intros p d q. cbv beta. split.
      + intros (m & p1 & Hm & r & p2 & Hr & a & q1 & [H1 ->] & b & q2 & [H2 ->] & c & q3 & [H3 ->]
                & d' & q4 & [H4 ->] & e & q5 & [H5 ->] & -> & ->).
        replace (p2 + 4 + 4 + 4 + 4 + 4) with (p2 + 20) by lia.
        eapply RDA_SOA; eauto; [plia H3|plia H4|plia H5].
      + intro H. inv_rdata H.
        wit m p1. wit r p2. wit serial (p2 + 4). wit refresh (p2 + 4 + 4).
        wit retry (p2 + 4 + 4 + 4). { split; [plia H3|reflexivity]. }
        wit expire (p2 + 4 + 4 + 4 + 4). { split; [plia H4|reflexivity]. }
        wit minimum (p2 + 4 + 4 + 4 + 4 + 4). { split; [plia H5|reflexivity]. }
        split; [reflexivity|lia].
    - eapply Dec_equiv; [|apply Dec_octets]. intros p d q. cbv beta. split.
      + intros (os & Hos & -> & ->). apply RDA_Octets; assumption.
      + intro H. inv_rdata H. exists os. auto.
    - eapply Dec_equiv; [|dec_step Dec_name; dec_step Dec_name; apply Dec_ret].
      intros p d q. cbv beta. split.
      + intros (r & p1 & Hr & e & p2 & He & -> & ->). eapply RDA_MINFO; eauto.
      + intro H. inv_rdata H. wit r p1. wit e p2. auto.
    - eapply Dec_equiv; [|dec_step Dec_u16; dec_step Dec_name; apply Dec_ret].
      intros p d q. cbv beta. split.
      + intros (pr & q1 & [Hp ->] & e & q2 & He & -> & ->). apply RDA_MX; assumption.
      + intro H. inv_rdata H. wit pr (p + 2). wit e nx. auto.
    - eapply Dec_equiv; [|dec_step (Dec_u16s 8); apply Dec_ret]. intros p d q. cbv beta. split.
      + intros (segs & q1 & (Hl & Hs & ->) & -> & ->). apply RDA_AAAA; assumption.
      + intro H. inv_rdata H. exists segs, (p + 16). split; [|auto].
        split; [assumption|]. split; [assumption|reflexivity].
    - eapply Dec_equiv; [|do 3 dec_step Dec_u16; dec_step Dec_name; apply Dec_ret].
      intros p d q. cbv beta. split.
      + intros (pr & q1 & [H1 ->] & w & q2 & [H2 ->] & o & q3 & [H3 ->] & t & q4 & Ht & -> & ->).
        apply RDA_SRV; [assumption|assumption|assumption|plia H3|plia Ht].
      + intro H. inv_rdata H.
        wit pr (p + 2). wit w (p + 2 + 2).
        wit o (p + 2 + 2 + 2). { split; [plia H3|reflexivity]. }
        wit t nx. { plia Ht. } auto.
  Qed.

  (* the RDATA followed by the check that it ended where RDLENGTH says *)
  Lemma Dec_rdata_checked {B} ty len (mk : rdata -> B) :
    Dec bs (fun c => let* (d, c6) := decode_rdata bs id ty len c in
                  if cpos c6 =? cpos c + len then Ok (mk d, c6) else Err (E id ResourceRecordInvalid))
        (fun p y q => exists d, RDataAt bs ty len p d q /\ q = p + len /\ y = mk d).
  Proof.
    pose proof (Dec_rdata ty len) as [F S C]. split; intros p; cbv beta; cbn [cpos at_offset].
    - intro Hp. apply fine_bind; [apply F, Hp|]. intros [d c6] _. destruct (_ =? _); auto.
    - intros y c' Hp H. apply bind_Ok_inv in H as ([d c6] & Eq & H).
      destruct (S _ _ _ Hp Eq) as (q & Hd & -> & Hq). cbn [cpos at_offset] in H.
      destruct (N.eqb_spec q (p + len)) as [E|]; [|discriminate]. injection H as <- <-. subst q.
      exists (p + len). split; [exists d; auto|auto].
    - intros y q Hp (d & Hd & -> & ->). rewrite (C _ _ _ Hp Hd). cbn [bind cpos at_offset].
      rewrite N.eqb_refl. reflexivity.
  Qed.

  Lemma Dec_rr : Dec bs (decode_rr bs id) (RRAt bs).
  Proof.
    eapply Dec_equiv; [|unfold decode_rr; dec_step Dec_name; do 2 dec_step Dec_u16; dec_step Dec_u32;
                        dec_step Dec_u16; cbv zeta; apply Dec_rdata_checked].
    intros p y q. cbv beta. split.
    - intros (n & p1 & Hn & ty & q1 & [Hty ->] & cl & q2 & [Hcl ->] & ttl & q3 & [Httl ->]
              & len & q4 & [Hlen ->] & d & Hd & -> & ->).
      exists p1, len. cbn [rr_name rr_type rr_class rr_ttl rr_data].
      split; [exact Hn|]. split; [exact Hty|]. split; [exact Hcl|]. split; [plia Httl|].
      split; [plia Hlen|]. split; [plia Hd|lia].
    - intros (p1 & len & Hn & Hty & Hcl & Httl & Hlen & Hd & ->). destruct y as [n ty cl ttl d].
      cbn [rr_name rr_type rr_class rr_ttl rr_data] in *.
      wit n p1. wit ty (p1 + 2). wit cl (p1 + 2 + 2). wit ttl (p1 + 2 + 2 + 4).
      { split; [plia Httl|reflexivity]. }
      wit len (p1 + 2 + 2 + 4 + 2). { split; [plia Hlen|reflexivity]. }
      exists d. split; [plia Hd|]. split; [lia|reflexivity].
  Qed.

  Lemma Dec_question : Dec bs (decode_question bs id) (QuestionAt bs).
  Proof.
    eapply Dec_equiv; [|unfold decode_question; dec_step Dec_name; do 2 dec_step Dec_u16; apply Dec_ret].
    intros p y r. cbv beta. split.
    - intros (n & q1 & Hn & t & q2 & [Ht ->] & c & q3 & [Hc ->] & -> & ->).
      exists q1. cbn [q_name q_type q_class]. repeat (split; [assumption|]). lia.
    - intros (p1 & Hn & Ht & Hc & ->). destruct y as [n t c]. cbn [q_name q_type q_class] in *.
      wit n p1. wit t (p1 + 2). wit c (p1 + 2 + 2). split; [reflexivity|lia].
  Qed.

  Lemma Dec_many {A} (f : cur -> res werr (A * cur)) P : Dec bs f P ->
    forall k, Dec bs (decode_many f k) (fun p xs q => SeqAt P p xs q /\ length xs = k).
  Proof.
    intros Hf. induction k as [|k IH]; cbn [decode_many].
    - eapply Dec_equiv; [|apply Dec_ret]. intros p xs q. cbv beta. split.
      + intros [-> ->]. cbn [SeqAt length]. auto.
      + intros [Hs Hl]. destruct xs; [|discriminate]. cbn [SeqAt] in Hs. auto.
    - eapply Dec_equiv; [|dec_step Hf; dec_step IH; apply Dec_ret]. intros p ys q. cbv beta. split.
      + intros (x & q1 & Hx & xs & q2 & [Hs Hl] & -> & ->). cbn [SeqAt length].
        split; [exists q1; auto|congruence].
      + intros [Hs Hl]. destruct ys as [|x xs]; [discriminate|]. destruct Hs as (mid & Hx & Hs).
        injection Hl as Hl. wit x mid. wit xs q. auto.
  Qed.

  (* every error carries the id, for any cursor and whatever the octets are *)
  Lemma of_opt_err {A} (o : option A) k e : of_opt o (E id k) = Err e -> snd e = Some id.
  Proof. destruct o; [discriminate|]. intros [= <-]. reflexivity. Qed.

  Lemma decode_u16s_err : forall k c e, decode_u16s id k c = Err e -> snd e = Some id.
  Proof.
    induction k as [|k IH]; intros c e H; cbn [decode_u16s] in H; [discriminate|].
    destruct (u16_or id ResourceRecordTooShort c) as [[v c1]|e1| |] eqn:E1; cbn [bind] in H; try discriminate.
    - destruct (decode_u16s id k c1) as [[vs c2]|e2| |] eqn:E2; cbn [bind] in H; try discriminate.
      injection H as <-. eapply IH; eassumption.
    - injection H as <-. eapply of_opt_err; eassumption.
  Qed.

  (* an error of a bind chain comes from one of its steps *)
  Ltac err_bind_with H extra :=
    repeat match type of H with
           | bind _ _ = Err _ =>
             let Eq := fresh "Eq" in
             apply bind_Err_inv in H as [H | ([? ?] & Eq & H)];
             [ first [ eapply of_opt_err; eassumption
                     | eapply dname_at_err; eassumption | eapply decode_u16s_err; eassumption
                     | extra ]
             | cbv beta iota in H ]
           end.
  Ltac err_bind H := err_bind_with H fail.

  Lemma decode_rdata_err ty len c e : decode_rdata bs id ty len c = Err e -> snd e = Some id.
  Proof.
    intro H. unfold decode_rdata in H. destruct (shape_of_type ty); err_bind H; try discriminate H.
    destruct (take len c) as [[os c1]|]; [discriminate|]. injection H as <-. reflexivity.
  Qed.

  (* [unfold ... in H] would make the kernel compare [bind (dname_at ...) _] with the folded
     constant by evaluating the former; stated this way round the equation costs nothing *)
  Lemma decode_rr_eq c : decode_rr bs id c =
    (let* (n, c1) := dname_at bs id c in
     let* (rtype, c2) := u16_or id ResourceRecordTooShort c1 in
     let* (rclass, c3) := u16_or id ResourceRecordTooShort c2 in
     let* (ttl, c4) := u32_or id ResourceRecordTooShort c3 in
     let* (rdlength, c5) := u16_or id ResourceRecordTooShort c4 in
     let* (d, c6) := decode_rdata bs id rtype rdlength c5 in
     if cpos c6 =? cpos c5 + rdlength then
       Ok ({| rr_name := n; rr_type := rtype; rr_class := rclass; rr_ttl := ttl; rr_data := d |}, c6)
     else Err (E id ResourceRecordInvalid)).
  Proof. reflexivity. Qed.

  Lemma decode_question_eq c : decode_question bs id c =
    (let* (n, c1) := dname_at bs id c in
     let* (qt, c2) := u16_or id QuestionTooShort c1 in
     let* (qc, c3) := u16_or id QuestionTooShort c2 in
     Ok ({| q_name := n; q_type := qt; q_class := qc |}, c3)).
  Proof. reflexivity. Qed.

  Lemma decode_rr_err c e : decode_rr bs id c = Err e -> snd e = Some id.
  Proof.
    intro H. rewrite decode_rr_eq in H.
    err_bind_with H ltac:(eapply decode_rdata_err; eassumption).
    match type of H with (if ?b then _ else _) = _ => destruct b end; [discriminate|].
    injection H as <-. reflexivity.
  Qed.

  Lemma decode_question_err c e : decode_question bs id c = Err e -> snd e = Some id.
  Proof. intro H. rewrite decode_question_eq in H. err_bind H. discriminate H. Qed.

  Lemma decode_many_err {A} (f : cur -> res werr (A * cur)) :
    (forall c e, f c = Err e -> snd e = Some id) ->
    forall k c e, decode_many f k c = Err e -> snd e = Some id.
  Proof.
    intros Hf. induction k as [|k IH]; intros c e H; cbn [decode_many] in H; [discriminate|].
    destruct (f c) as [[x c1]|e1| |] eqn:E1; cbn [bind] in H; try discriminate.
    - destruct (decode_many f k c1) as [[xs c2]|e2| |] eqn:E2; cbn [bind] in H; try discriminate.
      injection H as <-. eapply IH; eassumption.
    - injection H as <-. eapply Hf; eassumption.
  Qed.
End Body.


Lemma decode_header_sound (bs : list byte) h c : bytes_ok bs ->
  decode_header (at_offset bs 0) = Ok (h, c) ->
  HeaderIs bs h /\ c = at_offset bs 4 /\ 4 <= llen bs.
Proof.
  intros Hbs H. unfold decode_header in H. rewrite next_u16_at in H.
  change (0 + 1) with 1 in H. change (0 + 2) with 2 in H.
  destruct (at_ bs 0) as [a|] eqn:E0; [|discriminate].
  destruct (at_ bs 1) as [b|] eqn:E1; [|discriminate].
  rewrite next_u8_at in H. destruct (at_ bs 2) as [f1|] eqn:E2; [|discriminate].
  rewrite next_u8_at in H. change (2 + 1) with 3 in H. change (3 + 1) with 4 in H.
  destruct (at_ bs 3) as [f2|] eqn:E3; [|discriminate].
  injection H as <- <-.
  destruct (header_bits f1 (at_byte _ _ _ Hbs E2)) as (B1 & B2 & B3 & B4 & _ & B6 & _).
  destruct (header_bits f2 (at_byte _ _ _ Hbs E3)) as (_ & _ & _ & _ & C5 & _ & C7).
  split; [|split; [reflexivity|apply nthN_Some_lt in E3; lia]].
  exists f1, f2. cbn [h_id h_qr h_opcode h_aa h_tc h_rd h_ra h_rcode].
  split; [exists a, b; auto|]. repeat split; assumption.
Qed.

Lemma decode_header_complete (bs : list byte) h : bytes_ok bs -> HeaderIs bs h ->
  decode_header (at_offset bs 0) = Ok (h, at_offset bs 4).
Proof.
  intros Hbs (f1 & f2 & (a & b & E0 & E1 & Hid) & E2 & E3 & Hqr & Hop & Haa & Htc & Hrd & Hra & Hrc).
  change (0 + 1) with 1 in E1.
  unfold decode_header. rewrite next_u16_at.
  change (0 + 1) with 1. change (0 + 2) with 2. rewrite E0, E1.
  rewrite next_u8_at, E2. rewrite next_u8_at. change (2 + 1) with 3. change (3 + 1) with 4. rewrite E3.
  destruct (header_bits f1 (at_byte _ _ _ Hbs E2)) as (B1 & B2 & B3 & B4 & _ & B6 & _).
  destruct (header_bits f2 (at_byte _ _ _ Hbs E3)) as (_ & _ & _ & _ & C5 & _ & C7).
  rewrite B1, B2, B3, B4, B6, C5, C7. unfold u16_be.
  destruct h as [i qr op aa tc rd ra rc]; cbn [h_id h_qr h_opcode h_aa h_tc h_rd h_ra h_rcode] in *.
  subst. reflexivity.
Qed.

Lemma decode_header_fine c : fine (decode_header c).
Proof.
  unfold decode_header. destruct (next_u16 c) as [[i c1]|]; [|auto].
  destruct (next_u8 c1) as [[f1 c2]|]; [|auto]. destruct (next_u8 c2) as [[f2 c3]|]; auto.
Qed.

(* the identifier an error message is sent back with: the first two octets *)
Definition first_u16 (bs : list byte) : option N :=
  match bs with a :: b :: _ => Some (a * 256 + b) | _ => None end.

Lemma decode_header_id bs :
  match decode_header (cur_new bs) with
  | Ok (h, _) => first_u16 bs = Some (h_id h)
  | Err e => snd e = first_u16 bs
  | _ => True
  end.
Proof.
  destruct bs as [|a [|b [|f1 [|f2 t]]]]; reflexivity.
Qed.


(* what [decode] does after the header: the four counts and the four sections.  It also
   returns the cursor reached, which [decode] drops. *)
Definition decode_body (bs : list byte) (h : header) (c0 : cur) : res werr (message * cur) :=
  let id := h_id h in
  let* (qd, c1) := u16_or id HeaderTooShort c0 in
  let* (an, c2) := u16_or id HeaderTooShort c1 in
  let* (ns, c3) := u16_or id HeaderTooShort c2 in
  let* (ar, c4) := u16_or id HeaderTooShort c3 in
  let* (qs, c5) := decode_many (decode_question bs id) (N.to_nat qd) c4 in
  let* (ans, c6) := decode_many (decode_rr bs id) (N.to_nat an) c5 in
  let* (auth, c7) := decode_many (decode_rr bs id) (N.to_nat ns) c6 in
  let* (addl, c8) := decode_many (decode_rr bs id) (N.to_nat ar) c7 in
  Ok ({| m_header := h; m_questions := qs; m_answers := ans; m_authority := auth; m_additional := addl |}, c8).

Lemma decode_eq bs : decode bs =
  (let* (h, c0) := decode_header (at_offset bs 0) in
   let* (m, _) := decode_body bs h c0 in Ok m).
Proof.
  unfold decode, decode_body, u16_or, E. change (cur_new bs) with (at_offset bs 0).
  destruct (decode_header _) as [[h c0]| | |]; cbn [bind]; [|reflexivity..]. cbv zeta.
  do 4 (destruct (of_opt _ _) as [[? ?]|?| |]; cbn [bind]; [|reflexivity..]).
  do 4 (destruct (decode_many _ _ _) as [[? ?]|?| |]; cbn [bind]; [|reflexivity..]).
  reflexivity.
Qed.

(* the clauses of [Parses] after the header, for a count field at [p] and sections ending at [q] *)
Definition BodyAt (bs : list byte) (h : header) (p : N) (m : message) (q : N) : Prop :=
  m_header m = h
  /\ u16At bs p (llen (m_questions m)) /\ u16At bs (p + 2) (llen (m_answers m))
  /\ u16At bs (p + 4) (llen (m_authority m)) /\ u16At bs (p + 6) (llen (m_additional m))
  /\ exists p1 p2 p3,
       SeqAt (QuestionAt bs) (p + 8) (m_questions m) p1 /\ SeqAt (RRAt bs) p1 (m_answers m) p2
       /\ SeqAt (RRAt bs) p2 (m_authority m) p3 /\ SeqAt (RRAt bs) p3 (m_additional m) q.

Lemma Parses_body bs m :
  Parses bs m <-> HeaderIs bs (m_header m) /\ exists q, BodyAt bs (m_header m) 4 m q.
Proof.
  unfold Parses, BodyAt. split.
  - intros (Hh & H1 & H2 & H3 & H4 & p1 & p2 & p3 & p4 & S). split; [exact Hh|]. exists p4.
    repeat (split; [first [reflexivity|assumption]|]). exists p1, p2, p3. exact S.
  - intros (Hh & p4 & _ & H1 & H2 & H3 & H4 & p1 & p2 & p3 & S).
    repeat (split; [assumption|]). exists p1, p2, p3, p4. exact S.
Qed.

Lemma Dec_body bs (Hbs : bytes_ok bs) h : Dec bs (decode_body bs h) (BodyAt bs h).
Proof.
  pose proof (Dec_many bs _ _ (Dec_question bs Hbs (h_id h))) as DQ.
  pose proof (Dec_many bs _ _ (Dec_rr bs Hbs (h_id h))) as DR.
  assert (Hl : forall {A} (l : list A) n, length l = N.to_nat n -> llen l = n).
  { intros A xs k Hn. unfold llen. rewrite Hn. apply N2Nat.id. }
  eapply Dec_equiv; [|unfold decode_body; cbv zeta; do 4 dec_step (Dec_u16 bs (h_id h)); dec_step DQ; do 3 dec_step DR;
                      apply Dec_ret].
  intros p m q. cbv beta. unfold BodyAt. split.
  - intros (qd & q1 & [Hqd ->] & an & q2 & [Han ->] & ns & q3 & [Hns ->] & ar & q4 & [Har ->]
            & qs & p1 & [S1 L1] & ans & p2 & [S2 L2] & auth & p3 & [S3 L3] & addl & p4 & [S4 L4] & -> & ->).
    cbn [m_header m_questions m_answers m_authority m_additional].
    rewrite (Hl _ _ _ L1), (Hl _ _ _ L2), (Hl _ _ _ L3), (Hl _ _ _ L4).
    split; [reflexivity|]. split; [exact Hqd|]. split; [exact Han|]. split; [plia Hns|]. split; [plia Har|].
    exists p1, p2, p3. split; [plia S1|auto].
  - destruct m as [h' qs ans auth addl]. cbn [m_header m_questions m_answers m_authority m_additional].
    intros (-> & Hqd & Han & Hns & Har & p1 & p2 & p3 & S1 & S2 & S3 & S4).
    wit (llen qs) (p + 2). wit (llen ans) (p + 2 + 2). wit (llen auth) (p + 2 + 2 + 2).
    { split; [plia Hns|reflexivity]. }
    wit (llen addl) (p + 2 + 2 + 2 + 2). { split; [plia Har|reflexivity]. }
    wit qs p1. { split; [plia S1|symmetry; apply llen_to_nat]. }
    wit ans p2. { split; [assumption|symmetry; apply llen_to_nat]. }
    wit auth p3. { split; [assumption|symmetry; apply llen_to_nat]. }
    wit addl q. { split; [assumption|symmetry; apply llen_to_nat]. }
    auto.
Qed.

(* a successful decoding, with the position it stopped at *)
Lemma decode_ok_inv bs m : bytes_ok bs -> decode bs = Ok m ->
  HeaderIs bs (m_header m) /\ exists q, BodyAt bs (m_header m) 4 m q /\ q <= llen bs.
Proof.
  intros Hbs H. rewrite decode_eq in H.
  inv_bind H. apply decode_header_sound in Eq as (Hh & -> & H4); [|exact Hbs].
  inv_bind H. injection H as ->.
  apply (dec_sound _ _ _ (Dec_body bs Hbs _)) in Eq as (q & HB & _ & Hq); [|exact H4].
  pose proof HB as (<- & _). eauto.
Qed.

Theorem decode_sound bs m :
  Forall (fun b => b < 256) bs -> decode bs = Ok m -> Parses bs m.
Proof.
  intros Hbs H. apply Parses_body. destruct (decode_ok_inv bs m Hbs H) as (Hh & q & HB & _). eauto.
Qed.

Theorem decode_complete bs m :
  Forall (fun b => b < 256) bs -> Parses bs m -> decode bs = Ok m.
Proof.
  intros Hbs HP. apply Parses_body in HP as (Hh & q & HB).
  assert (H4 : 4 <= llen bs)
    by (destruct Hh as (f1 & f2 & _ & _ & E3 & _); apply nthN_Some_lt in E3; unfold byte in *; lia).
  rewrite decode_eq, (decode_header_complete _ _ Hbs Hh). cbn [bind].
  rewrite (dec_complete _ _ _ (Dec_body bs Hbs _) _ _ _ H4 HB). reflexivity.
Qed.

(* never Panic, never OutOfFuel: the fuel of the model is never the reason a
   decoding ends (HOP_FUEL = 16385 nested calls, LABEL_FUEL = 130 iterations) *)
Theorem decode_total bs :
  Forall (fun b => b < 256) bs -> decode bs <> Panic /\ decode bs <> OutOfFuel.
Proof.
  intros Hbs. change (fine (decode bs)). rewrite decode_eq.
  apply fine_bind; [apply decode_header_fine|]. intros [h c0] Eq.
  apply decode_header_sound in Eq as (_ & -> & H4); [|exact Hbs].
  apply fine_bind; [apply (dec_fine _ _ _ (Dec_body bs Hbs h)), H4|]. intros [m c] _. auto.
Qed.

(* every error carries the first two octets as its id, when there are two *)
Theorem decode_err_first bs e : decode bs = Err e -> werr_id e = first_u16 bs.
Proof.
  intro H. unfold werr_id.
  pose proof (decode_header_id bs) as Hid. change (cur_new bs) with (at_offset bs 0) in Hid.
  rewrite decode_eq in H. apply bind_Err_inv in H as [H|([h c0] & Eq & H)].
  - rewrite H in Hid. exact Hid.
  - rewrite Eq in Hid. rewrite Hid.
    apply bind_Err_inv in H as [H|([m c] & _ & H)]; [|discriminate H].
    unfold decode_body in H. cbv zeta in H.
    repeat match type of H with
           | bind _ _ = Err _ =>
             apply bind_Err_inv in H as [H|([? ?] & _ & H)];
             [ first [ eapply of_opt_err; eassumption
                     | eapply decode_many_err; [|eassumption];
                       first [apply decode_question_err | apply decode_rr_err] ]
             | cbv beta iota in H ]
           end.
    discriminate H.
Qed.

Theorem decode_err_id bs e : decode bs = Err e ->
  (2 <= llen bs -> exists a b, at_ bs 0 = Some a /\ at_ bs 1 = Some b /\ werr_id e = Some (a * 256 + b))
  /\ (llen bs < 2 -> werr_id e = None).
Proof.
  intro H. apply decode_err_first in H. rewrite H.
  destruct bs as [|a [|b t]]; cbn [first_u16]; split; intro Hl; try reflexivity;
    try (unfold llen in Hl; cbn [length] in Hl; lia).
  exists a, b. auto.
Qed.

(* what the grammar accepts is well formed *)

Section Wf.
  Variable bs : list byte.
  Hypothesis Hbs : bytes_ok bs.

  Lemma NameAt_front start pos ls next : NameAt bs start pos ls next ->
    exists front, ls = front ++ [[]] /\ Forall (fun l => l <> [] /\ wf_label l) front.
  Proof.
    intro H. induction H as [start pos Hz | start pos sz os ls next Hsz Hrange Hos Hna IH
                            | start pos hi lo ls nx Hhi H192 Hlo Hlt Hna IH].
    - exists []. split; [reflexivity|constructor].
    - destruct IH as (front & -> & Hf). exists (map lower os :: front). split; [reflexivity|].
      constructor; [|exact Hf].
      pose proof (sliceN_bytes _ _ _ _ Hbs Hos) as Hob.
      apply sliceN_spec in Hos as (Hl & _). unfold byte in Hl.
      split.
      + intro En. apply map_eq_nil in En. subst os. unfold llen in Hl. cbn [length] in Hl. lia.
      + split; [rewrite llen_map; lia|]. apply Forall_map.
        unfold bytes_ok in Hob. rewrite Forall_forall in *. intros b Hb.
        split; [apply lower_small, Hob, Hb | apply lower_not_upper].
    - exact IH.
  Qed.

  Lemma NameIs_wf pos n next : NameIs bs pos n next -> wf_name n.
  Proof.
    intros (Hna & Hl & H255). destruct (NameAt_front _ _ _ _ Hna) as (front & Efr & Hf).
    split; [|exact Hl]. exists front. split; [exact Efr|]. split; [exact Hf|lia].
  Qed.

  Lemma u16At_lt p v : u16At bs p v -> u16 v.
  Proof.
    intros (a & b & Ea & Eb & ->). apply (at_byte _ _ _ Hbs) in Ea, Eb. unfold u16. lia.
  Qed.

  Lemma u32At_lt p v : u32At bs p v -> u32 v.
  Proof.
    intros (a & b & c & d & Ea & Eb & Ec & Ed & ->).
    apply (at_byte _ _ _ Hbs) in Ea, Eb, Ec, Ed. unfold u32. lia.
  Qed.

  Lemma u16sAt_lt : forall vs p, u16sAt bs p vs -> Forall u16 vs.
  Proof.
    induction vs as [|v vs IH]; intros p H; [constructor|].
    destruct H as [Hv Hvs]. constructor; [eapply u16At_lt; eassumption|eapply IH; eassumption].
  Qed.

  Lemma RDataAt_wf ty len pos d next : RDataAt bs ty len pos d next -> wf_rdata ty d.
  Proof.
    intro H. unfold wf_rdata. inv_rdata H; cbn [shape_of_rdata]; (split; [symmetry; exact Hsh|]).
    - eapply u32At_lt; eassumption.
    - eapply NameIs_wf; eassumption.
    - repeat split; first [eapply NameIs_wf; eassumption | eapply u32At_lt; eassumption].
    - eapply sliceN_bytes; eassumption.
    - split; eapply NameIs_wf; eassumption.
    - split; [eapply u16At_lt; eassumption|eapply NameIs_wf; eassumption].
    - split; [exact Hlen|eapply u16sAt_lt; eassumption].
    - repeat split; first [eapply NameIs_wf; eassumption | eapply u16At_lt; eassumption].
  Qed.

  Lemma RRAt_wf pos r next : RRAt bs pos r next -> wf_rr r.
  Proof.
    intros (p1 & len & Hn & Hty & Hcl & Httl & Hlen & Hd & _). unfold wf_rr.
    split; [eapply NameIs_wf; eassumption|]. split; [eapply u16At_lt; eassumption|].
    split; [eapply u16At_lt; eassumption|]. split; [eapply u32At_lt; eassumption|].
    eapply RDataAt_wf; eassumption.
  Qed.

  Lemma QuestionAt_wf pos q next : QuestionAt bs pos q next -> wf_question q.
  Proof.
    intros (p1 & Hn & Hty & Hcl & _). unfold wf_question.
    split; [eapply NameIs_wf; eassumption|]. split; eapply u16At_lt; eassumption.
  Qed.

  Lemma SeqAt_Forall {A} (P : N -> A -> N -> Prop) (Q : A -> Prop) :
    (forall p x q, P p x q -> Q x) -> forall xs p q, SeqAt P p xs q -> Forall Q xs.
  Proof.
    intros HPQ. induction xs as [|x xs IH]; intros p q H; [constructor|].
    destruct H as (mid & Hx & Hrest). constructor; [eapply HPQ; eassumption|eapply IH; eassumption].
  Qed.

  Lemma HeaderIs_wf h : HeaderIs bs h -> wf_header h.
  Proof.
    intros (f1 & f2 & Hid & _ & _ & _ & Hop & _ & _ & _ & _ & Hrc). unfold wf_header.
    split; [eapply u16At_lt; eassumption|]. rewrite Hop, Hrc.
    split; apply N.mod_lt; lia.
  Qed.

  Theorem Parses_wf m : Parses bs m -> wf_message m.
  Proof.
    intros (Hh & _ & _ & _ & _ & p1 & p2 & p3 & p4 & S1 & S2 & S3 & S4). unfold wf_message.
    split; [apply HeaderIs_wf; exact Hh|].
    split; [eapply SeqAt_Forall; [apply QuestionAt_wf|exact S1]|].
    split; [eapply SeqAt_Forall; [apply RRAt_wf|exact S2]|].
    split; eapply SeqAt_Forall; first [apply RRAt_wf|eassumption].
  Qed.
End Wf.

Theorem decode_wf bs m :
  Forall (fun b => b < 256) bs -> decode bs = Ok m -> wf_message m.
Proof.
  intros Hbs H. eapply Parses_wf; [exact Hbs|]. apply decode_sound; assumption.
Qed.

Lemma decode_short bs : llen bs < 2 -> decode bs = Err (CompletelyBusted, None).
Proof.
  destruct bs as [|a [|b t]]; intro H; try reflexivity.
  exfalso. unfold llen in H. cbn [length] in H. lia.
Qed.
