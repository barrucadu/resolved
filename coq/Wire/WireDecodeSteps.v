(* C03 T.2 (decode_steps): the number of cursor operations the wire decoder performs
   is bounded.

   The decoder of Wire/WireModel.v is written again with a step counter: every
   function returns, beside its result, the number of CURSOR OPERATIONS it
   performed (one per call of next_u8 / next_u16 / next_u32 / take; these are
   the only primitives that touch the buffer).  The instrumented functions have
   the same control flow as the model, and [decode_c_result] proves that the
   result component IS the model's result, so the counter counts the
   operations of the model and nothing else.

   Bounds proved (none of them depends on the fuel of the model):
     - one nested call of DomainName::deserialise does at most 128 iterations
       of its loop (2 cursor operations each) because every iteration that
       continues adds at least 2 to the length and stops above 255;
     - a name whose first octet is at [pos] costs at most
       256 * min (pos + 1, hops) operations, hence at most 256 * 16385;
     - a question costs at most that + 2, a resource record at most
       3 * that + 12 (owner + two names of an SOA/MINFO; 8 reads for AAAA);
     - every successful question/record decoder strictly advances the cursor
       and stays inside the buffer, so the count loops call their decoder at
       most |bs| - 11 times altogether whatever the four 16-bit counts claim;
     - therefore [decode] performs at most 769 * (|bs| + 1) * 16384 cursor
       operations ([decode_steps]). *)
From RV Require Import Base.Prelude Base.Cursor Base.PreludeFacts Name.NameModel Name.NameSpec
  Wire.WireTypes Wire.WireModel Wire.WireGrammar Wire.WireDecodeProofs.
Open Scope N_scope.

Definition resc (X A : Type) : Type := (res X A * N)%type.

Definition bindc {X A B} (r : resc X A) (f : A -> resc X B) : resc X B :=
  match fst r with
  | Ok a => (fst (f a), snd r + snd (f a))
  | Err e => (Err e, snd r)
  | Panic => (Panic, snd r)
  | OutOfFuel => (OutOfFuel, snd r)
  end.
Notation "'letc' x ':=' r 'in' k" := (bindc r (fun x => k))
  (at level 200, x pattern, r at level 100, k at level 200, right associativity).

(* one cursor operation / none *)
Definition tick {X A} (r : res X A) : resc X A := (r, 1).
Definition done {X A} (r : res X A) : resc X A := (r, 0).

Lemma snd_pair {A B} (a : A) (b : B) : snd (a, b) = b.
Proof. reflexivity. Qed.
Lemma fst_pair {A B} (a : A) (b : B) : fst (a, b) = a.
Proof. reflexivity. Qed.

Lemma fst_bindc {X A B} (r : resc X A) (f : A -> resc X B) :
  fst (bindc r f) = bind (fst r) (fun a => fst (f a)).
Proof. unfold bindc. destruct (fst r); reflexivity. Qed.

Lemma bind_cong {X A B} (r1 r2 : res X A) (f g : A -> res X B) :
  r1 = r2 -> (forall a, f a = g a) -> bind r1 f = bind r2 g.
Proof. intros -> H. destruct r2; cbn [bind]; auto. Qed.

Lemma snd_bindc_eq {X A B} (r : resc X A) (f : A -> resc X B) :
  snd (bindc r f) = snd r + match fst r with Ok a => snd (f a) | _ => 0 end.
Proof. unfold bindc. destruct (fst r); cbn [snd]; lia. Qed.

Lemma snd_bindc_le {X A B} (r : resc X A) (f : A -> resc X B) a b :
  snd r <= a -> (forall x, fst r = Ok x -> snd (f x) <= b) -> snd (bindc r f) <= a + b.
Proof.
  intros Ha Hb. rewrite snd_bindc_eq. destruct (fst r) as [x| | |]; [specialize (Hb x eq_refl)|..]; lia.
Qed.

Section NameLoopC.
  Variable rec : N -> resc werr_kind (dname * cur).
  Variable start : N.

  (* NameModel.name_loop with a counter: same branches in the same order *)
  Fixpoint name_loop_c (lf : nat) (c : cur) (len : N) (acc : list label)
    : resc werr_kind (dname * cur) :=
    match lf with
    | O => (OutOfFuel, 0)
    | S lf' =>
      match next_u8 c with
      | None => (Err DomainTooShort, 1)
      | Some (size, c1) =>
        if size <=? LABEL_MAX_LEN then
          let len1 := len + 1 in
          if size =? 0 then (name_finish (acc ++ [[]]) len1 c1, 1)
          else match take size c1 with
               | None => (Err DomainTooShort, 2)
               | Some (os, c2) =>
                 let len2 := len1 + size in
                 let acc2 := acc ++ [map lower os] in
                 if DOMAINNAME_MAX_LEN <? len2 then (name_finish acc2 len2 c2, 2)
                 else let r := name_loop_c lf' c2 len2 acc2 in (fst r, 2 + snd r)
               end
        else if 192 <=? size then
          let hi := N.land size 63 in
          match next_u8 c1 with
          | None => (Err DomainTooShort, 2)
          | Some (lo, c2) =>
            let ptr := u16_be hi lo in
            if start <=? ptr then (Err DomainPointerInvalid, 2)
            else let r := rec ptr in
                 (match fst r with
                  | Ok (other, _) => name_finish (acc ++ labels other) (len + nlen other) c2
                  | Err e => Err e
                  | Panic => Panic
                  | OutOfFuel => OutOfFuel
                  end, 2 + snd r)
          end
        else (Err DomainLabelInvalid, 1)
      end
    end.
End NameLoopC.

Fixpoint decode_name_c (hops : nat) (bs : list byte) (c : cur) : resc werr_kind (dname * cur) :=
  match hops with
  | O => (OutOfFuel, 0)
  | S h => name_loop_c (fun ptr => decode_name_c h bs (at_offset bs ptr)) (cpos c) LABEL_FUEL c 0 []
  end.

Lemma name_loop_c_fst rec rec' start :
  (forall p, fst (rec p) = rec' p) ->
  forall lf c len acc, fst (name_loop_c rec start lf c len acc) = name_loop rec' start lf c len acc.
Proof.
  intro Hr. induction lf as [|lf IH]; intros c len acc; cbn [name_loop_c name_loop]; [reflexivity|].
  destruct (next_u8 c) as [[size c1]|]; [|reflexivity].
  destruct (size <=? LABEL_MAX_LEN).
  - destruct (size =? 0); [reflexivity|]. destruct (take size c1) as [[os c2]|]; [|reflexivity].
    destruct (DOMAINNAME_MAX_LEN <? len + 1 + size); [reflexivity|]. cbn [fst]. apply IH.
  - destruct (192 <=? size); [|reflexivity]. destruct (next_u8 c1) as [[lo c2]|]; [|reflexivity].
    destruct (start <=? u16_be (N.land size 63) lo); [reflexivity|]. cbn [fst]. rewrite Hr. reflexivity.
Qed.

Lemma decode_name_c_fst bs : forall h c, fst (decode_name_c h bs c) = decode_name h bs c.
Proof.
  induction h as [|h IH]; intro c; cbn [decode_name_c decode_name]; [reflexivity|].
  apply name_loop_c_fst. intro p. apply IH.
Qed.

(* one nested call: at most 128 iterations of 2 operations, plus what the name
   a pointer refers to costs *)
Lemma name_loop_c_cost rec start R :
  (forall p, p < start -> snd (rec p) <= R) ->
  forall lf c len acc, len <= 255 ->
    exists k, snd (name_loop_c rec start lf c len acc) <= 2 * k + R /\ 2 * k + len <= 257.
Proof.
  intro Hr. induction lf as [|lf IH]; intros c len acc Hlen; cbn [name_loop_c].
  - exists 0. cbn [snd]. lia.
  - destruct (next_u8 c) as [[size c1]|]; [|exists 1; cbn [snd]; lia].
    unfold LABEL_MAX_LEN, DOMAINNAME_MAX_LEN.
    destruct (N.leb_spec size 63) as [Hle|Hgt].
    + destruct (N.eqb_spec size 0) as [->|Hnz]; [exists 1; cbn [snd]; lia|].
      destruct (take size c1) as [[os c2]|]; [|exists 1; cbn [snd]; lia].
      destruct (N.ltb_spec 255 (len + 1 + size)) as [Hlong|Hshort]; [exists 1; cbn [snd]; lia|].
      destruct (IH c2 (len + 1 + size) (acc ++ [map lower os]) Hshort) as (k & Hk & Hk2).
      exists (k + 1). cbn [snd]. lia.
    + destruct (N.leb_spec 192 size) as [H192|]; [|exists 1; cbn [snd]; lia].
      destruct (next_u8 c1) as [[lo c2]|]; [|exists 1; cbn [snd]; lia].
      destruct (N.leb_spec start (u16_be (N.land size 63) lo)) as [|Hlt]; [exists 1; cbn [snd]; lia|].
      exists 1. cbn [snd]. specialize (Hr _ Hlt). lia.
Qed.

(* a name whose first octet is at [cpos c]: pointer targets strictly decrease,
   so there are at most [cpos c + 1] nested calls (and at most [h] by fuel) *)
Lemma decode_name_c_cost bs : forall h c,
  snd (decode_name_c h bs c) <= 256 * N.min (cpos c + 1) (N.of_nat h).
Proof.
  induction h as [|h IH]; intro c; cbn [decode_name_c]; [cbn [snd]; lia|].
  destruct (name_loop_c_cost (fun ptr => decode_name_c h bs (at_offset bs ptr)) (cpos c)
              (256 * N.min (cpos c) (N.of_nat h))) with (lf := LABEL_FUEL) (c := c) (len := 0)
              (acc := @nil label) as (k & Hk & Hk2).
  - intros p Hp. eapply N.le_trans; [apply IH|]. change (cpos (at_offset bs p)) with p. lia.
  - lia.
  - lia.
Qed.

(* the cost of any one name, in cursor operations *)
Definition NAME_STEPS : N := 256 * 16385.

Lemma decode_name_c_steps bs c : snd (decode_name_c HOP_FUEL bs c) <= NAME_STEPS.
Proof.
  eapply N.le_trans; [apply decode_name_c_cost|]. unfold HOP_FUEL, NAME_STEPS. rewrite N2Nat.id. lia.
Qed.

Section WithBufferC.
  Variable bs : list byte.
  Variable id : N.

  Definition dname_at_c (c : cur) : resc werr (dname * cur) :=
    let r := decode_name_c HOP_FUEL bs c in
    (match fst r with
     | Ok x => Ok x
     | Err k => Err (E id k)
     | Panic => Panic
     | OutOfFuel => OutOfFuel
     end, snd r).

  Definition u16_or_c (k : werr_kind) (c : cur) : resc werr (N * cur) := tick (u16_or id k c).
  Definition u32_or_c (k : werr_kind) (c : cur) : resc werr (N * cur) := tick (u32_or id k c).

  Definition decode_question_c (c : cur) : resc werr (question * cur) :=
    letc (n, c1) := dname_at_c c in
    letc (qt, c2) := u16_or_c QuestionTooShort c1 in
    letc (qc, c3) := u16_or_c QuestionTooShort c2 in
    done (Ok ({| q_name := n; q_type := qt; q_class := qc |}, c3)).

  Fixpoint decode_u16s_c (k : nat) (c : cur) : resc werr (list N * cur) :=
    match k with
    | O => done (Ok ([], c))
    | S k' => letc (v, c1) := u16_or_c ResourceRecordTooShort c in
              letc (vs, c2) := decode_u16s_c k' c1 in
              done (Ok (v :: vs, c2))
    end.

  Definition decode_rdata_c (rtype rdlength : N) (c : cur) : resc werr (rdata * cur) :=
    match shape_of_type rtype with
    | ShA => letc (a, c1) := u32_or_c ResourceRecordTooShort c in done (Ok (RD_A a, c1))
    | ShName => letc (n, c1) := dname_at_c c in done (Ok (RD_Name n, c1))
    | ShSOA =>
      letc (m, c1) := dname_at_c c in
      letc (r, c2) := dname_at_c c1 in
      letc (serial, c3) := u32_or_c ResourceRecordTooShort c2 in
      letc (refresh, c4) := u32_or_c ResourceRecordTooShort c3 in
      letc (retry, c5) := u32_or_c ResourceRecordTooShort c4 in
      letc (expire, c6) := u32_or_c ResourceRecordTooShort c5 in
      letc (minimum, c7) := u32_or_c ResourceRecordTooShort c6 in
      done (Ok (RD_SOA m r serial refresh retry expire minimum, c7))
    | ShOctets =>
      tick (match take rdlength c with
            | Some (os, c1) => Ok (RD_Octets os, c1)
            | None => Err (E id ResourceRecordTooShort)
            end)
    | ShMINFO =>
      letc (r, c1) := dname_at_c c in
      letc (e, c2) := dname_at_c c1 in
      done (Ok (RD_MINFO r e, c2))
    | ShMX =>
      letc (p, c1) := u16_or_c ResourceRecordTooShort c in
      letc (e, c2) := dname_at_c c1 in
      done (Ok (RD_MX p e, c2))
    | ShAAAA => letc (segs, c1) := decode_u16s_c 8 c in done (Ok (RD_AAAA segs, c1))
    | ShSRV =>
      letc (p, c1) := u16_or_c ResourceRecordTooShort c in
      letc (w, c2) := u16_or_c ResourceRecordTooShort c1 in
      letc (o, c3) := u16_or_c ResourceRecordTooShort c2 in
      letc (t, c4) := dname_at_c c3 in
      done (Ok (RD_SRV p w o t, c4))
    end.

  Definition decode_rr_c (c : cur) : resc werr (rr * cur) :=
    letc (n, c1) := dname_at_c c in
    letc (rtype, c2) := u16_or_c ResourceRecordTooShort c1 in
    letc (rclass, c3) := u16_or_c ResourceRecordTooShort c2 in
    letc (ttl, c4) := u32_or_c ResourceRecordTooShort c3 in
    letc (rdlength, c5) := u16_or_c ResourceRecordTooShort c4 in
    let rdata_start := cpos c5 in
    letc (d, c6) := decode_rdata_c rtype rdlength c5 in
    done (if cpos c6 =? rdata_start + rdlength then
            Ok ({| rr_name := n; rr_type := rtype; rr_class := rclass; rr_ttl := ttl; rr_data := d |}, c6)
          else Err (E id ResourceRecordInvalid)).

  Fixpoint decode_many_c {A} (f : cur -> resc werr (A * cur)) (count : nat) (c : cur)
    : resc werr (list A * cur) :=
    match count with
    | O => done (Ok ([], c))
    | S k => letc (x, c1) := f c in
             letc (xs, c2) := decode_many_c f k c1 in
             done (Ok (x :: xs, c2))
    end.

  (* the result component is the model *)
  Lemma dname_at_c_fst c : fst (dname_at_c c) = dname_at bs id c.
  Proof. unfold dname_at_c, dname_at. cbn [fst]. rewrite decode_name_c_fst. reflexivity. Qed.

  Lemma decode_u16s_c_fst : forall k c, fst (decode_u16s_c k c) = decode_u16s id k c.
  Proof.
    induction k as [|k IH]; intro c; cbn [decode_u16s_c decode_u16s]; [reflexivity|].
    rewrite fst_bindc. apply bind_cong; [reflexivity|]. intros [v c1]. cbv beta iota.
    rewrite fst_bindc. apply bind_cong; [apply IH|]. intros [? ?]. reflexivity.
  Qed.

  Ltac proj_step :=
    rewrite fst_bindc; apply bind_cong;
    [ first [ apply dname_at_c_fst | apply decode_u16s_c_fst
            | unfold u16_or_c, u32_or_c, tick; cbn [fst]; reflexivity ]
    | intros [? ?]; cbv beta iota ].

  Lemma decode_question_c_fst c : fst (decode_question_c c) = decode_question bs id c.
  Proof. unfold decode_question_c, decode_question. repeat proj_step. reflexivity. Qed.

  Lemma decode_rdata_c_fst ty len c : fst (decode_rdata_c ty len c) = decode_rdata bs id ty len c.
  Proof.
    unfold decode_rdata_c, decode_rdata. destruct (shape_of_type ty); repeat proj_step; reflexivity.
  Qed.

  Lemma decode_rr_c_fst c : fst (decode_rr_c c) = decode_rr bs id c.
  Proof.
    unfold decode_rr_c, decode_rr. do 5 proj_step.
    rewrite fst_bindc. apply bind_cong; [apply decode_rdata_c_fst|]. intros [? ?]. reflexivity.
  Qed.

  Lemma decode_many_c_fst {A} (fc : cur -> resc werr (A * cur)) f :
    (forall c, fst (fc c) = f c) ->
    forall k c, fst (decode_many_c fc k c) = decode_many f k c.
  Proof.
    intro Hf. induction k as [|k IH]; intro c; cbn [decode_many_c decode_many]; [reflexivity|].
    rewrite fst_bindc. apply bind_cong; [apply Hf|]. intros [x c1]. cbv beta iota.
    rewrite fst_bindc. apply bind_cong; [apply IH|]. intros [? ?]. reflexivity.
  Qed.

  Lemma dname_at_c_cost c : snd (dname_at_c c) <= NAME_STEPS.
  Proof. unfold dname_at_c. cbv zeta. rewrite snd_pair. apply decode_name_c_steps. Qed.

  Lemma tick_cost {X A} (r : res X A) : snd (tick r) <= 1.
  Proof. cbn [tick snd]. lia. Qed.
  Lemma done_cost {X A} (r : res X A) : snd (done r) <= 0.
  Proof. cbn [done snd]. lia. Qed.

  Ltac cost_step :=
    apply snd_bindc_le;
    [ first [ apply dname_at_c_cost | apply tick_cost ] | intros [? ?] _ ].

  Lemma decode_question_c_cost c : snd (decode_question_c c) <= NAME_STEPS + 2.
  Proof.
    apply N.le_trans with (m := NAME_STEPS + (1 + (1 + 0))); [|lia].
    unfold decode_question_c, u16_or_c. repeat cost_step. apply done_cost.
  Qed.

  Lemma decode_u16s_c_cost : forall k c, snd (decode_u16s_c k c) <= N.of_nat k.
  Proof.
    induction k as [|k IH]; intro c; cbn [decode_u16s_c]; [cbn [done snd]; lia|].
    apply N.le_trans with (m := 1 + (N.of_nat k + 0)); [|lia].
    unfold u16_or_c. cost_step. apply snd_bindc_le; [apply IH|]. intros [? ?] _. apply done_cost.
  Qed.

  Lemma decode_rdata_c_cost ty len c : snd (decode_rdata_c ty len c) <= 2 * NAME_STEPS + 8.
  Proof.
    unfold decode_rdata_c, u16_or_c, u32_or_c. destruct (shape_of_type ty).
    - apply N.le_trans with (m := 1 + 0); [|lia]. repeat cost_step. apply done_cost.
    - apply N.le_trans with (m := NAME_STEPS + 0); [|lia]. repeat cost_step. apply done_cost.
    - apply N.le_trans with (m := NAME_STEPS + (NAME_STEPS + (1 + (1 + (1 + (1 + (1 + 0)))))));
        [|lia]. repeat cost_step. apply done_cost.
    - eapply N.le_trans; [apply tick_cost|lia].
    - apply N.le_trans with (m := NAME_STEPS + (NAME_STEPS + 0)); [|lia]. repeat cost_step. apply done_cost.
    - apply N.le_trans with (m := 1 + (NAME_STEPS + 0)); [|lia]. repeat cost_step. apply done_cost.
    - apply N.le_trans with (m := 8 + 0); [|lia].
      apply snd_bindc_le; [apply (decode_u16s_c_cost 8)|]. intros [? ?] _. apply done_cost.
    - apply N.le_trans with (m := 1 + (1 + (1 + (NAME_STEPS + 0)))); [|lia]. repeat cost_step. apply done_cost.
  Qed.

  Definition RR_STEPS : N := 3 * NAME_STEPS + 12.

  Lemma decode_rr_c_cost c : snd (decode_rr_c c) <= RR_STEPS.
  Proof.
    apply N.le_trans with (m := NAME_STEPS + (1 + (1 + (1 + (1 + ((2 * NAME_STEPS + 8) + 0))))));
      [|unfold RR_STEPS; lia].
    unfold decode_rr_c, u16_or_c, u32_or_c. do 5 cost_step. cbv zeta.
    apply snd_bindc_le; [apply decode_rdata_c_cost|]. intros [? ?] _. apply done_cost.
  Qed.

  (* the count loops: every successful call advances the cursor, so the
     number of calls is bounded by the octets that remain, not by the count *)
  Section ManyC.
    Context {A : Type}.
    Variable fc : cur -> resc werr (A * cur).
    Variable F : N.
    Hypothesis Hcost : forall c, snd (fc c) <= F.
    Variable f : cur -> res werr (A * cur).
    Variable P : N -> A -> N -> Prop.
    Hypothesis Hfst : forall c, fst (fc c) = f c.
    Hypothesis HD : Dec bs f P.
    Hypothesis Hadv : forall p x q, P p x q -> p + 1 <= q.

    (* [n] = number of calls of [fc] *)
    Lemma decode_many_c_cost : forall k p, p <= llen bs ->
      exists n, snd (decode_many_c fc k (at_offset bs p)) <= F * n
                /\ n + p <= llen bs + 1
                /\ (forall xs c', fst (decode_many_c fc k (at_offset bs p)) = Ok (xs, c') ->
                      exists q, c' = at_offset bs q /\ n + p <= q /\ q <= llen bs).
    Proof.
      induction k as [|k IH]; intros p Hp; cbn [decode_many_c].
      - exists 0. cbn [done fst snd]. split; [lia|]. split; [lia|].
        intros xs c' [= <- <-]. exists p. split; [reflexivity|lia].
      - pose proof (Hcost (at_offset bs p)) as Hc. rewrite snd_bindc_eq, fst_bindc.
        destruct (fst (fc (at_offset bs p))) as [[x c1]| | |] eqn:Ef; cbn [bind];
          [|exists 1; rewrite N.mul_1_r; split; [lia|]; split; [lia|discriminate]..].
        rewrite Hfst in Ef. apply (dec_sound _ _ _ HD) in Ef as (q1 & Hq1 & -> & Hq1'); [|exact Hp]. apply Hadv in Hq1.
        destruct (IH q1 Hq1') as (n & Hn & Hn2 & Hok).
        exists (1 + n). rewrite snd_bindc_eq, fst_bindc.
        destruct (fst (decode_many_c fc k (at_offset bs q1))) as [[xs c2]| | |] eqn:Em;
          cbn [bind done fst snd]; rewrite N.mul_add_distr_l, N.mul_1_r;
          (split; [lia|]); (split; [lia|]); [|discriminate..].
        intros xs' c' [= <- <-].
        destruct (Hok xs c2 eq_refl) as (q & -> & Hq & Hq'). exists q. split; [reflexivity|lia].
    Qed.
  End ManyC.
End WithBufferC.

(* Header::deserialise reads a u16 and two u8 *)
Definition header_steps (c : cur) : N :=
  match next_u16 c with
  | None => 1
  | Some (_, c1) => match next_u8 c1 with None => 2 | Some _ => 3 end
  end.

Definition decode_c (bs : list byte) : resc werr message :=
  letc (h, c0) := (decode_header (cur_new bs), header_steps (cur_new bs)) in
  let id := h_id h in
  let hts := (HeaderTooShort, Some id) in
  letc (qd, c1) := tick (of_opt (next_u16 c0) hts) in
  letc (an, c2) := tick (of_opt (next_u16 c1) hts) in
  letc (ns, c3) := tick (of_opt (next_u16 c2) hts) in
  letc (ar, c4) := tick (of_opt (next_u16 c3) hts) in
  letc (qs, c5) := decode_many_c (decode_question_c bs id) (N.to_nat qd) c4 in
  letc (ans, c6) := decode_many_c (decode_rr_c bs id) (N.to_nat an) c5 in
  letc (auth, c7) := decode_many_c (decode_rr_c bs id) (N.to_nat ns) c6 in
  letc (addl, _) := decode_many_c (decode_rr_c bs id) (N.to_nat ar) c7 in
  done (Ok {| m_header := h; m_questions := qs; m_answers := ans; m_authority := auth; m_additional := addl |}).

(* the counter does not change what is decoded *)
Theorem decode_c_result bs : fst (decode_c bs) = decode bs.
Proof.
  unfold decode_c, decode.
  rewrite fst_bindc. apply bind_cong; [reflexivity|]. intros [h c0]. cbv beta iota zeta.
  do 4 (rewrite fst_bindc; apply bind_cong; [reflexivity|]; intros [? ?]; cbv beta iota).
  rewrite fst_bindc. apply bind_cong;
    [apply decode_many_c_fst; intro; apply decode_question_c_fst|]. intros [? ?]. cbv beta iota.
  do 3 (rewrite fst_bindc; apply bind_cong;
        [apply decode_many_c_fst; intro; apply decode_rr_c_fst|]; intros [? ?]; cbv beta iota).
  reflexivity.
Qed.

Lemma NameAt_advance bs start pos ls next : NameAt bs start pos ls next -> pos < next.
Proof. induction 1; lia. Qed.

Lemma QuestionAt_advance bs p x q : QuestionAt bs p x q -> p + 5 <= q.
Proof. intros (p1 & (Hn & _) & _ & _ & ->). apply NameAt_advance in Hn. lia. Qed.
Lemma RRAt_advance bs p x q : RRAt bs p x q -> p + 11 <= q.
Proof. intros (p1 & len & (Hn & _) & _ & _ & _ & _ & _ & ->). apply NameAt_advance in Hn. lia. Qed.

Lemma header_steps_le c : header_steps c <= 3.
Proof.
  unfold header_steps. destruct (next_u16 c) as [[? c1]|]; [|lia]. destruct (next_u8 c1); lia.
Qed.

(* DESIGN C03 T.2 with the explicit constant c = 769 *)
Theorem decode_steps bs : bytes_ok bs ->
  snd (decode_c bs) <= 769 * (llen bs + 1) * 16384.
Proof.
  intro Hbs. unfold decode_c.
  change (cur_new bs) with (at_offset bs 0).
  pose proof (header_steps_le (at_offset bs 0)) as Hh.
  rewrite snd_bindc_eq. rewrite fst_pair, snd_pair.
  destruct (decode_header (at_offset bs 0)) as [[h c0]| | |] eqn:Eh; [|lia..].
  apply decode_header_sound in Eh as (_ & -> & H4); [|exact Hbs]. cbv beta iota zeta.
  (* the four counts *)
  rewrite snd_bindc_eq. cbn [tick fst snd]. rewrite next_u16_at.
  destruct (at_ bs 4) as [a4|]; [|cbn [of_opt]; lia]. destruct (at_ bs (4 + 1)) as [a5|]; [|cbn [of_opt]; lia].
  cbn [of_opt]. rewrite snd_bindc_eq. cbn [tick fst snd]. rewrite next_u16_at.
  destruct (at_ bs (4 + 2)) as [a6|]; [|cbn [of_opt]; lia].
  destruct (at_ bs (4 + 2 + 1)) as [a7|]; [|cbn [of_opt]; lia].
  cbn [of_opt]. rewrite snd_bindc_eq. cbn [tick fst snd]. rewrite next_u16_at.
  destruct (at_ bs (4 + 2 + 2)) as [a8|]; [|cbn [of_opt]; lia].
  destruct (at_ bs (4 + 2 + 2 + 1)) as [a9|]; [|cbn [of_opt]; lia].
  cbn [of_opt]. rewrite snd_bindc_eq. cbn [tick fst snd]. rewrite next_u16_at.
  destruct (at_ bs (4 + 2 + 2 + 2)) as [a10|]; [|cbn [of_opt]; lia].
  destruct (at_ bs (4 + 2 + 2 + 2 + 1)) as [a11|] eqn:E11; [|cbn [of_opt]; lia].
  cbn [of_opt]. apply nthN_Some_lt in E11.
  assert (H12 : 4 + 2 + 2 + 2 + 2 <= llen bs) by lia.
  (* the four loops *)
  set (id := h_id h).
  assert (AQ : forall p x q, QuestionAt bs p x q -> p + 1 <= q) by (intros ? ? ? H; apply QuestionAt_advance in H; lia).
  assert (AR : forall p x q, RRAt bs p x q -> p + 1 <= q) by (intros ? ? ? H; apply RRAt_advance in H; lia).
  pose proof (decode_many_c_cost bs (decode_question_c bs id) (NAME_STEPS + 2) (decode_question_c_cost bs id)
                _ _ (decode_question_c_fst bs id) (Dec_question bs Hbs id) AQ) as HQ.
  pose proof (decode_many_c_cost bs (decode_rr_c bs id) RR_STEPS (decode_rr_c_cost bs id)
                _ _ (decode_rr_c_fst bs id) (Dec_rr bs Hbs id) AR) as HR.
  rewrite snd_bindc_eq.
  destruct (HQ (N.to_nat (u16_be a4 a5)) _ H12) as (n1 & C1 & B1 & K1).
  destruct (fst (decode_many_c (decode_question_c bs id) (N.to_nat (u16_be a4 a5))
                   (at_offset bs (4 + 2 + 2 + 2 + 2)))) as [[qs c5]| | |];
    [|unfold RR_STEPS, NAME_STEPS in *; lia..].
  destruct (K1 qs c5 eq_refl) as (p1 & -> & P1 & P1').
  rewrite snd_bindc_eq.
  destruct (HR (N.to_nat (u16_be a6 a7)) _ P1') as (n2 & C2 & B2 & K2).
  destruct (fst (decode_many_c (decode_rr_c bs id) (N.to_nat (u16_be a6 a7)) (at_offset bs p1)))
    as [[ans c6]| | |]; [|unfold RR_STEPS, NAME_STEPS in *; lia..].
  destruct (K2 ans c6 eq_refl) as (p2 & -> & P2 & P2').
  rewrite snd_bindc_eq.
  destruct (HR (N.to_nat (u16_be a8 a9)) _ P2') as (n3 & C3 & B3 & K3).
  destruct (fst (decode_many_c (decode_rr_c bs id) (N.to_nat (u16_be a8 a9)) (at_offset bs p2)))
    as [[auth c7]| | |]; [|unfold RR_STEPS, NAME_STEPS in *; lia..].
  destruct (K3 auth c7 eq_refl) as (p3 & -> & P3 & P3').
  rewrite snd_bindc_eq.
  destruct (HR (N.to_nat (u16_be a10 a11)) _ P3') as (n4 & C4 & B4 & K4).
  destruct (fst (decode_many_c (decode_rr_c bs id) (N.to_nat (u16_be a10 a11)) (at_offset bs p3)))
    as [[addl c8]| | |]; cbn [done snd]; unfold RR_STEPS, NAME_STEPS in *; lia.
Qed.

(* a message that decodes has room for every entry it lists: at least 5 octets per
   question and 11 per record, after the 12 of the header and the counts *)
Theorem decode_ok_sizes bs m : bytes_ok bs -> decode bs = Ok m ->
  12 + 5 * llen (m_questions m)
     + 11 * (llen (m_answers m) + llen (m_authority m) + llen (m_additional m)) <= llen bs.
Proof.
  intros Hbs H.
  destruct (decode_ok_inv bs m Hbs H) as (_ & q & (_ & _ & _ & _ & _ & p1 & p2 & p3 & S1 & S2 & S3 & S4) & Hq).
  assert (SA : forall A (P : N -> A -> N -> Prop) k, (forall p x q, P p x q -> p + k <= q) ->
            forall xs p q, SeqAt P p xs q -> p + k * llen xs <= q).
  { intros A P k HP. induction xs as [|x xs IH]; intros p q' Hs; cbn [SeqAt] in Hs.
    - subst q'. change (llen (@nil _)) with 0. lia.
    - destruct Hs as (mid & Hx & Hrest). apply IH in Hrest.
      apply HP in Hx. rewrite llen_cons. lia. }
  apply (SA _ _ 5 (QuestionAt_advance bs)) in S1. apply (SA _ _ 11 (RRAt_advance bs)) in S2, S3, S4. lia.
Qed.
