(* Wire/WireModel.v -- executable model of protocol/deserialise.rs
   (Message::from_octets) and protocol/serialise.rs (Message::to_octets).
   Definitions only. *)
From RV Require Import Base.Prelude Base.Cursor Name.NameModel Wire.WireTypes.

(* ------------------------------------------------------------------ *)
(* decoder                                                             *)
(* ------------------------------------------------------------------ *)

(* error = kind + the id carried (None for CompletelyBusted) *)
Definition werr := (werr_kind * option N)%type.

Definition bit (flags mask : N) : bool := negb (N.land flags mask =? 0).

(* Header::deserialise *)
Definition decode_header (c : cur) : res werr (header * cur) :=
  match next_u16 c with
  | None => Err (CompletelyBusted, None)
  | Some (id, c1) =>
    match next_u8 c1 with
    | None => Err (HeaderTooShort, Some id)
    | Some (flags1, c2) =>
      match next_u8 c2 with
      | None => Err (HeaderTooShort, Some id)
      | Some (flags2, c3) =>
        Ok ({| h_id := id;
               h_qr := bit flags1 HEADER_MASK_QR;
               h_opcode := N.land (N.shiftr (N.land flags1 HEADER_MASK_OPCODE) HEADER_OFFSET_OPCODE) OPCODE_FROM_MASK;
               h_aa := bit flags1 HEADER_MASK_AA;
               h_tc := bit flags1 HEADER_MASK_TC;
               h_rd := bit flags1 HEADER_MASK_RD;
               h_ra := bit flags2 HEADER_MASK_RA;
               h_rcode := N.land (N.shiftr (N.land flags2 HEADER_MASK_RCODE) HEADER_OFFSET_RCODE) RCODE_FROM_MASK |}, c3)
      end
    end
  end.

Section WithBuffer.
  Variable bs : list byte.        (* the whole message, for pointers *)
  Variable id : N.

  Definition E (k : werr_kind) : werr := (k, Some id).

  Definition dname_at (c : cur) : res werr (dname * cur) :=
    match decode_name HOP_FUEL bs c with
    | Ok x => Ok x
    | Err k => Err (E k)
    | Panic => Panic
    | OutOfFuel => OutOfFuel
    end.

  Definition u8_or (k : werr_kind) (c : cur) : res werr (N * cur) := of_opt (next_u8 c) (E k).
  Definition u16_or (k : werr_kind) (c : cur) : res werr (N * cur) := of_opt (next_u16 c) (E k).
  Definition u32_or (k : werr_kind) (c : cur) : res werr (N * cur) := of_opt (next_u32 c) (E k).

  (* Question::deserialise *)
  Definition decode_question (c : cur) : res werr (question * cur) :=
    let* (n, c1) := dname_at c in
    let* (qt, c2) := u16_or QuestionTooShort c1 in
    let* (qc, c3) := u16_or QuestionTooShort c2 in
    Ok ({| q_name := n; q_type := qt; q_class := qc |}, c3).

  Fixpoint decode_u16s (k : nat) (c : cur) : res werr (list N * cur) :=
    match k with
    | O => Ok ([], c)
    | S k' => let* (v, c1) := u16_or ResourceRecordTooShort c in
              let* (vs, c2) := decode_u16s k' c1 in
              Ok (v :: vs, c2)
    end.

  (* the RDATA part of ResourceRecord::deserialise *)
  Definition decode_rdata (rtype rdlength : N) (c : cur) : res werr (rdata * cur) :=
    match shape_of_type rtype with
    | ShA => let* (a, c1) := u32_or ResourceRecordTooShort c in Ok (RD_A a, c1)
    | ShName => let* (n, c1) := dname_at c in Ok (RD_Name n, c1)
    | ShSOA =>
      let* (m, c1) := dname_at c in
      let* (r, c2) := dname_at c1 in
      let* (serial, c3) := u32_or ResourceRecordTooShort c2 in
      let* (refresh, c4) := u32_or ResourceRecordTooShort c3 in
      let* (retry, c5) := u32_or ResourceRecordTooShort c4 in
      let* (expire, c6) := u32_or ResourceRecordTooShort c5 in
      let* (minimum, c7) := u32_or ResourceRecordTooShort c6 in
      Ok (RD_SOA m r serial refresh retry expire minimum, c7)
    | ShOctets =>
      match take rdlength c with
      | Some (os, c1) => Ok (RD_Octets os, c1)
      | None => Err (E ResourceRecordTooShort)
      end
    | ShMINFO =>
      let* (r, c1) := dname_at c in
      let* (e, c2) := dname_at c1 in
      Ok (RD_MINFO r e, c2)
    | ShMX =>
      let* (p, c1) := u16_or ResourceRecordTooShort c in
      let* (e, c2) := dname_at c1 in
      Ok (RD_MX p e, c2)
    | ShAAAA => let* (segs, c1) := decode_u16s 8 c in Ok (RD_AAAA segs, c1)
    | ShSRV =>
      let* (p, c1) := u16_or ResourceRecordTooShort c in
      let* (w, c2) := u16_or ResourceRecordTooShort c1 in
      let* (o, c3) := u16_or ResourceRecordTooShort c2 in
      let* (t, c4) := dname_at c3 in
      Ok (RD_SRV p w o t, c4)
    end.

  (* ResourceRecord::deserialise *)
  Definition decode_rr (c : cur) : res werr (rr * cur) :=
    let* (n, c1) := dname_at c in
    let* (rtype, c2) := u16_or ResourceRecordTooShort c1 in
    let* (rclass, c3) := u16_or ResourceRecordTooShort c2 in
    let* (ttl, c4) := u32_or ResourceRecordTooShort c3 in
    let* (rdlength, c5) := u16_or ResourceRecordTooShort c4 in
    let rdata_start := cpos c5 in
    let* (d, c6) := decode_rdata rtype rdlength c5 in
    if cpos c6 =? rdata_start + rdlength then
      Ok ({| rr_name := n; rr_type := rtype; rr_class := rclass; rr_ttl := ttl; rr_data := d |}, c6)
    else Err (E ResourceRecordInvalid).

  (* `for _ in 0..count { v.push(f(buffer)?) }` *)
  Fixpoint decode_many {A} (f : cur -> res werr (A * cur)) (count : nat) (c : cur)
    : res werr (list A * cur) :=
    match count with
    | O => Ok ([], c)
    | S k => let* (x, c1) := f c in
             let* (xs, c2) := decode_many f k c1 in
             Ok (x :: xs, c2)
    end.
End WithBuffer.

(* Message::from_octets *)
Definition decode (bs : list byte) : res werr message :=
  let* (h, c0) := decode_header (cur_new bs) in
  let id := h_id h in
  let hts := (HeaderTooShort, Some id) in
  let* (qd, c1) := of_opt (next_u16 c0) hts in
  let* (an, c2) := of_opt (next_u16 c1) hts in
  let* (ns, c3) := of_opt (next_u16 c2) hts in
  let* (ar, c4) := of_opt (next_u16 c3) hts in
  let* (qs, c5) := decode_many (decode_question bs id) (N.to_nat qd) c4 in
  let* (ans, c6) := decode_many (decode_rr bs id) (N.to_nat an) c5 in
  let* (auth, c7) := decode_many (decode_rr bs id) (N.to_nat ns) c6 in
  let* (addl, _) := decode_many (decode_rr bs id) (N.to_nat ar) c7 in
  Ok {| m_header := h; m_questions := qs; m_answers := ans; m_authority := auth; m_additional := addl |}.

(* Error::id() *)
Definition werr_id (e : werr) : option N := snd e.

(* ------------------------------------------------------------------ *)
(* encoder                                                             *)
(* ------------------------------------------------------------------ *)

(* WritableBuffer: octets (in order) and the name_pointers map.  The buffer is
   kept reversed-free: [wb_octets] is the bytes written so far; [wb_len] its
   length (kept explicitly so that index() is O(1)). *)
Record wbuf := { wb_rev : list byte;      (* octets written so far, REVERSED *)
                 wb_len : N;              (* = length of wb_rev *)
                 wb_ptrs : list (dname * N) }.

Definition wb_empty : wbuf := {| wb_rev := []; wb_len := 0; wb_ptrs := [] |}.
(* = rev (wb_rev b) (lemma wb_octets_rev in Wire/WireEncodeProofs.v); rev_append is linear *)
Definition wb_octets (b : wbuf) : list byte := rev_append (wb_rev b) [].

Definition write_octets (os : list byte) (b : wbuf) : wbuf :=
  {| wb_rev := rev_append os (wb_rev b); wb_len := wb_len b + llen os; wb_ptrs := wb_ptrs b |}.
Definition write_u8 (v : N) (b : wbuf) : wbuf := write_octets [v] b.
Definition write_u16 (v : N) (b : wbuf) : wbuf := write_octets (u16_bytes v) b.
Definition write_u32 (v : N) (b : wbuf) : wbuf := write_octets (u32_bytes v) b.

(* memoise_name (after the fix: only offsets below 0x4000 are memoised) *)
Definition memoise_name (n : dname) (b : wbuf) : wbuf :=
  if negb (is_root n) && negb (match alookup dname_eqb n (wb_ptrs b) with Some _ => true | None => false end)
  then if (wb_len b <? 65536) && (wb_len b <? 16384)
       then {| wb_rev := wb_rev b; wb_len := wb_len b;
               wb_ptrs := wb_ptrs b ++ [(n, u16_be (N.lor (u16_hi (wb_len b)) 192) (u16_lo (wb_len b)))] |}
       else b
  else b.

Definition write_labels (ls : list label) (b : wbuf) : wbuf :=
  fold_left (fun acc l => write_octets l (write_u8 (llen l) acc)) ls b.

(* DomainName::serialise *)
Definition encode_name (n : dname) (compress : bool) (b : wbuf) : wbuf :=
  match (if compress then alookup dname_eqb n (wb_ptrs b) else None) with
  | Some ptr => write_u16 ptr b
  | None => write_labels (labels n) (memoise_name n b)
  end.

(* Header::serialise *)
Definition encode_header (h : header) (b : wbuf) : wbuf :=
  let flag (x : bool) (m : N) := if x then m else 0 in
  let field_opcode := N.land HEADER_MASK_OPCODE (N.land (N.shiftl (h_opcode h) HEADER_OFFSET_OPCODE) 255) in
  let field_rcode := N.land HEADER_MASK_RCODE (N.land (N.shiftl (h_rcode h) HEADER_OFFSET_RCODE) 255) in
  let f1 := N.lor (N.lor (N.lor (N.lor (flag (h_qr h) HEADER_MASK_QR) field_opcode)
                                 (flag (h_aa h) HEADER_MASK_AA)) (flag (h_tc h) HEADER_MASK_TC))
                  (flag (h_rd h) HEADER_MASK_RD) in
  let f2 := N.lor (flag (h_ra h) HEADER_MASK_RA) field_rcode in
  write_u8 f2 (write_u8 f1 (write_u16 (h_id h) b)).

Definition encode_question (q : question) (b : wbuf) : wbuf :=
  write_u16 (q_class q) (write_u16 (q_type q) (encode_name (q_name q) true b)).

Definition encode_rdata (d : rdata) (b : wbuf) : wbuf :=
  match d with
  | RD_A a => write_octets (u32_bytes a) b
  | RD_Name n => encode_name n false b
  | RD_SOA m r serial refresh retry expire minimum =>
    write_u32 minimum (write_u32 expire (write_u32 retry (write_u32 refresh (write_u32 serial
      (encode_name r false (encode_name m false b))))))
  | RD_Octets os => write_octets os b
  | RD_MINFO r e => encode_name e false (encode_name r false b)
  | RD_MX p e => encode_name e false (write_u16 p b)
  | RD_AAAA segs => write_octets (flat_map u16_bytes segs) b
  | RD_SRV p w o t => encode_name t false (write_u16 o (write_u16 w (write_u16 p b)))
  end.

(* serialisation errors: CounterTooLarge *)
Inductive serr := CounterTooLarge (counter : N).

(* ResourceRecord::serialise: RDLENGTH is back-patched; functionally: encode the
   RDATA after a 2-octet placeholder, then overwrite the placeholder *)
Definition patch_u16 (at_ v : N) (b : wbuf) : wbuf :=
  (* overwrite octets [at_], [at_+1] of the buffer with v (big endian) *)
  let k := N.to_nat (wb_len b - at_ - 2) in            (* octets after the field *)
  let tail := firstn k (wb_rev b) in                   (* reversed: newest first *)
  let before := skipn (k + 2) (wb_rev b) in
  {| wb_rev := tail ++ u16_lo v :: u16_hi v :: before; wb_len := wb_len b; wb_ptrs := wb_ptrs b |}.

Definition encode_rr (r : rr) (b : wbuf) : res serr wbuf :=
  let b1 := encode_name (rr_name r) true b in
  let b2 := write_u32 (rr_ttl r) (write_u16 (rr_class r) (write_u16 (rr_type r) b1)) in
  let rdlength_index := wb_len b2 in
  let b3 := write_u16 0 b2 in
  let b4 := encode_rdata (rr_data r) b3 in
  let rdlen := wb_len b4 - rdlength_index - 2 in
  if rdlen <? 65536 then Ok (patch_u16 rdlength_index rdlen b4)
  else Err (CounterTooLarge rdlen).

Fixpoint encode_rrs (rs : list rr) (b : wbuf) : res serr wbuf :=
  match rs with
  | [] => Ok b
  | r :: t => let* b1 := encode_rr r b in encode_rrs t b1
  end.

Definition usize_to_u16 (n : N) : res serr N := if n <? 65536 then Ok n else Err (CounterTooLarge n).

(* Message::to_octets *)
Definition encode (m : message) : res serr (list byte) :=
  let* qd := usize_to_u16 (llen (m_questions m)) in
  let* an := usize_to_u16 (llen (m_answers m)) in
  let* ns := usize_to_u16 (llen (m_authority m)) in
  let* ar := usize_to_u16 (llen (m_additional m)) in
  let b0 := write_u16 ar (write_u16 ns (write_u16 an (write_u16 qd (encode_header (m_header m) wb_empty)))) in
  let b1 := fold_left (fun acc q => encode_question q acc) (m_questions m) b0 in
  let* b2 := encode_rrs (m_answers m) b1 in
  let* b3 := encode_rrs (m_authority m) b2 in
  let* b4 := encode_rrs (m_additional m) b3 in
  Ok (wb_octets b4).
