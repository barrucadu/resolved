(* Zone/ZoneProofs.v -- the record tree of zones/types.rs (Zone/ZoneModel.v) refines
   the flat specification (Zone/ZoneFlat.v).

   Route: an abstraction relation [Rsub]/[R] between a (sub)tree and a flat zone,
   stated pointwise ("the node reached by path rq holds exactly the flat zone's
   records at rq, and is reachable iff the name exists");
     - [R] holds between Zone::new and fz_init                    ([R_zone_new])
     - insert / insert_wildcard preserve it and never panic for
       names within the 255-octet limit                           ([insert_Rsub])
     - under it ZoneRecords::resolve never panics, and under D1
       agrees with flat_resolve                                   ([resolve_R_total])
   and from these [resolve_refines_flat] for zones given by a list of insertions,
   followed by the corollaries named after the sentences of C02. *)
From RV Require Export Base.AssocFacts.
From RV Require Import Base.Prelude Name.NameModel Name.NameSpec Name.NameProofs Wire.WireTypes
     Zone.ZoneModel Zone.ZoneFlat.
From RV Require Cache.CacheFacts.

Lemma rdata_eqb_eq a b : rdata_eqb a b = true <-> a = b.
Proof. exact (CacheFacts.rdata_eqb_eq a b). Qed.

Lemma zrec_eqb_eq a b : zrec_eqb a b = true <-> a = b.
Proof.
  unfold zrec_eqb. rewrite !andb_true_iff, !N.eqb_eq, rdata_eqb_eq.
  destruct a as [ta da la], b as [tb db lb]; cbn [zr_type zr_data zr_ttl]. split.
  - intros [[-> ->] ->]. reflexivity.
  - intro H; inversion H. repeat split; reflexivity.
Qed.

Lemma existsb_zrec_In r l : existsb (zrec_eqb r) l = true <-> In r l.
Proof.
  rewrite existsb_exists. split.
  - intros (x & Hin & E). apply zrec_eqb_eq in E. subst x. exact Hin.
  - intro Hin. exists r. split; [exact Hin|]. apply zrec_eqb_eq. reflexivity.
Qed.


Definition rget (t : N) (m : rmap) : list zrec :=
  match alookup N.eqb t m with Some l => l | None => [] end.

(* keys unique; the records of a list have that type; no record twice in a list *)
Definition wf_rmap (m : rmap) : Prop :=
  NoDup (map fst m) /\
  Forall (fun kv => Forall (fun z => zr_type z = fst kv) (snd kv) /\ NoDup (snd kv)) m.

Lemma wf_rmap_nil : wf_rmap [].
Proof. split; constructor. Qed.

Lemma wf_rmap_get t m : wf_rmap m -> Forall (fun z => zr_type z = t) (rget t m) /\ NoDup (rget t m).
Proof.
  intros [_ Hall]. unfold rget. destruct (alookup N.eqb t m) as [l|] eqn:E; [|split; constructor].
  apply (alookup_in N.eqb N.eqb_eq) in E. rewrite Forall_forall in Hall. apply Hall in E. exact E.
Qed.

(* dedup-append: Vec push unless already present *)
Definition push_new (l : list zrec) (r : zrec) : list zrec :=
  if existsb (zrec_eqb r) l then l else l ++ [r].

(* insertion overwrites the type's list by the list with the record pushed *)
Lemma rmap_insert_ainsert m r : rmap_insert m r = ainsert N.eqb (zr_type r) (push_new (rget (zr_type r) m) r) m.
Proof.
  unfold rmap_insert, ainsert, rget, push_new. destruct (alookup N.eqb (zr_type r) m) as [entries|] eqn:E; [|reflexivity].
  destruct (existsb (zrec_eqb r) entries); [symmetry; apply areplace_id, E|reflexivity].
Qed.

Lemma rget_insert t m r :
  rget t (rmap_insert m r) = if zr_type r =? t then push_new (rget t m) r else rget t m.
Proof.
  rewrite rmap_insert_ainsert. unfold rget at 1. rewrite (alookup_ainsert N.eqb N.eqb_eq), N.eqb_sym.
  destruct (N.eqb_spec (zr_type r) t) as [<-|_]; reflexivity.
Qed.

Lemma wf_rmap_insert m r : wf_rmap m -> wf_rmap (rmap_insert m r).
Proof.
  intro Hm. rewrite rmap_insert_ainsert. destruct (wf_rmap_get (zr_type r) m Hm) as [Ht Hnd]. destruct Hm as [Hk Hall].
  split; [apply (ainsert_nodup N.eqb N.eqb_eq), Hk|]. apply (ainsert_forall N.eqb N.eqb_eq); [exact Hall|].
  cbn [fst snd]. unfold push_new. destruct (existsb (zrec_eqb r) _) eqn:Ex; [split; assumption|]. split.
  - apply Forall_app. split; [exact Ht|]. constructor; [reflexivity|constructor].
  - apply NoDup_snoc; [exact Hnd|]. intro Hin. apply existsb_zrec_In in Hin. congruence.
Qed.

Lemma filter_all {A} (f : A -> bool) l : Forall (fun x => f x = true) l -> filter f l = l.
Proof.
  induction l as [|x l IH]; intro H; cbn [filter]; [reflexivity|].
  apply Forall_cons_iff in H as [Hx Hl]. rewrite Hx, (IH Hl). reflexivity.
Qed.
Lemma filter_none {A} (f : A -> bool) l : Forall (fun x => f x = false) l -> filter f l = [].
Proof.
  induction l as [|x l IH]; intro H; cbn [filter]; [reflexivity|].
  apply Forall_cons_iff in H as [Hx Hl]. rewrite Hx. exact (IH Hl).
Qed.

Lemma of_type_app t a b : of_type t (a ++ b) = of_type t a ++ of_type t b.
Proof. apply filter_app. Qed.

(* the records of one type among all the records of a node are that type's list *)
Lemma of_type_flat t m : wf_rmap m -> of_type t (flat_map snd m) = rget t m.
Proof.
  induction m as [|[k l] m IH]; intros [Hk Hall]; [reflexivity|].
  cbn [flat_map snd]. rewrite of_type_app.
  cbn [map fst] in Hk. inversion Hk as [|? ? Hnotin Hk']; subst.
  apply Forall_cons_iff in Hall as [[Hl _] Hall]. cbn [fst snd] in Hl.
  rewrite (IH (conj Hk' Hall)). unfold rget at 2. cbn [alookup].
  destruct (N.eqb_spec t k) as [->|Hne].
  - unfold of_type. rewrite filter_all.
    + unfold rget. rewrite (alookup_notin_none N.eqb N.eqb_eq _ _ Hnotin). apply app_nil_r.
    + rewrite Forall_forall in *. intros z Hz. apply N.eqb_eq. auto.
  - unfold of_type. rewrite filter_none; [reflexivity|].
    rewrite Forall_forall in *. intros z Hz. apply N.eqb_neq. rewrite (Hl z Hz). congruence.
Qed.

Lemma flat_map_map_snd {B} (f : zrec -> B) (m : rmap) :
  flat_map (fun kv => map f (snd kv)) m = map f (flat_map snd m).
Proof.
  induction m as [|kv m IH]; cbn [flat_map]; [reflexivity|]. rewrite map_app, IH. reflexivity.
Qed.

Lemma is_suffix_refl {A} (p : list A) : is_suffix p p.
Proof. exists []. reflexivity. Qed.
Lemma is_suffix_nil {A} (p : list A) : is_suffix [] p.
Proof. exists p. symmetry. apply app_nil_r. Qed.
Lemma is_suffix_trans {A} (a b c : list A) : is_suffix a b -> is_suffix b c -> is_suffix a c.
Proof. intros [x ->] [y ->]. exists (y ++ x). apply app_assoc. Qed.
Lemma is_suffix_of_nil {A} (p : list A) : is_suffix p [] -> p = [].
Proof. intros [pre H]. symmetry in H. apply app_eq_nil in H. tauto. Qed.
Lemma is_suffix_cons {A} (p q : list A) x : is_suffix p q -> is_suffix p (x :: q).
Proof. intros [pre ->]. exists (x :: pre). reflexivity. Qed.
Lemma is_suffix_app {A} (p q : list A) : is_suffix q (p ++ q).
Proof. exists p. reflexivity. Qed.
Lemma is_suffix_len_eq {A} (p q : list A) : is_suffix p q -> length p = length q -> p = q.
Proof.
  intros [pre ->] H. rewrite app_length in H. destruct pre; [reflexivity|cbn [length] in H; lia].
Qed.
Lemma is_suffix_antisym {A} (p q : list A) : is_suffix p q -> is_suffix q p -> p = q.
Proof.
  intros H1 H2. apply is_suffix_len_eq; [exact H1|].
  apply is_suffix_length in H1. apply is_suffix_length in H2. lia.
Qed.

Lemma is_suffixb_spec p q : is_suffixb p q = true <-> is_suffix p q.
Proof.
  induction q as [|x t IH]; cbn [is_suffixb].
  - rewrite orb_false_r, lleqb_eq. split; [intros ->; apply is_suffix_refl | apply is_suffix_of_nil].
  - rewrite orb_true_iff, lleqb_eq, IH. split.
    + intros [->|H]; [apply is_suffix_refl | apply is_suffix_cons, H].
    + apply is_suffix_cons_inv.
Qed.

Lemma exists_nodeb_spec z p : exists_nodeb z p = true <-> exists_node z p.
Proof.
  unfold exists_nodeb, exists_node. rewrite orb_true_iff, existsb_exists. split.
  - intros [H|([q r] & Hin & Hs)]; [left; destruct p; [reflexivity|discriminate]|].
    right. exists q, r. split; [exact Hin|]. apply is_suffixb_spec, Hs.
  - intros [->|(q & r & Hin & Hs)]; [left; reflexivity|].
    right. exists (q, r). split; [exact Hin|]. apply is_suffixb_spec, Hs.
Qed.

Lemma exists_nodeb_false z p : exists_nodeb z p = false <-> ~ exists_node z p.
Proof.
  rewrite <- exists_nodeb_spec. symmetry. apply not_true_iff_false.
Qed.

(* existence is closed under taking ancestors *)
Lemma exists_node_anc z p' p : is_suffix p' p -> exists_node z p -> exists_node z p'.
Proof.
  intros Hs [->|(q & r & Hin & Hq)].
  - left. apply is_suffix_of_nil, Hs.
  - right. exists q, r. split; [exact Hin|]. eapply is_suffix_trans; eassumption.
Qed.

Lemma In_recs_at l p t r : In r (recs_at l p t) <-> In (p, r) l /\ zr_type r = t.
Proof.
  unfold recs_at. rewrite in_map_iff. split.
  - intros ([q x] & Hx & Hin). cbn [snd] in Hx. subst x. apply filter_In in Hin as [Hin Hc].
    cbn [fst snd] in Hc. apply andb_true_iff in Hc as [Hq Ht]. apply lleqb_eq in Hq. apply N.eqb_eq in Ht.
    subst q. auto.
  - intros [Hin Ht]. exists (p, r). split; [reflexivity|]. apply filter_In. split; [exact Hin|].
    cbn [fst snd]. rewrite lleqb_refl, Ht, N.eqb_refl. reflexivity.
Qed.

Lemma of_type_all_at l p t : of_type t (all_at l p) = recs_at l p t.
Proof.
  unfold of_type, all_at, recs_at. induction l as [|[q r] l IH]; [reflexivity|].
  cbn [filter fst snd]. destruct (lleqb q p); cbn [andb map filter snd]; [|exact IH].
  destruct (zr_type r =? t); cbn [map snd]; rewrite IH; reflexivity.
Qed.

Lemma In_all_at l p r : In r (all_at l p) <-> In (p, r) l.
Proof.
  transitivity (In r (recs_at l p (zr_type r))); [|rewrite In_recs_at; tauto].
  rewrite <- of_type_all_at. unfold of_type. rewrite filter_In, N.eqb_refl. tauto.
Qed.

(* the ordinary (w = false) or the wildcard (w = true) records of a flat zone *)
Definition side (w : bool) (z : fzone) : list (path * zrec) := if w then f_wild z else f_norm z.

Lemma In_side_entries w z x : In x (side w z) -> In x (entries z).
Proof. intro H. unfold entries. apply in_or_app. destruct w; auto. Qed.

Lemma recs_at_exists z p t : recs_at (f_norm z) p t <> [] -> exists_node z p.
Proof.
  intro H. destruct (recs_at (f_norm z) p t) as [|r rs] eqn:E; [contradiction|].
  assert (Hin : In r (recs_at (f_norm z) p t)) by (rewrite E; left; reflexivity).
  apply In_recs_at in Hin as [Hin _]. right. exists p, r. split; [exact (In_side_entries false z _ Hin)|apply is_suffix_refl].
Qed.

Lemma recs_at_app a b p t : recs_at (a ++ b) p t = recs_at a p t ++ recs_at b p t.
Proof. unfold recs_at. rewrite filter_app, map_app. reflexivity. Qed.
Lemma all_at_app a b p : all_at (a ++ b) p = all_at a p ++ all_at b p.
Proof. unfold all_at. rewrite filter_app, map_app. reflexivity. Qed.

Lemma recs_at_add p r l q t :
  recs_at (add_rec p r l) q t
  = if lleqb p q && (zr_type r =? t) then push_new (recs_at l q t) r else recs_at l q t.
Proof.
  unfold add_rec, push_new.
  destruct (lleqb p q && (zr_type r =? t)) eqn:C.
  - apply andb_true_iff in C as [Hp Ht]. apply lleqb_eq in Hp. apply N.eqb_eq in Ht. subst q t.
    destruct (existsb (zrec_eqb r) (recs_at l p (zr_type r))); [reflexivity|].
    rewrite recs_at_app. unfold recs_at at 2. cbn [filter fst snd]. rewrite lleqb_refl, N.eqb_refl. reflexivity.
  - destruct (existsb (zrec_eqb r) (recs_at l p (zr_type r))); [reflexivity|].
    rewrite recs_at_app. unfold recs_at at 2. cbn [filter fst snd]. rewrite C. apply app_nil_r.
Qed.

Lemma In_add_rec x p r l : In x (add_rec p r l) <-> In x l \/ x = (p, r).
Proof.
  unfold add_rec. destruct (existsb (zrec_eqb r) (recs_at l p (zr_type r))) eqn:E.
  - split; [auto|]. intros [H| ->]; [exact H|]. apply existsb_zrec_In, In_recs_at in E. tauto.
  - rewrite in_app_iff. cbn [In]. split; [intros [H|[H|[]]]; auto | intros [H|H]; auto].
Qed.

Lemma In_entries_add x w p r z : In x (entries (fz_add w p r z)) <-> In x (entries z) \/ x = (p, r).
Proof.
  unfold entries, fz_add. destruct w; cbn [f_norm f_wild]; rewrite !in_app_iff, In_add_rec; tauto.
Qed.

Lemma exists_node_add w p r z q : exists_node (fz_add w p r z) q <-> exists_node z q \/ is_suffix q p.
Proof.
  unfold exists_node. split.
  - intros [->|(q' & r' & Hin & Hs)]; [left; left; reflexivity|].
    apply In_entries_add in Hin as [Hin|Heq].
    + left. right. exists q', r'. auto.
    + inversion Heq; subst. right. exact Hs.
  - intros [[->|(q' & r' & Hin & Hs)]|Hs]; [left; reflexivity| |].
    + right. exists q', r'. split; [|exact Hs]. apply In_entries_add. left. exact Hin.
    + right. exists p, r. split; [|exact Hs]. apply In_entries_add. right. reflexivity.
Qed.

Lemma has_wild_spec z p : has_wild z p = true <-> exists r, In (p, r) (f_wild z).
Proof.
  unfold has_wild. rewrite existsb_exists. split.
  - intros ([q r] & Hin & E). cbn [fst] in E. apply lleqb_eq in E. subst q. exists r. exact Hin.
  - intros [r Hin]. exists (p, r). split; [exact Hin|]. apply lleqb_refl.
Qed.

Lemma has_wild_add w p r z q :
  has_wild (fz_add w p r z) q = if w && lleqb p q then true else has_wild z q.
Proof.
  destruct w; cbn [andb fz_add]; [|reflexivity]. apply eq_true_iff_eq. rewrite has_wild_spec. cbn [f_wild].
  destruct (lleqb p q) eqn:E.
  - apply lleqb_eq in E. subst q. split; [reflexivity|]. intros _. exists r. apply In_add_rec. right. reflexivity.
  - rewrite has_wild_spec. split; intros [r' Hr]; exists r'; [|apply In_add_rec; left; exact Hr].
    apply In_add_rec in Hr as [Hr|Heq]; [exact Hr|]. inversion Heq; subst. rewrite lleqb_refl in E. discriminate.
Qed.

Lemma side_add w w' p r z :
  side w (fz_add w' p r z) = if Bool.eqb w' w then add_rec p r (side w z) else side w z.
Proof. destruct w', w; reflexivity. Qed.

Lemma recs_side_add w' w p r z q t :
  recs_at (side w' (fz_add w p r z)) q t
  = if Bool.eqb w w' && lleqb p q && (zr_type r =? t) then push_new (recs_at (side w' z) q t) r
    else recs_at (side w' z) q t.
Proof. rewrite side_add. destruct (Bool.eqb w w'); [apply recs_at_add|reflexivity]. Qed.

Lemma no_node_no_recs z p : ~ exists_node z p ->
  (forall t, recs_at (f_norm z) p t = []) /\ (forall t, recs_at (f_wild z) p t = []) /\ has_wild z p = false.
Proof.
  intro Hn. repeat split.
  - intro t. apply incl_l_nil. intros r Hin. exfalso. apply Hn.
    apply In_recs_at in Hin as [Hin _]. right. exists p, r. split; [exact (In_side_entries false z _ Hin)|apply is_suffix_refl].
  - intro t. apply incl_l_nil. intros r Hin. exfalso. apply Hn.
    apply In_recs_at in Hin as [Hin _]. right. exists p, r. split; [exact (In_side_entries true z _ Hin)|apply is_suffix_refl].
  - apply not_true_is_false. intro H. apply has_wild_spec in H as [r Hin]. apply Hn.
    right. exists p, r. split; [exact (In_side_entries true z _ Hin)|apply is_suffix_refl].
Qed.

Lemma wf_labels_suffix a b : wf_labels (a ++ b) -> b <> [] -> wf_labels b.
Proof.
  intros (front & Heq & Hf & Hs) Hb.
  destruct (exists_last Hb) as (b' & x & ->).
  rewrite app_assoc in Heq. apply app_inj_tail in Heq as [Hfront ->].
  exists b'. split; [reflexivity|]. split.
  - rewrite <- Hfront in Hf. apply Forall_app in Hf. tauto.
  - rewrite sum_lens_app in Hs. lia.
Qed.

Lemma from_labels_mkname ls : wf_labels ls -> from_labels ls = Some (mkname ls).
Proof.
  intro Hw. destruct (wf_labels_from_labels ls Hw) as [n Hn]. rewrite Hn. f_equal.
  apply from_labels_inv in Hn as (Hl & Hlen & _). destruct n as [l k]. cbn [labels nlen] in *. subst. reflexivity.
Qed.

Lemma rev_prefix {A} (a b : list A) : is_suffix (rev a) (rev b) -> exists c, b = a ++ c.
Proof.
  intros [pre H]. exists (rev pre). rewrite <- (rev_involutive b), H, rev_app_distr, rev_involutive. reflexivity.
Qed.

Lemma is_suffix_rev_app {A} (a c : list A) : is_suffix (rev a) (rev (a ++ c)).
Proof. rewrite rev_app_distr. apply is_suffix_app. Qed.
Lemma is_suffix_rev_snoc {A} (pre : list A) l rq : is_suffix (rev (pre ++ [l])) (rev (pre ++ l :: rq)).
Proof. rewrite (app_assoc pre [l] rq : pre ++ l :: rq = _). apply is_suffix_rev_app. Qed.

Lemma diverge_not_suffix {A} (pre : list A) l l' x y :
  l' <> l -> ~ is_suffix (rev (pre ++ l' :: x)) (rev (pre ++ l :: y)).
Proof.
  intros Hne H. apply rev_prefix in H as [c H]. rewrite <- app_assoc in H. apply app_inv_head in H.
  cbn [app] in H. inversion H. congruence.
Qed.

Lemma longer_not_suffix {A} (pre : list A) l x : ~ is_suffix (rev (pre ++ l :: x)) (rev pre).
Proof.
  intro H. apply is_suffix_length in H. rewrite !rev_length, app_length in H. cbn [length] in H. lia.
Qed.

Fixpoint node_at (rq : list label) (nd : node) : option node :=
  match rq with
  | [] => Some nd
  | l :: rest => match alookup leqb l (n_children nd) with
                 | Some c => node_at rest c
                 | None => None
                 end
  end.

Definition wmap (n : node) : rmap := match n_wild n with Some w => w | None => [] end.
Definition is_some {A} (o : option A) : bool := match o with Some _ => true | None => false end.

(* the node reached by the (reversed) path rq holds the flat zone's records at rq *)
Record node_ok (apexl : list label) (z : fzone) (rq : list label) (n : node) : Prop := {
  ok_nsd : n_nsdname n = mkname (rev rq ++ apexl);
  ok_this_wf : wf_rmap (n_this n);
  ok_this : forall t, rget t (n_this n) = recs_at (f_norm z) (rev rq) t;
  ok_wild_wf : wf_rmap (wmap n);
  ok_wild : forall t, rget t (wmap n) = recs_at (f_wild z) (rev rq) t;
  ok_has_wild : is_some (n_wild n) = has_wild z (rev rq) }.

Definition entry (apexl pre : list label) (z : fzone) (rq : list label) (o : option node) : Prop :=
  match o with
  | Some n => (rq <> [] -> exists_node z (rev (pre ++ rq))) /\ node_ok apexl z (pre ++ rq) n
  | None => ~ exists_node z (rev (pre ++ rq))
  end.

(* [nd] is the subtree at path [pre] of a tree representing [z] *)
Definition Rsub (apexl pre : list label) (nd : node) (z : fzone) : Prop :=
  forall rq, entry apexl pre z rq (node_at rq nd).
Definition R (apexl : list label) (nd : node) (z : fzone) : Prop := Rsub apexl [] nd z.

Lemma node_ok_add_other apexl z rq n w p r :
  rev rq <> p -> node_ok apexl z rq n -> node_ok apexl (fz_add w p r z) rq n.
Proof.
  intros Hne [A B C D E F].
  assert (Hl : lleqb p (rev rq) = false) by (apply lleqb_false; congruence).
  constructor; try assumption.
  - intro t. rewrite (recs_side_add false), Hl, andb_false_r. apply C.
  - intro t. rewrite (recs_side_add true), Hl, andb_false_r. apply E.
  - rewrite has_wild_add, Hl, andb_false_r. exact F.
Qed.

Lemma entry_transfer apexl pre z rq o w p r :
  entry apexl pre z rq o ->
  (is_some o = true -> rev (pre ++ rq) <> p) ->
  (o = None -> ~ is_suffix (rev (pre ++ rq)) p) ->
  entry apexl pre (fz_add w p r z) rq o.
Proof.
  destruct o as [n|]; cbn [entry is_some]; intros H Hs Hn.
  - destruct H as [Hex Hok]. split.
    + intro Hrq. apply exists_node_add. left. exact (Hex Hrq).
    + apply node_ok_add_other; [apply Hs; reflexivity|exact Hok].
  - intro Hex. apply exists_node_add in Hex as [Hex|Hex]; [exact (H Hex)|exact (Hn eq_refl Hex)].
Qed.

Lemma entry_shift apexl pre z l rq o :
  entry apexl (pre ++ [l]) z rq o -> exists_node z (rev (pre ++ [l])) -> entry apexl pre z (l :: rq) o.
Proof.
  unfold entry. rewrite <- app_assoc. cbn [app]. destruct o as [n|]; [|auto].
  intros [Hex Hok] Hl. split; [|exact Hok]. intros _.
  destruct rq as [|x rq]; [exact Hl|]. apply Hex. discriminate.
Qed.

Lemma Rsub_child apexl pre nd z l c :
  Rsub apexl pre nd z -> alookup leqb l (n_children nd) = Some c -> Rsub apexl (pre ++ [l]) c z.
Proof.
  intros H Hl rq. specialize (H (l :: rq)). cbn [node_at] in H. rewrite Hl in H.
  unfold entry in *. rewrite <- app_assoc. cbn [app].
  destruct (node_at rq c) as [n|]; [|exact H]. destruct H as [Hex Hok]. split; [|exact Hok].
  intros _. apply Hex. discriminate.
Qed.

Lemma Rsub_fresh apexl pre z :
  ~ exists_node z (rev pre) -> Rsub apexl pre (node_new (mkname (rev pre ++ apexl))) z.
Proof.
  intros Hn [|l rq]; cbn [node_at node_new n_children alookup entry].
  - rewrite app_nil_r. split; [intro H; contradiction|].
    destruct (no_node_no_recs z (rev pre) Hn) as (Hnorm & Hwild & Hhas).
    constructor; cbn [n_nsdname n_this n_wild wmap is_some]; auto using wf_rmap_nil.
  - intro Hex. apply Hn. eapply exists_node_anc; [|exact Hex]. apply is_suffix_rev_app.
Qed.

(* Zone::new *)
Lemma R_zone_new apex s : nlen apex = sum_lens (labels apex) ->
  R (labels apex) (z_records (zone_new apex s)) (fz_init s).
Proof.
  intros Hlen rq. destruct apex as [al an]. cbn [labels nlen] in *. subst an.
  destruct rq as [|l rq].
  - cbn [node_at entry app rev]. split; [intro H; contradiction|].
    destruct s as [so|]; cbn [zone_new z_records fz_init].
    + constructor; cbn [n_nsdname n_this n_wild wmap is_some f_norm f_wild rev app]; try reflexivity;
        try apply wf_rmap_nil.
      * apply (wf_rmap_insert [] _ wf_rmap_nil).
      * intro t. rewrite rget_insert. unfold recs_at, fz_init, soa_zrec, rget, push_new.
        cbn [f_norm filter fst snd lleqb zr_type alookup existsb andb map app].
        destruct (RT_SOA =? t); reflexivity.
    + constructor; cbn [node_new n_nsdname n_this n_wild wmap is_some f_norm f_wild rev app]; try reflexivity;
        apply wf_rmap_nil.
  - cbn [app]. assert (Hnone : node_at (l :: rq) (z_records (zone_new {| labels := al; nlen := sum_lens al |} s)) = None).
    { destruct s; reflexivity. }
    rewrite Hnone. cbn [entry]. intros [H|(q & r & Hin & Hs)].
    + cbn [rev] in H. apply app_eq_nil in H as [_ H]. discriminate.
    + destruct s as [so|]; cbn [fz_init entries f_norm f_wild app In] in Hin; [|contradiction].
      destruct Hin as [Hin|[]]. inversion Hin; subst. apply is_suffix_of_nil in Hs.
      cbn [rev] in Hs. apply app_eq_nil in Hs as [_ Hs]. discriminate.
Qed.

Lemma insert_step apexl pre nd z w r l rest child' children' :
  Rsub apexl pre nd z ->
  Rsub apexl (pre ++ [l]) child' (fz_add w (rev (pre ++ l :: rest)) r z) ->
  alookup leqb l children' = Some child' ->
  (forall l', l' <> l -> alookup leqb l' children' = alookup leqb l' (n_children nd)) ->
  Rsub apexl pre (Node (n_nsdname nd) (n_this nd) (n_wild nd) children') (fz_add w (rev (pre ++ l :: rest)) r z).
Proof.
  intros H Hc Hl Hother rq. destruct rq as [|l' rq].
  - cbn [node_at]. specialize (H []). cbn [node_at] in H.
    destruct H as [_ Hok]. split; [intro F; contradiction|].
    apply node_ok_add_other.
    + rewrite app_nil_r. intro E. apply (f_equal (@length _)) in E.
      rewrite !rev_length, app_length in E. cbn [length] in E. lia.
    + destruct Hok as [A B C D E F]. constructor; assumption.
  - cbn [node_at n_children]. destruct (list_eq_dec N.eq_dec l' l) as [->|Hne].
    + rewrite Hl. apply entry_shift; [apply Hc|].
      apply exists_node_add. right.
      apply is_suffix_rev_snoc.
    + rewrite (Hother l' Hne). specialize (H (l' :: rq)). cbn [node_at] in H.
      apply entry_transfer; [exact H| |].
      * intros _ E. apply (diverge_not_suffix pre l l' rq rest Hne). rewrite E. apply is_suffix_refl.
      * intros _. apply diverge_not_suffix. exact Hne.
Qed.

Lemma insert_Rsub apexl w r z : forall rp pre nd,
  Rsub apexl pre nd z -> wf_labels (rev (pre ++ rp) ++ apexl) ->
  exists nd', node_insert w rp r nd = Ok nd' /\ Rsub apexl pre nd' (fz_add w (rev (pre ++ rp)) r z).
Proof.
  induction rp as [|l rest IH]; intros pre nd H Hwf.
  - rewrite app_nil_r. cbn [node_insert].
    pose proof (H []) as H0. cbn [node_at entry] in H0. destruct H0 as [_ [A B C D E F]].
    rewrite app_nil_r in *.
    assert (Hrest : forall l rq o, o = node_at (l :: rq) nd -> entry apexl pre (fz_add w (rev pre) r z) (l :: rq) o).
    { intros l rq o ->. apply entry_transfer; [apply H| |]; intros _.
      - intro E'. apply (longer_not_suffix pre l rq). rewrite E'. apply is_suffix_refl.
      - apply longer_not_suffix. }
    destruct w; (eexists; split; [reflexivity|]); unfold Rsub; (intros [|l rq]; [|apply Hrest; reflexivity]).
    all: cbn [node_at entry]; rewrite app_nil_r.
    all: split; [intro X; contradiction|].
    all: constructor; cbn [n_nsdname n_this n_wild wmap is_some]; try assumption.
    + apply wf_rmap_insert. exact D.
    + intro t. rewrite rget_insert, (recs_side_add true), lleqb_refl. cbn [andb Bool.eqb]. fold (wmap nd). rewrite E. reflexivity.
    + rewrite has_wild_add, lleqb_refl. reflexivity.
    + apply wf_rmap_insert. exact B.
    + intro t. rewrite rget_insert, (recs_side_add false), lleqb_refl. cbn [andb Bool.eqb]. rewrite C. reflexivity.
  - pose proof (H []) as H0. cbn [node_at entry] in H0. destruct H0 as [_ Hok0].
    pose proof (ok_nsd _ _ _ _ Hok0) as Hnsd. rewrite app_nil_r in Hnsd.
    assert (Hsub : wf_labels (rev (pre ++ [l]) ++ apexl)).
    { replace (pre ++ l :: rest) with ((pre ++ [l]) ++ rest) in Hwf by (rewrite <- app_assoc; reflexivity).
      rewrite rev_app_distr, <- app_assoc in Hwf. apply wf_labels_suffix in Hwf; [exact Hwf|].
      rewrite rev_app_distr. discriminate. }
    assert (Hgo : forall c, Rsub apexl (pre ++ [l]) c z -> exists c', node_insert w rest r c = Ok c' /\
              Rsub apexl (pre ++ [l]) c' (fz_add w (rev (pre ++ l :: rest)) r z)).
    { intros c Hc. rewrite (app_assoc pre [l] rest : pre ++ l :: rest = _) in Hwf |- *. apply IH; assumption. }
    cbn [node_insert]. destruct (alookup leqb l (n_children nd)) as [child|] eqn:El.
    + destruct (Hgo _ (Rsub_child _ _ _ _ _ _ H El)) as (child' & Hins & HR').
      rewrite Hins. cbn [bind]. eexists. split; [reflexivity|].
      apply insert_step with (child' := child'); [exact H|exact HR'| |].
      * eapply (alookup_areplace_same leqb); exact El.
      * intros l' Hne. apply (alookup_areplace_other leqb leqb_eq). exact Hne.
    + assert (Hfl : from_labels (l :: labels (n_nsdname nd)) = Some (mkname (rev (pre ++ [l]) ++ apexl))).
      { rewrite Hnsd. cbn [mkname labels]. rewrite <- (from_labels_mkname _ Hsub).
        rewrite rev_app_distr. reflexivity. }
      rewrite Hfl.
      assert (Hno : ~ exists_node z (rev (pre ++ [l]))).
      { specialize (H [l]). cbn [node_at] in H. rewrite El in H. exact H. }
      destruct (Hgo _ (Rsub_fresh apexl (pre ++ [l]) z Hno)) as (child' & Hins & HR').
      rewrite Hins. cbn [bind]. eexists. split; [reflexivity|].
      apply insert_step with (child' := child'); [exact H|exact HR'| |].
      * apply (alookup_app_new leqb leqb_eq). exact El.
      * intros l' Hne. apply (alookup_app_other leqb leqb_eq). exact Hne.
Qed.

Definition cname_ok (rs : list zrec) : Prop :=
  forall r, In r rs -> zr_type r = RT_CNAME -> exists c, zr_data r = RD_Name c.

Lemma zres_equiv_refl r : zres_equiv r r.
Proof. destruct r; cbn [zres_equiv]; auto. Qed.

Lemma filter_true {A} (l : list A) : filter (fun _ => true) l = l.
Proof. induction l as [|x l IH]; cbn [filter]; [reflexivity|]. rewrite IH. reflexivity. Qed.
Lemma filter_false {A} (l : list A) : filter (fun _ => false) l = [].
Proof. induction l as [|x l IH]; cbn [filter]; [reflexivity|exact IH]. Qed.
Lemma filter_comm {A} (f g : A -> bool) l : filter f (filter g l) = filter g (filter f l).
Proof.
  induction l as [|x l IH]; cbn [filter]; [reflexivity|].
  destruct (f x) eqn:Ef, (g x) eqn:Eg; cbn [filter]; rewrite ?Ef, ?Eg, IH; reflexivity.
Qed.

Lemma helper_deleg name qt m nsd cd :
  zone_result_helper name qt m nsd cd
  = if cd && negb (is_nil (rget RT_NS m)) && negb (qt =? RT_NS)
    then Ok (ZDelegation (map (fun z => zr_to_rr z nsd) (rget RT_NS m)))
    else zone_result_helper name qt m nsd false.
Proof.
  unfold zone_result_helper. fold (rget RT_NS m).
  destruct cd; cbn [andb]; [|reflexivity].
  destruct (qt =? RT_NS), (is_nil (rget RT_NS m)); reflexivity.
Qed.

Lemma In_flat_rget r m : wf_rmap m -> In r (flat_map snd m) <-> In r (rget (zr_type r) m).
Proof.
  intro Hwf. rewrite <- (of_type_flat _ _ Hwf). unfold of_type. rewrite filter_In, N.eqb_refl. tauto.
Qed.

Lemma helper_classify name qt m nsd : wf_rmap m -> cname_ok (flat_map snd m) ->
  zone_result_helper name qt m nsd false = Ok (classify name qt (flat_map snd m)).
Proof.
  intros Hwf Hcn. unfold zone_result_helper, classify. cbn [andb].
  fold (rget RT_CNAME m). rewrite (of_type_flat RT_CNAME m Hwf).
  destruct (rtype_matches RT_CNAME qt); cbn [negb]; [|destruct (rget RT_CNAME m) as [|r rs] eqn:Ec].
  3: { assert (Hin : In r (rget RT_CNAME m)) by (rewrite Ec; left; reflexivity).
       destruct (wf_rmap_get RT_CNAME m Hwf) as [Hty _]. rewrite Forall_forall in Hty. pose proof (Hty r Hin) as Ht.
       destruct (Hcn r) as [c Hc]; [apply In_flat_rget; [exact Hwf|rewrite Ht; exact Hin]|exact Ht|].
       rewrite Hc. reflexivity. }
  (* no CNAME to return: the answer is the same in both cases *)
  all: unfold rtype_matches; destruct (qt =? QT_Wildcard); [rewrite flat_map_map_snd, filter_true; reflexivity|].
  all: destruct (existsb (fun p => fst p =? qt) qtype_table); [rewrite filter_false; reflexivity|].
  all: cbv beta iota; change (filter (fun r => zr_type r =? qt) (flat_map snd m)) with (of_type qt (flat_map snd m)).
  all: rewrite (of_type_flat qt m Hwf); unfold rget; destruct (alookup N.eqb qt m); reflexivity.
Qed.

Lemma filter_map_type name t l :
  filter (fun x => rr_type x =? t) (map (fun r => zr_to_rr r name) l) = map (fun r => zr_to_rr r name) (of_type t l).
Proof.
  unfold of_type. induction l as [|r l IH]; cbn [map filter zr_to_rr rr_type]; [reflexivity|].
  destruct (zr_type r =? t); cbn [map]; rewrite IH; reflexivity.
Qed.

(* agreement of the tree's result with the specification's: equal, up to the order of the type
   groups in an ANY answer *)
Definition agrees (qt : N) (r f : zresult) : Prop := zres_equiv r f /\ (qt <> QT_Wildcard -> r = f).

Lemma agrees_refl qt r : agrees qt r r.
Proof. split; [apply zres_equiv_refl|reflexivity]. Qed.

Lemma classify_equiv name qt rs rs' : (forall t, of_type t rs = of_type t rs') ->
  agrees qt (classify name qt rs) (classify name qt rs').
Proof.
  intro H. unfold classify. rewrite (H RT_CNAME).
  destruct (if rtype_matches RT_CNAME qt then [] else of_type RT_CNAME rs') as [|r l].
  - split.
    + cbn [zres_equiv]. intro t. rewrite !filter_map_type. f_equal.
      unfold of_type. rewrite (filter_comm _ _ rs), (filter_comm _ _ rs'). f_equal. apply H.
    + intro Hq. do 2 f_equal. unfold rtype_matches.
      destruct (N.eqb_spec qt QT_Wildcard) as [->|_]; [contradiction|].
      destruct (existsb (fun p => fst p =? qt) qtype_table); [rewrite !filter_false; reflexivity|].
      apply H.
  - apply agrees_refl.
Qed.

(* ZoneRecords::resolve descends to the deepest node on the path and decides there *)
Lemma resolve_descend name qt : forall rp nd fl,
  exists pre rem n, rp = pre ++ rem /\ node_at pre nd = Some n /\
    match rem with [] => True | l :: _ => alookup leqb l (n_children n) = None end /\
    node_resolve name qt rp nd fl = node_resolve name qt rem n (fl && is_nil pre).
Proof.
  induction rp as [|l rest IH]; intros nd fl.
  - exists [], [], nd. cbn [app node_at is_nil]. rewrite andb_true_r. auto.
  - destruct (alookup leqb l (n_children nd)) as [c|] eqn:El.
    + destruct (IH c false) as (pre & rem & n & -> & Hat & Hrem & Hres).
      exists (l :: pre), rem, n. cbn [app node_at node_resolve is_nil]. rewrite El, andb_false_r. cbn [andb] in Hres. auto.
    + exists [], (l :: rest), nd. cbn [app node_at is_nil]. rewrite andb_true_r. auto.
Qed.

Lemma node_at_app pre : forall rq nd,
  node_at (pre ++ rq) nd = match node_at pre nd with Some n => node_at rq n | None => None end.
Proof.
  induction pre as [|l pre IH]; intros rq nd; cbn [app node_at]; [reflexivity|].
  destruct (alookup leqb l (n_children nd)); [apply IH|reflexivity].
Qed.

Definition recs_ok (z : fzone) : Prop :=
  forall q r, In (q, r) (entries z) -> zr_type r = RT_CNAME -> exists c, zr_data r = RD_Name c.

Lemma In_ancestors c p : In c (ancestors p) <-> c <> [] /\ is_suffix c p.
Proof.
  induction p as [|x t IH]; cbn [ancestors In].
  - split; [intros []|]. intros [Hc Hs]. apply is_suffix_of_nil in Hs. contradiction.
  - rewrite in_app_iff, IH. cbn [In]. split.
    + intros [[Hc Hs]|[<-|[]]]; [split; [exact Hc|apply is_suffix_cons, Hs]|split; [discriminate|apply is_suffix_refl]].
    + intros [Hc Hs]. apply is_suffix_cons_inv in Hs as [->|Hs]; auto.
Qed.

Lemma ancestors_app a b : ancestors (a ++ b) = ancestors b ++ map (fun x => x ++ b) (ancestors a).
Proof.
  induction a as [|x a IH]; cbn [app ancestors map]; [symmetry; apply app_nil_r|].
  rewrite IH, map_app, <- app_assoc. reflexivity.
Qed.

Lemma find_none_all {A} (f : A -> bool) l : (forall x, In x l -> f x = false) -> find f l = None.
Proof.
  induction l as [|x l IH]; intro H; cbn [find]; [reflexivity|].
  rewrite (H x (or_introl eq_refl)). apply IH. intros y Hy. apply H. right. exact Hy.
Qed.

Lemma find_app {A} (f : A -> bool) a b :
  find f (a ++ b) = match find f a with Some x => Some x | None => find f b end.
Proof.
  induction a as [|x a IH]; cbn [app find]; [reflexivity|]. destruct (f x); [reflexivity|exact IH].
Qed.

Lemma find_at_e (f : path -> bool) e more :
  (forall c, In c (ancestors e) -> c <> e -> f c = false) ->
  (forall c, In c more -> f c = false) ->
  find f (ancestors e ++ more) = if negb (is_nil e) && f e then Some e else None.
Proof.
  intros Ha Hm. destruct e as [|a t]; cbn [ancestors is_nil negb andb app].
  - apply find_none_all. exact Hm.
  - rewrite <- app_assoc, find_app, find_none_all.
    + cbn [app find]. destruct (f (a :: t)); [reflexivity|]. apply find_none_all. exact Hm.
    + intros c Hc. apply Ha.
      * cbn [ancestors]. apply in_or_app. left. exact Hc.
      * intros ->. apply In_ancestors in Hc as [_ Hs]. apply is_suffix_length in Hs. cbn [length] in Hs. lia.
Qed.

Lemma suffix_snoc {A} (c x : list A) l : c <> [] -> is_suffix c (x ++ [l]) -> exists c', c = c' ++ [l].
Proof.
  intros Hc [pre H]. destruct (exists_last Hc) as (c' & y & ->).
  rewrite app_assoc in H. apply app_inj_tail in H as [_ ->]. exists c'. reflexivity.
Qed.

Lemma wild_source_spec z l e : exists_node z e -> ~ exists_node z (l :: e) ->
  forall x, wild_source z (x ++ l :: e) = Some (l, e).
Proof.
  intros He Hn. induction x as [|a x IH]; cbn [app wild_source].
  - apply exists_nodeb_spec in He. rewrite He. reflexivity.
  - assert (Hx : exists_nodeb z (x ++ l :: e) = false).
    { apply exists_nodeb_false. intro H. apply Hn. eapply exists_node_anc; [|exact H]. apply is_suffix_app. }
    rewrite Hx. exact IH.
Qed.

(* D1: nothing at a proper ancestor of an existing name holds NS *)
Lemma no_ns_above z e c :
  no_occlusion z -> exists_node z e -> c <> [] -> is_suffix c e -> c <> e -> recs_at (f_norm z) c RT_NS = [].
Proof.
  intros Hd He Hc Hs Hne. apply incl_l_nil. intros r Hin. exfalso.
  apply In_recs_at in Hin as [Hin Ht]. destruct (Hd c r Hc Hin Ht) as [Hnorm Hwild].
  destruct He as [->|(q & r' & Hq & Hsq)]; [apply is_suffix_of_nil in Hs; contradiction|].
  assert (Hcq : is_suffix c q) by (eapply is_suffix_trans; eassumption).
  unfold entries in Hq. apply in_app_or in Hq as [Hq|Hq].
  - pose proof (Hnorm q r' Hq Hcq) as ->. apply Hne. apply is_suffix_antisym; assumption.
  - exact (Hwild q r' Hq Hcq).
Qed.

(* D1: a non-apex name with a wildcard below it holds no NS *)
Lemma no_ns_with_wild z e :
  no_occlusion z -> e <> [] -> has_wild z e = true -> recs_at (f_norm z) e RT_NS = [].
Proof.
  intros Hd He Hw. apply incl_l_nil. intros r Hin. exfalso.
  apply In_recs_at in Hin as [Hin Ht]. destruct (Hd e r He Hin Ht) as [_ Hwild].
  apply has_wild_spec in Hw as [r' Hr']. exact (Hwild e r' Hr' (is_suffix_refl e)).
Qed.

Lemma is_cut_no_ns z p qt c : recs_at (f_norm z) c RT_NS = [] -> is_cut z p qt c = false.
Proof. intro H. unfold is_cut. rewrite H. reflexivity. Qed.

Lemma self_app_ne {A} (e x : list A) l : e <> x ++ l :: e.
Proof. intro E. apply (f_equal (@length A)) in E. rewrite app_length in E. cbn [length] in E. lia. Qed.

Definition deleg (owner : list label) (ns : list zrec) : zresult :=
  ZDelegation (map (fun r => zr_to_rr r (mkname owner)) ns).

(* the result at an existing name e *)
Definition at_existing (apexl : list label) (z : fzone) (name : dname) (e : path) (qt : N) : zresult :=
  if negb (is_nil e) && (negb (is_nil (recs_at (f_norm z) e RT_NS)) && negb (qt =? RT_NS))
  then deleg (e ++ apexl) (recs_at (f_norm z) e RT_NS)
  else classify name qt (all_at (f_norm z) e).

(* the result at a missing name whose closest existing ancestor is e, the next label being l *)
Definition below_existing (apexl : list label) (z : fzone) (name : dname) (e : path) (l : label) (qt : N) : zresult :=
  if negb (is_nil e) && negb (is_nil (recs_at (f_norm z) e RT_NS))
  then deleg (e ++ apexl) (recs_at (f_norm z) e RT_NS)
  else if has_wild z e
       then if negb (is_nil (of_type RT_NS (all_at (f_wild z) e))) && negb (qt =? RT_NS)
            then deleg (l :: e ++ apexl) (of_type RT_NS (all_at (f_wild z) e))
            else classify name qt (all_at (f_wild z) e)
       else ZNameError.

Lemma flat_exists apexl z name e qt :
  no_occlusion z -> exists_node z e -> flat_resolve apexl z name e qt = at_existing apexl z name e qt.
Proof.
  intros Hd He. unfold flat_resolve, at_existing, deleg.
  rewrite <- (app_nil_r (ancestors e)), find_at_e.
  - unfold is_cut. rewrite lleqb_refl. cbn [andb]. apply exists_nodeb_spec in He. rewrite He.
    destruct (negb (is_nil e) && (negb (is_nil (recs_at (f_norm z) e RT_NS)) && negb (qt =? RT_NS))); reflexivity.
  - intros c Hc Hne. apply In_ancestors in Hc as [Hc Hs]. apply is_cut_no_ns. eapply no_ns_above; eassumption.
  - intros c [].
Qed.

Lemma flat_missing apexl z name e l x qt :
  no_occlusion z -> exists_node z e -> ~ exists_node z (l :: e) ->
  flat_resolve apexl z name (x ++ l :: e) qt = below_existing apexl z name e l qt.
Proof.
  intros Hd He Hn. unfold flat_resolve, below_existing, deleg.
  assert (Hbelow : forall y, ~ exists_node z (y ++ l :: e)).
  { intros y H. apply Hn. eapply exists_node_anc; [|exact H]. apply is_suffix_app. }
  replace (x ++ l :: e) with ((x ++ [l]) ++ e) at 2 by (rewrite <- app_assoc; reflexivity).
  rewrite ancestors_app, find_at_e.
  - assert (Hne : lleqb e (x ++ l :: e) = false).
    { apply lleqb_false. apply self_app_ne. }
    unfold is_cut at 1. rewrite Hne. cbn [andb negb]. rewrite andb_true_r.
    destruct (negb (is_nil e) && negb (is_nil (recs_at (f_norm z) e RT_NS))); [reflexivity|].
    assert (Hx : exists_nodeb z (x ++ l :: e) = false) by (apply exists_nodeb_false, Hbelow).
    rewrite Hx, (wild_source_spec z l e He Hn x). reflexivity.
  - intros c Hc Hne. apply In_ancestors in Hc as [Hc Hs]. apply is_cut_no_ns. eapply no_ns_above; eassumption.
  - intros c Hc. apply in_map_iff in Hc as (c0 & <- & Hc0). apply In_ancestors in Hc0 as [Hc0 Hs].
    destruct (suffix_snoc c0 x l Hc0 Hs) as [c' ->]. rewrite <- app_assoc. cbn [app].
    apply is_cut_no_ns. apply (no_node_no_recs z _ (Hbelow c')).
Qed.

Lemma is_nil_rev {A} (l : list A) : is_nil (rev l) = is_nil l.
Proof.
  destruct l as [|x l]; [reflexivity|]. cbn [rev is_nil]. destruct (rev l ++ [x]) eqn:E; [|reflexivity].
  apply app_eq_nil in E as [_ E]. discriminate.
Qed.

(* zone_result_helper on the ordinary (w = false) or wildcard (w = true) record map of a node *)
Definition nside (w : bool) (n : node) : rmap := if w then wmap n else n_this n.

Lemma node_ok_side apexl z rq n w : node_ok apexl z rq n ->
  wf_rmap (nside w n) /\ forall t, rget t (nside w n) = recs_at (side w z) (rev rq) t.
Proof. intros [A B C D E F]. destruct w; split; assumption. Qed.

Lemma helper_node apexl z rq n w name qt nsd cd :
  node_ok apexl z rq n -> recs_ok z ->
  exists r, zone_result_helper name qt (nside w n) nsd cd = Ok r /\
    agrees qt r (if cd && negb (is_nil (recs_at (side w z) (rev rq) RT_NS)) && negb (qt =? RT_NS)
                 then ZDelegation (map (fun x => zr_to_rr x nsd) (recs_at (side w z) (rev rq) RT_NS))
                 else classify name qt (all_at (side w z) (rev rq))).
Proof.
  intros Hok Hz. destruct (node_ok_side _ _ _ _ w Hok) as [Hwf Hget]. rewrite helper_deleg, Hget.
  destruct (cd && _ && _); [eexists; split; [reflexivity|apply agrees_refl]|].
  rewrite helper_classify; [eexists; split; [reflexivity|]|exact Hwf|].
  - apply classify_equiv. intro t. rewrite (of_type_flat _ _ Hwf), of_type_all_at. apply Hget.
  - intros r Hin Ht. apply (In_flat_rget _ _ Hwf) in Hin. rewrite Hget in Hin. apply In_recs_at in Hin as [Hin _].
    exact (Hz (rev rq) r (In_side_entries w z _ Hin) Ht).
Qed.

Lemma tree_exists apexl z name pre n qt :
  node_ok apexl z pre n -> recs_ok z ->
  exists r, node_resolve name qt [] n (is_nil pre) = Ok r /\ agrees qt r (at_existing apexl z name (rev pre) qt).
Proof.
  intros Hok Hz. cbn [node_resolve].
  destruct (helper_node apexl z pre n false name qt (n_nsdname n) (negb (is_nil pre)) Hok Hz) as (r & Hr & Hag).
  exists r. split; [exact Hr|]. unfold at_existing, deleg. rewrite is_nil_rev, andb_assoc, <- (ok_nsd _ _ _ _ Hok). exact Hag.
Qed.

Lemma tree_missing apexl z name pre n (l : label) rem qt :
  node_ok apexl z pre n -> recs_ok z -> alookup leqb l (n_children n) = None -> wf_labels (l :: rev pre ++ apexl) ->
  exists r, node_resolve name qt (l :: rem) n (is_nil pre) = Ok r /\
    (no_occlusion z -> agrees qt r (below_existing apexl z name (rev pre) l qt)).
Proof.
  intros Hok Hz Hno Hwf. unfold below_existing. cbn [node_resolve]. rewrite Hno.
  pose proof (ok_has_wild _ _ _ _ Hok) as Hhw. pose proof (ok_nsd _ _ _ _ Hok) as Hnsd.
  destruct (n_wild n) as [ws|] eqn:Ew; cbn [is_some] in Hhw; rewrite <- Hhw.
  - (* wildcards here: by D1 no NS here unless this is the apex *)
    assert (Hnons : no_occlusion z ->
                    negb (is_nil (rev pre)) && negb (is_nil (recs_at (f_norm z) (rev pre) RT_NS)) = false).
    { intro Hd. destruct (is_nil (rev pre)) eqn:En; [reflexivity|]. cbn [negb andb].
      rewrite (no_ns_with_wild z (rev pre) Hd); [reflexivity| |symmetry; exact Hhw].
      intro E. rewrite E in En. discriminate. }
    rewrite Hnsd. cbn [mkname labels]. rewrite (from_labels_mkname _ Hwf).
    assert (Hws : wmap n = ws) by (unfold wmap; rewrite Ew; reflexivity).
    destruct (helper_node apexl z pre n true name qt (mkname (l :: rev pre ++ apexl)) true Hok Hz) as (r & Hr & Hag).
    cbn [nside] in Hr. rewrite Hws in Hr. exists r. split; [exact Hr|]. intro Hd.
    rewrite (Hnons Hd), !of_type_all_at. exact Hag.
  - rewrite <- (ok_this _ _ _ _ Hok RT_NS), is_nil_rev. unfold rget.
    destruct (alookup N.eqb RT_NS (n_this n)) as [ns|]; cbn [is_nil negb andb].
    + rewrite andb_comm, <- negb_orb.
      destruct (is_nil ns || is_nil pre); cbn [negb].
      * eexists. split; [reflexivity|]. intros _. apply agrees_refl.
      * eexists. split; [reflexivity|]. rewrite Hnsd. intros _. apply agrees_refl.
    + rewrite andb_false_r. eexists. split; [reflexivity|]. intros _. apply agrees_refl.
Qed.

(* ZoneRecords::resolve never panics on names within the limits and, under D1, refines the flat
   lookup *)
Theorem resolve_R_total apexl nd z name qt rp :
  R apexl nd z -> recs_ok z -> wf_labels (rev rp ++ apexl) ->
  exists r, node_resolve name qt rp nd true = Ok r /\
            (no_occlusion z -> agrees qt r (flat_resolve apexl z name (rev rp) qt)).
Proof.
  intros HR Hz Hwf.
  destruct (resolve_descend name qt rp nd true) as (pre & rem & n & -> & Hat & Hrem & Hres).
  rewrite Hres. cbn [andb]. clear Hres.
  pose proof (HR pre) as Hpre. rewrite Hat in Hpre. cbn [entry app] in Hpre. destruct Hpre as [Hexpre Hok].
  assert (He : exists_node z (rev pre)).
  { destruct pre; [left; reflexivity | apply Hexpre; discriminate]. }
  destruct rem as [|l rem].
  - destruct (tree_exists apexl z name pre n qt Hok Hz) as (r & Hr & H).
    exists r. split; [exact Hr|]. intro Hd. rewrite app_nil_r, (flat_exists apexl z name (rev pre) qt Hd He). exact H.
  - rewrite rev_app_distr in Hwf |- *. cbn [rev] in Hwf |- *. rewrite <- !app_assoc in Hwf. rewrite <- app_assoc.
    cbn [app] in Hwf |- *. apply (wf_labels_suffix (rev rem)) in Hwf; [|discriminate].
    destruct (tree_missing apexl z name pre n l rem qt Hok Hz Hrem Hwf) as (r & Hr & H).
    exists r. split; [exact Hr|]. intro Hd.
    assert (Hn : ~ exists_node z (l :: rev pre)).
    { pose proof (HR (pre ++ [l])) as H'. rewrite node_at_app, Hat in H'. cbn [node_at] in H'. rewrite Hrem in H'. cbn [entry app] in H'.
      rewrite rev_app_distr in H'. exact H'. }
    rewrite (flat_missing apexl z name (rev pre) l (rev rem) qt Hd He Hn). exact (H Hd).
Qed.

Theorem resolve_R apexl nd z name qt rp :
  R apexl nd z -> no_occlusion z -> recs_ok z -> wf_labels (rev rp ++ apexl) ->
  exists r, node_resolve name qt rp nd true = Ok r /\
            zres_equiv r (flat_resolve apexl z name (rev rp) qt) /\
            (qt <> QT_Wildcard -> r = flat_resolve apexl z name (rev rp) qt).
Proof.
  intros HR Hd Hz Hwf. destruct (resolve_R_total apexl nd z name qt rp HR Hz Hwf) as (r & Hr & H).
  exists r. split; [exact Hr|exact (H Hd)].
Qed.

Theorem resolve_no_panic apexl nd z name qt rp :
  R apexl nd z -> recs_ok z -> wf_labels (rev rp ++ apexl) ->
  exists r, node_resolve name qt rp nd true = Ok r.
Proof.
  intros HR Hz Hwf. destruct (resolve_R_total apexl nd z name qt rp HR Hz Hwf) as (r & Hr & _). exists r. exact Hr.
Qed.

Definition wf_zrec (r : zrec) : Prop := shape_of_rdata (zr_data r) = shape_of_type (zr_type r).
Definition op_ok (o : zop) : Prop :=
  wf_name (op_name o) /\ shape_of_rdata (op_data o) = shape_of_type (op_type o).

Lemma relative_rp_rel z name :
  relative_rp z name = option_map (@rev label) (rel_path (labels (z_apex z)) name).
Proof.
  unfold relative_rp, rel_path, is_subdomain_of. destruct (ends_with (labels name) (labels (z_apex z))); reflexivity.
Qed.

Lemma rel_path_some apexl name p : rel_path apexl name = Some p -> labels name = p ++ apexl.
Proof.
  unfold rel_path, ends_with.
  destruct (Nat.leb (length apexl) (length (labels name))); [|discriminate].
  destruct (lleqb (skipn (length (labels name) - length apexl) (labels name)) apexl) eqn:E; [|discriminate].
  intro H; inversion H; subst. apply lleqb_eq in E. rewrite <- E at 2. symmetry. apply firstn_skipn.
Qed.

Lemma rel_path_intro apexl name p : labels name = p ++ apexl -> rel_path apexl name = Some p.
Proof.
  intro H. unfold rel_path, ends_with. rewrite H, app_length.
  replace (length p + length apexl - length apexl)%nat with (length p) by lia.
  assert (E : Nat.leb (length apexl) (length p + length apexl) = true) by (apply PeanoNat.Nat.leb_le; lia).
  rewrite E, skipn_app, skipn_all, PeanoNat.Nat.sub_diag. cbn [skipn app]. rewrite lleqb_refl.
  rewrite firstn_app, firstn_all, PeanoNat.Nat.sub_diag. cbn [firstn]. rewrite app_nil_r. reflexivity.
Qed.

Lemma zone_apply_R apex s z fz o :
  z_apex z = apex -> z_soa z = s -> R (labels apex) (z_records z) fz -> wf_name (op_name o) ->
  exists z', zone_apply z o = Ok z' /\ z_apex z' = apex /\ z_soa z' = s /\
             R (labels apex) (z_records z') (fz_apply (labels apex) s fz o).
Proof.
  intros Ha Hs HR Hwf. unfold zone_apply, zone_insert, fz_apply. rewrite relative_rp_rel, Ha.
  destruct (rel_path (labels apex) (op_name o)) as [p|] eqn:Ep; cbn [option_map].
  - pose proof (rel_path_some _ _ _ Ep) as Hl.
    destruct (insert_Rsub (labels apex) (op_wild o)
                {| zr_type := op_type o; zr_data := op_data o; zr_ttl := actual_ttl z (op_ttl o) |}
                fz (rev p) [] (z_records z) HR) as (nd' & Hins & HR').
    { cbn [app]. rewrite rev_involutive, <- Hl. apply Hwf. }
    rewrite Hins. cbn [bind]. eexists. split; [reflexivity|]. cbn [z_apex z_soa z_records].
    split; [reflexivity|]. split; [exact Hs|]. cbn [app] in HR'. rewrite rev_involutive in HR'.
    unfold op_zrec, clamp. unfold actual_ttl in HR'. rewrite Hs in HR'. exact HR'.
  - exists z. auto.
Qed.

Lemma zone_apply_all_app a : forall b z,
  zone_apply_all z (a ++ b) = let* z' := zone_apply_all z a in zone_apply_all z' b.
Proof.
  induction a as [|o t IH]; intros b z; cbn [app zone_apply_all bind]; [reflexivity|].
  destruct (zone_apply z o); cbn [bind]; auto.
Qed.

Lemma zone_apply_all_R apex s : forall ops z fz,
  z_apex z = apex -> z_soa z = s -> R (labels apex) (z_records z) fz ->
  Forall (fun o => wf_name (op_name o)) ops ->
  exists z', zone_apply_all z ops = Ok z' /\ z_apex z' = apex /\ z_soa z' = s /\
             R (labels apex) (z_records z') (fold_left (fz_apply (labels apex) s) ops fz).
Proof.
  induction ops as [|o ops IH]; intros z fz Ha Hs HR Hops; cbn [zone_apply_all fold_left].
  - exists z. auto.
  - apply Forall_cons_iff in Hops as [Ho Hops].
    destruct (zone_apply_R apex s z fz o Ha Hs HR Ho) as (z1 & E1 & Ha1 & Hs1 & HR1).
    rewrite E1. cbn [bind]. apply IH; assumption.
Qed.

(* building a zone never panics, and the tree represents exactly the inserted records *)
Theorem zone_build_R apex s ops :
  wf_name apex -> Forall (fun o => wf_name (op_name o)) ops ->
  exists z, zone_build apex s ops = Ok z /\ z_apex z = apex /\ z_soa z = s /\
            R (labels apex) (z_records z) (flat_of_ops apex s ops).
Proof.
  intros Hwf Hops. unfold zone_build, flat_of_ops. apply zone_apply_all_R; try assumption.
  - reflexivity.
  - reflexivity.
  - apply R_zone_new. apply Hwf.
Qed.

(* what flat_of_ops holds: exactly the SOA record and the inserted records that lie under the
   apex, TTL raised to the SOA minimum, nothing else changed *)
Definition from_ops (apexl : list label) (s : option soa) (ops : list zop) (w : bool) (q : path) (r : zrec) : Prop :=
  (w = false /\ q = [] /\ exists so, s = Some so /\ r = soa_zrec so) \/
  (exists o, In o ops /\ op_wild o = w /\ rel_path apexl (op_name o) = Some q /\ r = op_zrec s o).

Lemma In_side_apply apexl s fz o w x :
  In x (side w (fz_apply apexl s fz o)) <->
  In x (side w fz) \/ (op_wild o = w /\ exists p, rel_path apexl (op_name o) = Some p /\ x = (p, op_zrec s o)).
Proof.
  unfold fz_apply. destruct (rel_path apexl (op_name o)) as [p|].
  - rewrite side_add. destruct (Bool.eqb_spec (op_wild o) w) as [E|E].
    + rewrite In_add_rec. split; intros [H|H]; auto.
      * right. split; [exact E|]. exists p. auto.
      * destruct H as (_ & p' & Hp & ->). inversion Hp. right. reflexivity.
    + split; [auto|intros [H|[H _]]; [exact H|contradiction]].
  - split; [auto|intros [H|(_ & p & Hp & _)]; [exact H|discriminate]].
Qed.

Lemma In_side_fold apexl s w x : forall ops fz,
  In x (side w (fold_left (fz_apply apexl s) ops fz)) <->
  In x (side w fz) \/
  exists o p, In o ops /\ op_wild o = w /\ rel_path apexl (op_name o) = Some p /\ x = (p, op_zrec s o).
Proof.
  induction ops as [|o t IH]; intro fz; cbn [fold_left].
  - split; [auto|intros [H|(o & p & [] & _)]; exact H].
  - rewrite IH, In_side_apply. split.
    + intros [[H|(Hw & p & Hp & Hx)]|(o' & p & Hin & H)]; auto.
      * right. exists o, p. split; [left; reflexivity|auto].
      * right. exists o', p. split; [right; exact Hin|exact H].
    + intros [H|(o' & p & [<-|Hin] & Hw & Hp & Hx)]; auto.
      * left. right. split; [exact Hw|]. exists p. auto.
      * right. exists o', p. auto.
Qed.

Lemma flat_of_ops_sound apex s ops (w : bool) q r :
  In (q, r) (if w then f_wild (flat_of_ops apex s ops) else f_norm (flat_of_ops apex s ops)) ->
  from_ops (labels apex) s ops w q r.
Proof.
  intro Hin. apply (proj1 (In_side_fold (labels apex) s w (q, r) ops (fz_init s))) in Hin
    as [Hin|(o & p & Ho & Hw & Hp & Hx)].
  - left. destruct w; cbn [side fz_init f_wild f_norm] in Hin; [destruct Hin|].
    destruct s as [so|]; [|destruct Hin]. destruct Hin as [Heq|[]]. inversion Heq; subst. eauto.
  - right. inversion Hx; subst. exists o. auto.
Qed.

Lemma flat_of_ops_complete apex s ops o q :
  In o ops -> rel_path (labels apex) (op_name o) = Some q ->
  In (q, op_zrec s o) (if op_wild o then f_wild (flat_of_ops apex s ops) else f_norm (flat_of_ops apex s ops)).
Proof.
  intros Hin Hp. apply (proj2 (In_side_fold (labels apex) s (op_wild o) (q, op_zrec s o) ops (fz_init s))).
  right. exists o, q. auto.
Qed.

Lemma flat_of_ops_recs_ok apex s ops : Forall op_ok ops -> recs_ok (flat_of_ops apex s ops).
Proof.
  intros Hops q r Hin Ht. unfold entries in Hin.
  assert (Hfrom : exists w, from_ops (labels apex) s ops w q r).
  { apply in_app_or in Hin as [Hin|Hin]; [exists false|exists true]; apply flat_of_ops_sound; exact Hin. }
  destruct Hfrom as [w [(_ & _ & so & _ & ->)|(o & Ho & _ & _ & ->)]].
  - cbn [soa_zrec zr_type] in Ht. discriminate.
  - rewrite Forall_forall in Hops. destruct (Hops o Ho) as [_ Hsh]. cbn [op_zrec zr_type zr_data] in *.
    rewrite Ht in Hsh. destruct (op_data o); try discriminate. eauto.
Qed.

Lemma Forall_op_names ops : Forall op_ok ops -> Forall (fun o => wf_name (op_name o)) ops.
Proof. apply Forall_impl. intros o [H _]. exact H. Qed.

Theorem resolve_refines_flat apex s ops name qt :
  wf_name apex -> Forall op_ok ops -> wf_name name ->
  exists z, zone_build apex s ops = Ok z /\
    match rel_path (labels apex) name with
    | Some p =>
      exists r, zone_resolve z name qt = Some (Ok r) /\
        (no_occlusion (flat_of_ops apex s ops) ->
           zres_equiv r (flat_resolve (labels apex) (flat_of_ops apex s ops) name p qt) /\
           (qt <> QT_Wildcard -> r = flat_resolve (labels apex) (flat_of_ops apex s ops) name p qt))
    | None => zone_resolve z name qt = None
    end.
Proof.
  intros Hapex Hops Hname.
  destruct (zone_build_R apex s ops Hapex (Forall_op_names _ Hops)) as (z & Hb & Ha & Hs & HR).
  exists z. split; [exact Hb|]. unfold zone_resolve. rewrite relative_rp_rel, Ha.
  destruct (rel_path (labels apex) name) as [p|] eqn:Ep; cbn [option_map]; [|reflexivity].
  pose proof (rel_path_some _ _ _ Ep) as Hl.
  assert (Hwf : wf_labels (rev (rev p) ++ labels apex)) by (rewrite rev_involutive, <- Hl; apply Hname).
  destruct (resolve_R_total _ _ _ name qt (rev p) HR (flat_of_ops_recs_ok apex s ops Hops) Hwf) as (r & Hr & H).
  exists r. split; [rewrite Hr; reflexivity|]. rewrite rev_involutive in H. exact H.
Qed.

Definition result_rrs (r : zresult) : list rr :=
  match r with ZAnswer l => l | ZCname _ x => [x] | ZDelegation l => l | ZNameError => [] end.

Lemma zres_equiv_rrs a b : zres_equiv a b -> forall x, In x (result_rrs a) <-> In x (result_rrs b).
Proof.
  destruct a, b; cbn [zres_equiv result_rrs]; try contradiction; try tauto.
  - intros H x. assert (Hf : forall l, In x l <-> In x (filter (fun r => rr_type r =? rr_type x) l)).
    { intro l. rewrite filter_In, N.eqb_refl. tauto. }
    rewrite (Hf rrs), (Hf rrs0), H. tauto.
  - intros [_ ->] x. tauto.
  - intros -> x. tauto.
Qed.

Lemma zres_equiv_nil r : zres_equiv r (ZAnswer []) -> r = ZAnswer [].
Proof.
  destruct r as [l| | |]; cbn [zres_equiv]; try contradiction. intro H.
  destruct l as [|x l]; [reflexivity|]. specialize (H (rr_type x)). cbn [filter] in H.
  rewrite N.eqb_refl in H. discriminate.
Qed.

Lemma zres_equiv_nameerror f : zres_equiv ZNameError f -> f = ZNameError.
Proof. destruct f; cbn [zres_equiv]; try contradiction. reflexivity. Qed.

(* the hypotheses of a lookup in a zone built from insertions *)
Definition lookup_ctx (apex : dname) (s : option soa) (ops : list zop) (name : dname) (p : path) (z : zone) : Prop :=
  wf_name apex /\ Forall op_ok ops /\ wf_name name /\ rel_path (labels apex) name = Some p /\
  no_occlusion (flat_of_ops apex s ops) /\ zone_build apex s ops = Ok z.

Lemma lookup_flat apex s ops name p z qt r :
  lookup_ctx apex s ops name p z -> zone_resolve z name qt = Some (Ok r) ->
  agrees qt r (flat_resolve (labels apex) (flat_of_ops apex s ops) name p qt).
Proof.
  intros (Ha & Hops & Hn & Hp & Hd & Hb) Hr.
  destruct (resolve_refines_flat apex s ops name qt Ha Hops Hn) as (z' & Hb' & H).
  rewrite Hb in Hb'. inversion Hb'; subst z'. rewrite Hp in H. destruct H as (r' & Hr' & H).
  rewrite Hr in Hr'. inversion Hr'; subst r'. exact (H Hd).
Qed.

(* -- "with the query name as owner" -- *)
Definition owner_is (name : dname) (r : zresult) : Prop :=
  match r with
  | ZAnswer rrs => Forall (fun x => rr_name x = name) rrs
  | ZCname _ x => rr_name x = name
  | _ => True
  end.

Lemma classify_owner name qt rs : owner_is name (classify name qt rs).
Proof.
  unfold classify. destruct (if rtype_matches RT_CNAME qt then [] else of_type RT_CNAME rs) as [|r l].
  - cbn [owner_is]. apply Forall_forall. intros x Hx. apply in_map_iff in Hx as (r0 & <- & _). reflexivity.
  - destruct (zr_data r); cbn [owner_is]; auto.
Qed.

Lemma flat_owner apexl z name p qt : owner_is name (flat_resolve apexl z name p qt).
Proof.
  unfold flat_resolve. destruct (find _ _); [exact I|].
  destruct (exists_nodeb z p); [apply classify_owner|].
  destruct (wild_source z p) as [[l e]|]; [|exact I].
  destruct (has_wild z e); [|exact I]. destruct (_ && _); [exact I|apply classify_owner].
Qed.

Theorem owner_is_query_name apex s ops name p z qt r :
  lookup_ctx apex s ops name p z -> zone_resolve z name qt = Some (Ok r) -> owner_is name r.
Proof.
  intros Hc Hr. destruct (lookup_flat _ _ _ _ _ _ _ _ Hc Hr) as [Heq _].
  pose proof (flat_owner (labels apex) (flat_of_ops apex s ops) name p qt) as Hf.
  pose proof (zres_equiv_rrs _ _ Heq) as Hin.
  destruct r as [l|c x|l|], (flat_resolve (labels apex) (flat_of_ops apex s ops) name p qt) as [l'|c' x'|l'|];
    cbn [zres_equiv owner_is result_rrs] in *; try contradiction; try exact I.
  - rewrite Forall_forall in *. intros x Hx. apply Hf, Hin, Hx.
  - destruct Heq as [_ ->]. exact Hf.
Qed.

(* -- "every record returned is one the zone holds, with its configured TTL and data" -- *)
Definition rr_of_rec (x : rr) (rec : zrec) : Prop :=
  rr_type x = zr_type rec /\ rr_class x = RC_IN /\ rr_ttl x = zr_ttl rec /\ rr_data x = zr_data rec.

Definition held (z : fzone) (x : rr) : Prop :=
  exists (w : bool) q rec, In (q, rec) (if w then f_wild z else f_norm z) /\ rr_of_rec x rec.

Lemma held_map z (w : bool) q owner rs :
  (forall rec, In rec rs -> In (q, rec) (if w then f_wild z else f_norm z)) ->
  forall x, In x (map (fun r => zr_to_rr r owner) rs) -> held z x.
Proof.
  intros H x Hx. apply in_map_iff in Hx as (rec & <- & Hrec). exists w, q, rec. split; [apply H, Hrec|].
  repeat split.
Qed.

Lemma classify_held z (w : bool) q name qt rs :
  (forall rec, In rec rs -> In (q, rec) (if w then f_wild z else f_norm z)) ->
  forall x, In x (result_rrs (classify name qt rs)) -> held z x.
Proof.
  intros H x. unfold classify.
  destruct (if rtype_matches RT_CNAME qt then [] else of_type RT_CNAME rs) as [|r l] eqn:E.
  - cbn [result_rrs]. apply (held_map z w q). intros rec Hrec. apply filter_In in Hrec as [Hrec _]. apply H, Hrec.
  - assert (Hr : In r rs).
    { destruct (rtype_matches RT_CNAME qt); [discriminate|].
      assert (Hin : In r (of_type RT_CNAME rs)) by (rewrite E; left; reflexivity).
      apply filter_In in Hin. tauto. }
    destruct (zr_data r) eqn:Ed; cbn [result_rrs]; try (intros []; fail).
    intros [<-|[]]. exists w, q, r. split; [apply H, Hr|]. repeat split.
Qed.

Lemma flat_held apexl z name p qt : forall x, In x (result_rrs (flat_resolve apexl z name p qt)) -> held z x.
Proof.
  unfold flat_resolve. destruct (find _ _) as [c|].
  - cbn [result_rrs]. apply (held_map z false c). intros rec H. apply In_recs_at in H. tauto.
  - destruct (exists_nodeb z p).
    + apply (classify_held z false p). intros rec H. apply In_all_at, H.
    + destruct (wild_source z p) as [[l e]|]; [|intros x []].
      destruct (has_wild z e); [|intros x []]. destruct (_ && _).
      * cbn [result_rrs]. apply (held_map z true e). intros rec H. apply filter_In in H as [H _]. apply In_all_at, H.
      * apply (classify_held z true e). intros rec H. apply In_all_at, H.
Qed.

Theorem records_are_zone_records apex s ops name p z qt r :
  lookup_ctx apex s ops name p z -> zone_resolve z name qt = Some (Ok r) ->
  forall x, In x (result_rrs r) ->
    exists (w : bool) q rec, from_ops (labels apex) s ops w q rec /\ rr_of_rec x rec.
Proof.
  intros Hc Hr x Hx. destruct (lookup_flat _ _ _ _ _ _ _ _ Hc Hr) as [Heq _].
  apply (zres_equiv_rrs _ _ Heq) in Hx. apply flat_held in Hx as (w & q & rec & Hin & Hrr).
  exists w, q, rec. split; [apply flat_of_ops_sound, Hin|exact Hrr].
Qed.

(* "returns the zone's records of the asked type at that name (all types for ANY) ...; the CNAME
      instead when one exists and neither CNAME nor ANY was asked" -- *)
Lemma classify_answer name qt rs :
  (rtype_matches RT_CNAME qt = true \/ of_type RT_CNAME rs = []) ->
  classify name qt rs = ZAnswer (map (fun r => zr_to_rr r name) (filter (fun r => rtype_matches (zr_type r) qt) rs)).
Proof.
  intro H. unfold classify.
  assert (E : (if rtype_matches RT_CNAME qt then [] else of_type RT_CNAME rs) = []).
  { destruct H as [-> | ->]; [reflexivity|]. destruct (rtype_matches RT_CNAME qt); reflexivity. }
  rewrite E. reflexivity.
Qed.

Lemma classify_cname name qt rs rc rest c :
  rtype_matches RT_CNAME qt = false -> of_type RT_CNAME rs = rc :: rest -> zr_data rc = RD_Name c ->
  classify name qt rs = ZCname c (zr_to_rr rc name).
Proof. intros Hm Hc Hd. unfold classify. rewrite Hm, Hc, Hd. reflexivity. Qed.

(* an existing name that is not a delegation point (or is asked for NS) is classified on its own records *)
Theorem existing_name_classified apex s ops name p z qt r :
  lookup_ctx apex s ops name p z -> zone_resolve z name qt = Some (Ok r) ->
  let fz := flat_of_ops apex s ops in
  exists_node fz p -> (p = [] \/ recs_at (f_norm fz) p RT_NS = [] \/ qt = RT_NS) ->
  zres_equiv r (classify name qt (all_at (f_norm fz) p)) /\
  (qt <> QT_Wildcard -> r = classify name qt (all_at (f_norm fz) p)).
Proof.
  intros Hc Hr fz Hex Hp. pose proof (lookup_flat _ _ _ _ _ _ _ _ Hc Hr) as Heq.
  destruct Hc as (_ & _ & _ & _ & Hd & _). fold fz in Heq, Hd.
  rewrite (flat_exists _ _ _ _ _ Hd Hex) in Heq. unfold at_existing in Heq.
  assert (Hcond : negb (is_nil p) && (negb (is_nil (recs_at (f_norm fz) p RT_NS)) && negb (qt =? RT_NS)) = false).
  { destruct Hp as [-> |[-> | ->]]; [reflexivity|rewrite andb_false_r; reflexivity|].
    rewrite N.eqb_refl. cbn [negb]. rewrite !andb_false_r. reflexivity. }
  rewrite Hcond in Heq. exact Heq.
Qed.

(* -- "an existing name with no data of the asked type yields an empty answer" -- *)
Lemma classify_empty name qt rs :
  (rtype_matches RT_CNAME qt = true \/ of_type RT_CNAME rs = []) ->
  (forall rec, In rec rs -> rtype_matches (zr_type rec) qt = false) ->
  classify name qt rs = ZAnswer [].
Proof.
  intros Hcn Hno. rewrite (classify_answer _ _ _ Hcn), filter_none; [reflexivity|]. apply Forall_forall. exact Hno.
Qed.

Theorem ent_and_apex_give_empty_answer apex s ops name p z qt r :
  lookup_ctx apex s ops name p z -> zone_resolve z name qt = Some (Ok r) ->
  let fz := flat_of_ops apex s ops in
  exists_node fz p ->
  (forall c, c <> [] -> is_suffix c p -> recs_at (f_norm fz) c RT_NS = []) ->
  (rtype_matches RT_CNAME qt = true \/ recs_at (f_norm fz) p RT_CNAME = []) ->
  (forall rec, In (p, rec) (f_norm fz) -> rtype_matches (zr_type rec) qt = false) ->
  r = ZAnswer [].
Proof.
  intros Hc Hr fz Hex Hns Hcn Hno.
  destruct (existing_name_classified apex s ops name p z qt r Hc Hr Hex) as [Heq _].
  { destruct p as [|a t]; [left; reflexivity|right; left]. apply Hns; [discriminate|apply is_suffix_refl]. }
  fold fz in Heq. rewrite classify_empty in Heq.
  - apply zres_equiv_nil, Heq.
  - rewrite of_type_all_at. exact Hcn.
  - intros rec Hrec. apply Hno, In_all_at, Hrec.
Qed.

(* -- "a name error only when the name, everything beneath it and any covering wildcard are absent" -- *)
Lemma classify_not_nameerror name qt rs : cname_ok rs -> classify name qt rs <> ZNameError.
Proof.
  intro Hok. unfold classify. destruct (if rtype_matches RT_CNAME qt then [] else of_type RT_CNAME rs) as [|r l] eqn:E; [discriminate|].
  assert (Hin : In r (of_type RT_CNAME rs)).
  { destruct (rtype_matches RT_CNAME qt); [discriminate|]. rewrite E. left. reflexivity. }
  apply filter_In in Hin as [Hin Ht]. apply N.eqb_eq in Ht. destruct (Hok r Hin Ht) as [c ->]. discriminate.
Qed.

Lemma recs_ok_all_at w z p : recs_ok z -> cname_ok (all_at (side w z) p).
Proof.
  intros Hz rec Hin Ht. apply In_all_at in Hin. exact (Hz p rec (In_side_entries w z _ Hin) Ht).
Qed.

Lemma closest_split z p : ~ exists_node z p ->
  exists x l e, p = x ++ l :: e /\ exists_node z e /\ ~ exists_node z (l :: e).
Proof.
  induction p as [|a t IH]; intro Hn; [exfalso; apply Hn; left; reflexivity|].
  destruct (exists_nodeb z t) eqn:Et.
  - apply exists_nodeb_spec in Et. exists [], a, t. auto.
  - apply exists_nodeb_false in Et. destruct (IH Et) as (x & l & e & -> & He & Hl).
    exists (a :: x), l, e. auto.
Qed.

Lemma suffix_comparable {A} (a b p : list A) : is_suffix a p -> is_suffix b p -> is_suffix a b \/ is_suffix b a.
Proof.
  induction p as [|x t IH]; intros Ha Hb.
  - apply is_suffix_of_nil in Ha. subst a. left. apply is_suffix_nil.
  - apply is_suffix_cons_inv in Ha as [->|Ha]; [right; exact Hb|].
    apply is_suffix_cons_inv in Hb as [->|Hb]; [left; apply is_suffix_cons, Ha|]. auto.
Qed.

Lemma closest_unique z x l e e' :
  exists_node z e -> ~ exists_node z (l :: e) -> closest_encloser z (x ++ l :: e) e' -> e' = e.
Proof.
  intros He Hl (Hs & Hex & Hmax).
  assert (Hle : is_suffix (l :: e) (x ++ l :: e)) by apply is_suffix_app.
  destruct (suffix_comparable _ _ _ Hs Hle) as [H|H].
  - apply is_suffix_cons_inv in H as [->|H]; [contradiction|].
    apply is_suffix_antisym; [exact H|]. apply Hmax; [|exact He].
    eapply is_suffix_trans; [|exact Hle]. apply is_suffix_cons, is_suffix_refl.
  - exfalso. apply Hl. eapply exists_node_anc; eassumption.
Qed.

Theorem nameerror_only_if_absent apex s ops name p z qt :
  lookup_ctx apex s ops name p z -> zone_resolve z name qt = Some (Ok ZNameError) ->
  let fz := flat_of_ops apex s ops in
  ~ exists_node fz p /\ forall e, closest_encloser fz p e -> has_wild fz e = false.
Proof.
  intros Hc Hr fz. destruct (lookup_flat _ _ _ _ _ _ _ _ Hc Hr) as [Heq _].
  apply zres_equiv_nameerror in Heq. destruct Hc as (_ & Hops & _ & _ & Hd & _). fold fz in Heq, Hd.
  pose proof (flat_of_ops_recs_ok apex s ops Hops) as Hz. fold fz in Hz.
  assert (Hnex : ~ exists_node fz p).
  { intro Hex. rewrite (flat_exists _ _ _ _ _ Hd Hex) in Heq. unfold at_existing in Heq.
    destruct (_ && _); [discriminate|]. revert Heq. apply classify_not_nameerror, (recs_ok_all_at false), Hz. }
  split; [exact Hnex|]. intros e' Hce.
  destruct (closest_split fz p Hnex) as (x & l & e & -> & He & Hl).
  rewrite (closest_unique _ _ _ _ _ He Hl Hce).
  rewrite (flat_missing _ _ _ _ _ _ _ Hd He Hl) in Heq. unfold below_existing in Heq.
  destruct (_ && _); [discriminate|]. destruct (has_wild fz e) eqn:Ew; [|reflexivity].
  destruct (_ && _); [discriminate|]. exfalso. revert Heq. apply classify_not_nameerror, (recs_ok_all_at true), Hz.
Qed.

(* -- "an NS question at the delegation point itself is answered directly" -- *)
Theorem ns_question_at_cut_answered_directly apex s ops name p z r :
  lookup_ctx apex s ops name p z -> zone_resolve z name RT_NS = Some (Ok r) ->
  let fz := flat_of_ops apex s ops in
  recs_at (f_norm fz) p RT_NS <> [] -> recs_at (f_norm fz) p RT_CNAME = [] ->
  r = ZAnswer (map (fun rec => zr_to_rr rec name) (recs_at (f_norm fz) p RT_NS)).
Proof.
  intros Hc Hr fz Hns Hcn.
  destruct (existing_name_classified apex s ops name p z RT_NS r Hc Hr (recs_at_exists _ _ _ Hns)) as [_ Heq]; [auto|].
  rewrite Heq by discriminate. fold fz. rewrite classify_answer by (right; rewrite of_type_all_at; exact Hcn).
  do 2 f_equal. rewrite <- of_type_all_at. reflexivity.
Qed.

(* "a referral carrying the delegation's NS set when the name is at or beneath a delegation
      point other than the zone apex" -- *)
Theorem referral_at_or_beneath_cut apex s ops name p z qt r c :
  lookup_ctx apex s ops name p z -> zone_resolve z name qt = Some (Ok r) ->
  let fz := flat_of_ops apex s ops in
  cut fz p qt c ->
  r = ZDelegation (map (fun rec => zr_to_rr rec (mkname (c ++ labels apex))) (recs_at (f_norm fz) c RT_NS)).
Proof.
  intros Hc Hr fz (Hne & Hs & Hns & Hq). destruct (lookup_flat _ _ _ _ _ _ _ _ Hc Hr) as [Heq _].
  destruct Hc as (_ & _ & _ & _ & Hd & _). fold fz in Heq, Hd.
  assert (Hexc : exists_node fz c) by (eapply recs_at_exists; exact Hns).
  assert (Hnil : is_nil c = false) by (destruct c; [contradiction|reflexivity]).
  assert (Hnn : is_nil (recs_at (f_norm fz) c RT_NS) = false) by (destruct (recs_at (f_norm fz) c RT_NS); [contradiction|reflexivity]).
  assert (Hf : flat_resolve (labels apex) fz name p qt = deleg (c ++ labels apex) (recs_at (f_norm fz) c RT_NS)).
  { destruct (list_eq_dec (list_eq_dec N.eq_dec) c p) as [->|Hcp].
    - rewrite (flat_exists _ _ _ _ _ Hd Hexc). unfold at_existing. rewrite Hnil, Hnn. cbn [negb andb].
      destruct (N.eqb_spec qt RT_NS) as [->|_]; [exfalso; apply Hq; auto|reflexivity].
    - (* c is a proper ancestor of p: by D1 nothing exists beneath c *)
      destruct Hs as [pre Hp]. destruct (exists_last (l := pre)) as (x & l & ->).
      { intros ->. apply Hcp. symmetry. exact Hp. }
      rewrite <- app_assoc in Hp. cbn [app] in Hp. subst p.
      assert (Hl : ~ exists_node fz (l :: c)).
      { intro H. assert (Hz : recs_at (f_norm fz) c RT_NS = []); [|contradiction].
        apply (no_ns_above fz (l :: c) c Hd H Hne); [apply is_suffix_cons, is_suffix_refl|].
        intro E. apply (f_equal (@length _)) in E. cbn [length] in E. lia. }
      rewrite (flat_missing _ _ _ _ _ _ _ Hd Hexc Hl). unfold below_existing. rewrite Hnil, Hnn. reflexivity. }
  rewrite Hf in Heq. unfold deleg in Heq. destruct r; cbn [zres_equiv] in Heq; try contradiction. subst. reflexivity.
Qed.

(* "records synthesised from the wildcard at the closest existing ancestor when the name itself
      does not exist" (for wildcard sets without NS, or an NS question) -- *)
Theorem missing_name_from_wildcard apex s ops name x l e z qt r :
  lookup_ctx apex s ops name (x ++ l :: e) z -> zone_resolve z name qt = Some (Ok r) ->
  let fz := flat_of_ops apex s ops in
  closest_encloser fz (x ++ l :: e) e ->
  (e = [] \/ recs_at (f_norm fz) e RT_NS = []) ->
  has_wild fz e = true ->
  (recs_at (f_wild fz) e RT_NS = [] \/ qt = RT_NS) ->
  zres_equiv r (classify name qt (all_at (f_wild fz) e)) /\
  (qt <> QT_Wildcard -> r = classify name qt (all_at (f_wild fz) e)).
Proof.
  intros Hc Hr fz (Hs & He & Hmax) Hns Hw Hwns. pose proof (lookup_flat _ _ _ _ _ _ _ _ Hc Hr) as Heq.
  destruct Hc as (_ & _ & _ & _ & Hd & _). fold fz in Heq, Hd.
  assert (Hl : ~ exists_node fz (l :: e)).
  { intro H. assert (Hle : is_suffix (l :: e) e) by (apply Hmax; [apply is_suffix_app|exact H]).
    apply is_suffix_length in Hle. cbn [length] in Hle. lia. }
  rewrite (flat_missing _ _ _ _ _ _ _ Hd He Hl) in Heq. unfold below_existing in Heq. rewrite Hw in Heq.
  assert (H1 : negb (is_nil e) && negb (is_nil (recs_at (f_norm fz) e RT_NS)) = false).
  { destruct Hns as [-> | ->]; [reflexivity|apply andb_false_r]. }
  assert (H2 : negb (is_nil (of_type RT_NS (all_at (f_wild fz) e))) && negb (qt =? RT_NS) = false).
  { rewrite of_type_all_at. destruct Hwns as [-> | ->]; [reflexivity|]. rewrite N.eqb_refl. apply andb_false_r. }
  rewrite H1, H2 in Heq. exact Heq.
Qed.

Lemma is_cut_spec z p qt c : c <> [] -> is_suffix c p -> (is_cut z p qt c = true <-> cut z p qt c).
Proof.
  intros Hc Hs. unfold is_cut, cut. rewrite andb_true_iff, !negb_true_iff. split.
  - intros [Hn Hq]. repeat split; try assumption.
    + intro E. rewrite E in Hn. discriminate.
    + intros [-> ->]. rewrite lleqb_refl, N.eqb_refl in Hq. discriminate.
  - intros (_ & _ & Hn & Hq). split.
    + destruct (recs_at (f_norm z) c RT_NS); [contradiction|reflexivity].
    + apply not_true_is_false. intro H. apply andb_true_iff in H as [H1 H2].
      apply lleqb_eq in H1. apply N.eqb_eq in H2. auto.
Qed.

Lemma no_occlusionb_spec z : no_occlusionb z = true -> no_occlusion z.
Proof.
  unfold no_occlusionb, no_occlusion. rewrite forallb_forall. intros H c rns Hc Hin Ht.
  specialize (H (c, rns) Hin). cbn [fst snd] in H. rewrite Ht, N.eqb_refl in H.
  assert (Hnil : is_nil c = false) by (destruct c; [contradiction|reflexivity]).
  rewrite Hnil in H. cbn [negb andb] in H. apply andb_true_iff in H as [H1 H2].
  rewrite forallb_forall in H1, H2. split.
  - intros q r Hq Hs. specialize (H1 (q, r) Hq). cbn [fst] in H1.
    apply is_suffixb_spec in Hs. rewrite Hs in H1. cbn [negb orb] in H1. apply lleqb_eq, H1.
  - intros q r Hq Hs. specialize (H2 (q, r) Hq). cbn [fst] in H2.
    apply is_suffixb_spec in Hs. rewrite Hs in H2. discriminate.
Qed.

Definition nm (front : list label) : dname := mkname (front ++ [[]]).

Lemma nm_wf front : Forall (fun l => l <> [] /\ wf_label l) front -> sum_lens (front ++ [[]]) <= 255 -> wf_name (nm front).
Proof. intros Hf Hs. apply wf_name_intro; [exact Hf|reflexivity|exact Hs]. Qed.

(* [wf_lab] closes [l <> [] /\ wf_label l] for a literal label l (at most 63 octets, each a lower-case
   byte); [wf_nm] closes [wf_name (nm front)] for a literal list of such labels, the 255-octet bound
   by evaluation *)
Ltac wf_lab :=
  split; [discriminate
         | split; [unfold llen; cbn [length]; lia
                  | repeat (first [apply Forall_nil | apply Forall_cons; [split; [lia | reflexivity]|]])]].
Ltac wf_nm :=
  apply nm_wf;
  [ repeat (first [apply Forall_nil | apply Forall_cons; [wf_lab|]])
  | vm_compute; discriminate ].

Module Example.
  (* apex "z." with SOA minimum 300; NS at the apex; "a" with an A record (TTL 60, raised to 300);
     "c.b" making "b" an empty non-terminal with a wildcard TXT next to the existing child;
     a wildcard A under the empty non-terminals "e.e"; a delegation "d"; a CNAME next to an A at "f" *)
  Local Notation la := ([97] : label). Local Notation lb := ([98] : label). Local Notation lc := ([99] : label).
  Local Notation ld := ([100] : label). Local Notation le := ([101] : label). Local Notation lf := ([102] : label).
  Local Notation lx := ([120] : label). Local Notation ly := ([121] : label). Local Notation lz := ([122] : label).
  Definition apex := nm [lz].
  Definition so : soa := {| soa_mname := nm [la; lz]; soa_rname := nm [lb; lz]; soa_serial := 1;
                            soa_refresh := 2; soa_retry := 3; soa_expire := 4; soa_minimum := 300 |}.
  Definition mk w n t d ttl := {| op_wild := w; op_name := n; op_type := t; op_data := d; op_ttl := ttl |}.
  Definition ops : list zop :=
    [ mk false apex RT_NS (RD_Name (nm [la; lz])) 3600;
      mk false (nm [la; lz]) RT_A (RD_A 1) 60;
      mk false (nm [lc; lb; lz]) RT_A (RD_A 2) 3600;
      mk true (nm [lb; lz]) RT_TXT (RD_Octets [1]) 3600;
      mk true (nm [le; le; lz]) RT_A (RD_A 3) 3600;
      mk false (nm [ld; lz]) RT_NS (RD_Name (nm [lx; ly])) 3600;
      mk false (nm [lf; lz]) RT_CNAME (RD_Name (nm [la; lz])) 3600;
      mk false (nm [lf; lz]) RT_A (RD_A 4) 3600;
      mk false (nm [la; lz]) RT_A (RD_A 1) 60 ].

  Lemma apex_wf : wf_name apex. Proof. wf_nm. Qed.

  Lemma ops_ok : Forall op_ok ops.
  Proof.
    unfold ops.
    repeat (first [apply Forall_nil | apply Forall_cons; [split; [cbn [op_name mk]; first [exact apex_wf | wf_nm] | reflexivity]|]]).
  Qed.

  Lemma d1 : no_occlusion (flat_of_ops apex (Some so) ops).
  Proof. apply no_occlusionb_spec. vm_compute. reflexivity. Qed.

  Definition rr_at n t ttl d := {| rr_name := n; rr_type := t; rr_class := RC_IN; rr_ttl := ttl; rr_data := d |}.

  (* multi-label wildcard match under empty non-terminals: owner is the query name *)
  Example wildcard_synthesis : exists z,
    lookup_ctx apex (Some so) ops (nm [lx; ly; le; le; lz]) [lx; ly; le; le] z /\
    zone_resolve z (nm [lx; ly; le; le; lz]) RT_A
    = Some (Ok (ZAnswer [rr_at (nm [lx; ly; le; le; lz]) RT_A 3600 (RD_A 3)])).
  Proof.
    eexists. split.
    - refine (conj apex_wf (conj ops_ok (conj _ (conj _ (conj d1 _))))); [wf_nm|vm_compute; reflexivity|vm_compute; reflexivity].
    - vm_compute. reflexivity.
  Qed.

  (* the apex carries NS and SOA, the question is A: empty answer, not a referral *)
  Example apex_with_ns : exists z,
    lookup_ctx apex (Some so) ops apex [] z /\ zone_resolve z apex RT_A = Some (Ok (ZAnswer [])).
  Proof.
    eexists. split.
    - refine (conj apex_wf (conj ops_ok (conj apex_wf (conj _ (conj d1 _))))); vm_compute; reflexivity.
    - vm_compute. reflexivity.
  Qed.

  (* beneath the delegation: referral with the NS set, owner = the delegation point *)
  Example beneath_delegation : exists z,
    lookup_ctx apex (Some so) ops (nm [lx; ld; lz]) [lx; ld] z /\
    zone_resolve z (nm [lx; ld; lz]) RT_A
    = Some (Ok (ZDelegation [rr_at (nm [ld; lz]) RT_NS 3600 (RD_Name (nm [lx; ly]))])).
  Proof.
    eexists. split.
    - refine (conj apex_wf (conj ops_ok (conj _ (conj _ (conj d1 _))))); [wf_nm|vm_compute; reflexivity|vm_compute; reflexivity].
    - vm_compute. reflexivity.
  Qed.

  (* the empty non-terminal "b": empty answer; a sibling of "c.b": the wildcard; TTL 60 raised to 300;
     a missing name without covering wildcard: name error; CNAME next to other data *)
  Example more : exists z, zone_build apex (Some so) ops = Ok z /\
    zone_resolve z (nm [lb; lz]) RT_A = Some (Ok (ZAnswer [])) /\
    zone_resolve z (nm [lx; lb; lz]) RT_TXT = Some (Ok (ZAnswer [rr_at (nm [lx; lb; lz]) RT_TXT 3600 (RD_Octets [1])])) /\
    zone_resolve z (nm [la; lz]) RT_A = Some (Ok (ZAnswer [rr_at (nm [la; lz]) RT_A 300 (RD_A 1)])) /\
    zone_resolve z (nm [lx; lz]) RT_A = Some (Ok ZNameError) /\
    zone_resolve z (nm [lf; lz]) RT_A = Some (Ok (ZCname (nm [la; lz]) (rr_at (nm [lf; lz]) RT_CNAME 3600 (RD_Name (nm [la; lz]))))) /\
    zone_resolve z (nm [lx; ly]) RT_A = None.
  Proof.
    eexists. refine (conj _ (conj _ (conj _ (conj _ (conj _ (conj _ _)))))); vm_compute; reflexivity.
  Qed.
End Example.
