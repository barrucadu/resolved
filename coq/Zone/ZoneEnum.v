(* Zone/ZoneEnum.v -- the nodes of a record tree with the paths leading to them, and what
   all_records / all_wildcard_records list for a tree that represents a flat zone (ZoneProofs.R)
   and has unique child labels (ZoneMergeProofs.wf_tree): one entry per node holding records,
   named by the node's position, with exactly the flat zone's records at that position. *)
From RV Require Import Base.Prelude Name.NameModel Name.NameSpec Name.NameProofs Wire.WireTypes
     Zone.ZoneModel Zone.ZoneFlat Zone.ZoneProofs Zone.ZoneMergeProofs.

(* the nodes of a tree, each with the path (labels nearest the root first) leading to it *)
Fixpoint nodes_of (pre : list label) (nd : node) : list (list label * node) :=
  match nd with
  | Node _ _ _ children =>
    (pre, nd) :: (fix go (cs : list (label * node)) : list (list label * node) :=
                    match cs with [] => [] | (l, c) :: t => nodes_of (pre ++ [l]) c ++ go t end) children
  end.

Definition kids_nodes (pre : list label) (cs : list (label * node)) : list (list label * node) :=
  flat_map (fun kc => nodes_of (pre ++ [fst kc]) (snd kc)) cs.

Lemma nodes_of_unfold pre nsd a b cs :
  nodes_of pre (Node nsd a b cs) = (pre, Node nsd a b cs) :: kids_nodes pre cs.
Proof.
  cbn [nodes_of]. f_equal. unfold kids_nodes. induction cs as [|[l c] t IH]; [reflexivity|].
  cbn [flat_map fst snd]. rewrite <- IH. reflexivity.
Qed.

Lemma flat_map_flat_map {A B C} (f : B -> list C) (g : A -> list B) l :
  flat_map f (flat_map g l) = flat_map (fun x => flat_map f (g x)) l.
Proof. induction l as [|x l IH]; cbn [flat_map]; [reflexivity|]. rewrite flat_map_app, IH. reflexivity. Qed.

Lemma flat_map_ext_in' {A B} (f g : A -> list B) l : (forall x, In x l -> f x = g x) -> flat_map f l = flat_map g l.
Proof.
  induction l as [|x l IH]; intro H; cbn [flat_map]; [reflexivity|].
  rewrite (H x (or_introl eq_refl)), IH; [reflexivity|]. intros y Hy. apply H. right. exact Hy.
Qed.

Lemma nodes_of_prefix : forall nd pre rq n, In (rq, n) (nodes_of pre nd) -> exists x, rq = pre ++ x.
Proof.
  induction nd as [nsd a b cs IH] using node_ind_nested. intros pre rq n Hin.
  rewrite nodes_of_unfold in Hin. destruct Hin as [E|Hin]; [inversion E; exists []; symmetry; apply app_nil_r|].
  unfold kids_nodes in Hin. apply in_flat_map in Hin as (kc & Hkc & Hin).
  rewrite Forall_forall in IH. destruct (IH kc Hkc _ _ _ Hin) as [x ->]. exists (fst kc :: x). rewrite <- app_assoc. reflexivity.
Qed.

Lemma nodes_of_at : forall nd pre rq n, wf_tree nd -> In (rq, n) (nodes_of pre nd) ->
  exists rq', rq = pre ++ rq' /\ node_at rq' nd = Some n.
Proof.
  induction nd as [nsd a b cs IH] using node_ind_nested. intros pre rq n Hwf Hin.
  rewrite nodes_of_unfold in Hin. destruct Hin as [E|Hin].
  - inversion E; subst. exists []. split; [symmetry; apply app_nil_r|reflexivity].
  - apply wf_tree_unfold in Hwf as [Hk Hall]. cbn [n_children] in *.
    unfold kids_nodes in Hin. apply in_flat_map in Hin as ([l c] & Hkc & Hin). cbn [fst snd] in Hin.
    rewrite Forall_forall in IH, Hall. destruct (IH _ Hkc _ _ _ (Hall _ Hkc) Hin) as (rq' & -> & Hat).
    exists (l :: rq'). split; [rewrite <- app_assoc; reflexivity|].
    cbn [node_at n_children]. rewrite (in_alookup leqb leqb_eq l c cs Hk Hkc). exact Hat.
Qed.

Lemma nodes_of_complete : forall rq' nd pre n, node_at rq' nd = Some n -> In (pre ++ rq', n) (nodes_of pre nd).
Proof.
  induction rq' as [|l rq' IH]; intros nd pre n Hat; destruct nd as [nsd a b cs]; rewrite nodes_of_unfold.
  - cbn [node_at] in Hat. inversion Hat; subst. left. rewrite app_nil_r. reflexivity.
  - right. cbn [node_at n_children] in Hat. destruct (alookup leqb l cs) as [c|] eqn:El; [|discriminate].
    apply (alookup_in leqb leqb_eq) in El. unfold kids_nodes. apply in_flat_map. exists (l, c). split; [exact El|].
    cbn [fst snd]. replace (pre ++ l :: rq') with ((pre ++ [l]) ++ rq') by (rewrite <- app_assoc; reflexivity).
    apply IH. exact Hat.
Qed.

Lemma nodes_of_nodup : forall nd pre, wf_tree nd -> NoDup (map fst (nodes_of pre nd)).
Proof.
  induction nd as [nsd a b cs IH] using node_ind_nested. intros pre Hwf.
  rewrite nodes_of_unfold. cbn [map fst]. apply wf_tree_unfold in Hwf as [Hk Hall]. cbn [n_children] in *.
  constructor.
  - intro Hin. apply in_map_iff in Hin as ([rq n] & E & Hin). cbn [fst] in E. subst rq.
    unfold kids_nodes in Hin. apply in_flat_map in Hin as (kc & _ & Hin). apply nodes_of_prefix in Hin as [x Hx].
    apply (f_equal (@length _)) in Hx. rewrite !app_length in Hx. cbn [length] in Hx. lia.
  - unfold kids_nodes. induction cs as [|[l c] t IHt]; [constructor|].
    cbn [flat_map fst snd]. rewrite map_app. cbn [map fst] in Hk. inversion Hk as [|? ? Hnot Hk']; subst.
    apply Forall_cons_iff in IH as [IHc IHt']. apply Forall_cons_iff in Hall as [Hc Hall'].
    apply nodup_app; [apply IHc; exact Hc|apply IHt; assumption|].
    intros x Hx1 Hx2. apply in_map_iff in Hx1 as ([rq1 n1] & E1 & H1). apply in_map_iff in Hx2 as ([rq2 n2] & E2 & H2).
    cbn [fst] in E1, E2. subst rq1 rq2. apply nodes_of_prefix in H1 as [y1 Hy1].
    apply in_flat_map in H2 as ([l' c'] & Hkc' & H2). apply nodes_of_prefix in H2 as [y2 Hy2]. cbn [fst] in Hy2.
    rewrite Hy1, <- !app_assoc in Hy2. apply app_inv_head in Hy2. cbn [app] in Hy2. inversion Hy2; subst l'.
    apply Hnot. apply in_map_iff. exists (l, c'). auto.
Qed.

(* a function that lists a node's own contribution, then its children's in order, lists the nodes' *)
Lemma listing_nodes {X} (F own : node -> list X) :
  (forall nsd a b cs, F (Node nsd a b cs) = own (Node nsd a b cs) ++ flat_map (fun kc => F (snd kc)) cs) ->
  forall nd pre, F nd = flat_map (fun pn => own (snd pn)) (nodes_of pre nd).
Proof.
  intros HF. induction nd as [nsd a b cs IH] using node_ind_nested. intro pre.
  rewrite HF, nodes_of_unfold. cbn [flat_map snd]. f_equal.
  unfold kids_nodes. rewrite flat_map_flat_map. apply flat_map_ext_in'. intros kc Hkc.
  rewrite Forall_forall in IH. apply (IH kc Hkc).
Qed.

Definition rmap_entry (nsd : dname) (m : rmap) : list (dname * list zrec) :=
  let zrs := flat_map snd m in if is_nil zrs then [] else [(nsd, zrs)].

Lemma node_all_records_unfold nsd this w cs :
  node_all_records (Node nsd this w cs) =
  rmap_entry nsd this ++ flat_map (fun lc => node_all_records (snd lc)) cs.
Proof.
  cbn [node_all_records]. f_equal.
  induction cs as [|[k c] cs IH]; [reflexivity|]. cbn [flat_map snd]. rewrite <- IH. reflexivity.
Qed.

Lemma node_all_wildcard_records_unfold nsd this w cs :
  node_all_wildcard_records (Node nsd this w cs) =
  rmap_entry nsd (wmap (Node nsd this w cs)) ++ flat_map (fun lc => node_all_wildcard_records (snd lc)) cs.
Proof.
  cbn [node_all_wildcard_records]. f_equal; [destruct w; reflexivity|].
  induction cs as [|[k c] cs IH]; [reflexivity|]. cbn [flat_map snd]. rewrite <- IH. reflexivity.
Qed.

Lemma R_node apexl nd fz rq n : R apexl nd fz -> node_at rq nd = Some n -> node_ok apexl fz rq n.
Proof.
  intros HR Hat. unfold R, Rsub in HR. specialize (HR rq). rewrite Hat in HR. apply HR.
Qed.

Lemma wf_rmap_flat_nodup m : wf_rmap m -> NoDup (flat_map snd m).
Proof.
  induction m as [|[k l] m IH]; intros [Hk Hall]; [constructor|].
  cbn [map fst] in Hk. inversion Hk as [|? ? Hnot Hk']; subst. apply Forall_cons_iff in Hall as [[Hty Hl] Hall].
  cbn [flat_map snd fst] in *. apply nodup_app; [exact Hl|apply IH; split; assumption|].
  intros r H1 H2. apply Hnot. rewrite Forall_forall in Hty. rewrite <- (Hty r H1).
  apply in_flat_map in H2 as ([k' l'] & Hkl & Hr). rewrite Forall_forall in Hall. destruct (Hall _ Hkl) as [Hty' _].
  rewrite Forall_forall in Hty'. rewrite (Hty' r Hr). apply (in_map fst _ _ Hkl).
Qed.

Section Listing.
  Variables (apexl : list label) (nd : node) (fz : fzone) (w : bool).
  Hypothesis HR : R apexl nd fz.
  Hypothesis Hwf : wf_tree nd.

  (* the entry of the node reached by the path [fst pn], named by that path *)
  Definition node_entry (pn : list label * node) : list (dname * list zrec) :=
    rmap_entry (mkname (rev (fst pn) ++ apexl)) (nside w (snd pn)).

  Lemma listing_entries :
    (if w then node_all_wildcard_records nd else node_all_records nd) = flat_map node_entry (nodes_of [] nd).
  Proof.
    transitivity (flat_map (fun pn => rmap_entry (n_nsdname (snd pn)) (nside w (snd pn)))
                           (nodes_of [] nd)).
    - destruct w; [apply (listing_nodes _ (fun n => rmap_entry (n_nsdname n) (wmap n)) node_all_wildcard_records_unfold)
                  |apply (listing_nodes _ (fun n => rmap_entry (n_nsdname n) (n_this n)) node_all_records_unfold)].
    - apply flat_map_ext_in'. intros [rq n] Hin. cbn [snd].
      destruct (nodes_of_at nd [] rq n Hwf Hin) as (rq' & E & Hat). cbn [app] in E. subst rq'.
      unfold node_entry. cbn [fst snd]. rewrite (ok_nsd _ _ _ _ (R_node _ _ _ _ _ HR Hat)). reflexivity.
  Qed.

  Lemma node_entry_keys : forall L, NoDup (map fst L) -> NoDup (map fst (flat_map node_entry L)).
  Proof.
    induction L as [|[rq n] L IH]; intro Hnd; [constructor|]. cbn [map fst] in Hnd. inversion Hnd as [|? ? Hnot Hnd']; subst.
    cbn [flat_map]. unfold node_entry at 1, rmap_entry. cbn [fst snd]. destruct (is_nil _); [apply IH; exact Hnd'|].
    cbn [app map fst]. constructor; [|apply IH; exact Hnd'].
    intro Hin. apply in_map_iff in Hin as ([name zrs] & E & Hin). cbn [fst] in E. subst name.
    apply in_flat_map in Hin as ([rq' n'] & Hin' & He). unfold node_entry, rmap_entry in He. cbn [fst snd] in He.
    destruct (is_nil _); [destruct He|]. destruct He as [He|[]]. inversion He as [[E1 E2]].
    apply app_inv_tail in E1. apply (f_equal (@rev _)) in E1. rewrite !rev_involutive in E1. subst rq'.
    apply Hnot. apply in_map_iff. exists (rq, n'). auto.
  Qed.

  (* every owner once; under an owner exactly the flat zone's records at its path, each once and at
     least one; every record of the flat zone under its owner *)
  Theorem listing_spec :
    let l := if w then node_all_wildcard_records nd else node_all_records nd in
    let side := if w then f_wild fz else f_norm fz in
    NoDup (map fst l)
    /\ (forall name zrs, In (name, zrs) l ->
          zrs <> [] /\ NoDup zrs /\ exists p, name = mkname (p ++ apexl) /\ forall t, of_type t zrs = recs_at side p t)
    /\ (forall p r, In (p, r) side -> In (mkname (p ++ apexl)) (map fst l)).
  Proof.
    cbv zeta. rewrite listing_entries. split; [|split].
    - apply node_entry_keys. apply nodes_of_nodup. exact Hwf.
    - intros name zrs Hin. apply in_flat_map in Hin as ([rq n] & Hin & He). unfold node_entry, rmap_entry in He. cbn [fst snd] in He.
      destruct (nodes_of_at nd [] rq n Hwf Hin) as (rq' & E & Hat). cbn [app] in E. subst rq'.
      destruct (node_ok_side _ _ _ _ w (R_node _ _ _ _ _ HR Hat)) as [Hm Hg].
      destruct (flat_map snd _) as [|r0 l0] eqn:Ef in He; cbn [is_nil] in He; [destruct He|]. destruct He as [He|[]]. inversion He; subst. clear He.
      split; [discriminate|]. rewrite <- Ef. split; [apply wf_rmap_flat_nodup; exact Hm|].
      exists (rev rq). split; [reflexivity|]. intro t. rewrite (of_type_flat t _ Hm). apply Hg.
    - intros p r Hin.
      assert (Hex : exists_node fz p).
      { right. exists p, r. split; [|apply is_suffix_refl]. unfold entries. apply in_or_app. destruct w; [right|left]; exact Hin. }
      pose proof (HR (rev p)) as HR'. unfold entry in HR'. cbn [app] in HR'. rewrite rev_involutive in HR'.
      destruct (node_at (rev p) nd) as [n|] eqn:Hat; [|contradiction].
      destruct (node_ok_side _ _ _ _ w (R_node _ _ _ _ _ HR Hat)) as [Hm Hg].
      assert (Hr : In r (flat_map snd (nside w n))).
      { apply (In_flat_rget r _ Hm). rewrite Hg, rev_involutive. apply In_recs_at. auto. }
      apply in_map_iff. exists (mkname (p ++ apexl), flat_map snd (nside w n)). split; [reflexivity|].
      apply in_flat_map. exists (rev p, n). split; [apply (nodes_of_complete (rev p) nd [] n Hat)|].
      unfold node_entry, rmap_entry. cbn [fst snd]. rewrite rev_involutive.
      destruct (flat_map snd _) eqn:E; [destruct Hr|]. left. reflexivity.
  Qed.
  (* record by record: the listing holds r under a name exactly when the flat zone holds r at the
     path of that name *)
  Corollary listing_records name r :
    (exists zrs, In (name, zrs) (if w then node_all_wildcard_records nd else node_all_records nd) /\ In r zrs)
    <-> exists p, name = mkname (p ++ apexl) /\ In (p, r) (if w then f_wild fz else f_norm fz).
  Proof.
    destruct listing_spec as (_ & He & Hc). cbv zeta in He, Hc. split.
    - intros (zrs & Hl & Hr). destruct (He name zrs Hl) as (_ & _ & p & -> & Hp). exists p. split; [reflexivity|].
      apply (In_recs_at _ p (zr_type r)). rewrite <- Hp. apply filter_In. rewrite N.eqb_refl. auto.
    - intros (p & -> & Hin). pose proof (Hc p r Hin) as Hm. apply in_map_iff in Hm as ([n0 zrs] & En & Hl). cbn [fst] in En. subst n0.
      exists zrs. split; [exact Hl|]. destruct (He _ zrs Hl) as (_ & _ & p' & Ep & Hp).
      injection Ep as Ep. apply app_inv_tail in Ep. subst p'.
      assert (Hr : In r (recs_at (if w then f_wild fz else f_norm fz) p (zr_type r))) by (apply In_recs_at; auto).
      rewrite <- Hp in Hr. apply filter_In in Hr. apply Hr.
  Qed.
End Listing.
