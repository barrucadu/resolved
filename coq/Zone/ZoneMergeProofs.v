(* Zone/ZoneMergeProofs.v -- Zone::merge / ZoneRecords::merge / merge_zrs_helper on the record
   tree refine the union of flat zones (Zone/ZoneFlat.v: fz_union, fz_drop_soa, fz_merge).

   [merge_flat_union] is stated in the pointwise form of Zone/ZoneProofs.v: if the tree [a]
   represents the flat zone [za] and [b] represents [zb] ([R]), then [node_merge a b] represents
   [fz_union za zb] -- ordinary and wildcard records alike, duplicates dropped, every name that
   exists in either exists in the result.  With ZoneProofs.resolve_R this gives "the merged zone
   answers every question from the union".

   The tree [b] must have unique child labels ([wf_tree]): the model's association lists stand
   for HashMaps, whose keys are unique; Zone::new and insert/insert_wildcard establish it
   ([zone_build_wf_tree]) and merge preserves it ([node_merge_wf_tree]). *)
From RV Require Import Base.Prelude Name.NameModel Name.NameProofs
     Zone.ZoneModel Zone.ZoneFlat Zone.ZoneProofs.

Lemma push_new_In l r x : In x (push_new l r) <-> In x l \/ x = r.
Proof.
  unfold push_new. destruct (existsb (zrec_eqb r) l) eqn:E.
  - apply existsb_zrec_In in E. split; [auto|]. intros [H| ->]; assumption.
  - rewrite in_app_iff. cbn [In]. split; [intros [H|[H|[]]]; auto | intros [H|H]; auto].
Qed.

Lemma push_new_NoDup l r : NoDup l -> NoDup (push_new l r).
Proof.
  intro H. unfold push_new. destruct (existsb (zrec_eqb r) l) eqn:E; [exact H|].
  apply NoDup_snoc; [exact H|]. intro Hin. apply existsb_zrec_In in Hin. congruence.
Qed.

Lemma fold_push_In : forall l acc x, In x (fold_left push_new l acc) <-> In x acc \/ In x l.
Proof.
  induction l as [|r l IH]; intros acc x; cbn [fold_left In]; [tauto|].
  rewrite IH, push_new_In. split; [intros [[H|H]|H]; auto | intros [H|[H|H]]; auto].
Qed.

Lemma fold_push_NoDup : forall l acc, NoDup acc -> NoDup (fold_left push_new l acc).
Proof.
  induction l as [|r l IH]; intros acc H; cbn [fold_left]; [exact H|]. apply IH, push_new_NoDup, H.
Qed.

Lemma fold_push_fresh : forall l acc, NoDup (acc ++ l) -> fold_left push_new l acc = acc ++ l.
Proof.
  induction l as [|r l IH]; intros acc H; cbn [fold_left]; [symmetry; apply app_nil_r|].
  assert (Hn : existsb (zrec_eqb r) acc = false).
  { apply not_true_is_false. intro E. apply existsb_zrec_In in E.
    apply NoDup_remove_2 in H. apply H. apply in_or_app. left. exact E. }
  unfold push_new at 2. rewrite Hn. rewrite IH; rewrite <- app_assoc; [reflexivity|exact H].
Qed.

Lemma fold_push_nil l : NoDup l -> fold_left push_new l [] = l.
Proof. intro H. apply (fold_push_fresh l []). exact H. Qed.

Lemma merge_one_ainsert x k l : NoDup l ->
  merge_zrs_one x (k, l) = ainsert N.eqb k (fold_left push_new l (rget k x)) x.
Proof.
  intro Hl. unfold merge_zrs_one, ainsert, rget. cbn [fst snd]. destruct (alookup N.eqb k x); [reflexivity|].
  rewrite (fold_push_nil l Hl). reflexivity.
Qed.

Lemma rget_merge_one t x k l : NoDup l ->
  rget t (merge_zrs_one x (k, l)) = if t =? k then fold_left push_new l (rget k x) else rget t x.
Proof.
  intro Hl. rewrite (merge_one_ainsert _ _ _ Hl). unfold rget at 1. rewrite (alookup_ainsert N.eqb N.eqb_eq).
  destruct (t =? k); reflexivity.
Qed.

Lemma rget_merge_zrs t : forall y x, wf_rmap y ->
  rget t (merge_zrs x y) = fold_left push_new (rget t y) (rget t x).
Proof.
  unfold merge_zrs. induction y as [|[k l] y IH]; intros x [Hk Hall]; cbn [fold_left]; [reflexivity|].
  cbn [map fst] in Hk. inversion Hk as [|? ? Hnotin Hk']; subst.
  apply Forall_cons_iff in Hall as [[_ Hl] Hall]. cbn [snd] in Hl.
  rewrite (IH _ (conj Hk' Hall)), (rget_merge_one _ _ _ _ Hl).
  unfold rget at 4. cbn [alookup]. destruct (N.eqb_spec t k) as [->|_]; [|reflexivity].
  unfold rget at 1. rewrite (alookup_notin_none N.eqb N.eqb_eq _ _ Hnotin). reflexivity.
Qed.

Lemma wf_rmap_merge_one x k l :
  wf_rmap x -> Forall (fun z => zr_type z = k) l -> NoDup l -> wf_rmap (merge_zrs_one x (k, l)).
Proof.
  intros Hx Ht Hl. rewrite (merge_one_ainsert _ _ _ Hl). destruct (wf_rmap_get k x Hx) as [Hmt Hmd]. destruct Hx as [Hk Hall].
  split; [apply (ainsert_nodup N.eqb N.eqb_eq), Hk|]. apply (ainsert_forall N.eqb N.eqb_eq); [exact Hall|]. cbn [fst snd].
  split; [|apply fold_push_NoDup, Hmd].
  apply Forall_forall. intros z Hz. apply fold_push_In in Hz as [Hz|Hz]; [rewrite Forall_forall in Hmt|rewrite Forall_forall in Ht]; auto.
Qed.

Lemma wf_rmap_merge_zrs : forall y x, wf_rmap x -> wf_rmap y -> wf_rmap (merge_zrs x y).
Proof.
  unfold merge_zrs. induction y as [|[k l] y IH]; intros x Hx [Hk Hall]; cbn [fold_left]; [exact Hx|].
  cbn [map fst] in Hk. inversion Hk as [|? ? _ Hk']; subst.
  apply Forall_cons_iff in Hall as [[Ht Hl] Hall]. cbn [fst snd] in *.
  apply IH; [apply wf_rmap_merge_one; assumption|split; assumption].
Qed.

Lemma recs_at_add_all p t : forall lb la,
  recs_at (add_all la lb) p t = fold_left push_new (recs_at lb p t) (recs_at la p t).
Proof.
  unfold add_all. induction lb as [|[q r] lb IH]; intros la; cbn [fold_left]; [reflexivity|].
  rewrite IH. cbn [fst snd]. rewrite recs_at_add. unfold recs_at at 4. cbn [filter fst snd].
  destruct (lleqb q p && (zr_type r =? t)); reflexivity.
Qed.

Lemma In_add_all x : forall lb la, In x (add_all la lb) <-> In x la \/ In x lb.
Proof.
  unfold add_all. induction lb as [|[q r] lb IH]; intros la; cbn [fold_left In]; [tauto|].
  rewrite IH. cbn [fst snd]. rewrite In_add_rec. split; [intros [[H|H]|H]; auto | intros [H|[H|H]]; auto].
Qed.

Lemma In_entries_union x a b : In x (entries (fz_union a b)) <-> In x (entries a) \/ In x (entries b).
Proof. unfold entries, fz_union. cbn [f_norm f_wild]. rewrite !in_app_iff, !In_add_all. tauto. Qed.

Lemma exists_node_union a b q : exists_node (fz_union a b) q <-> exists_node a q \/ exists_node b q.
Proof.
  unfold exists_node. split.
  - intros [->|(q' & r & Hin & Hs)]; [left; left; reflexivity|].
    apply In_entries_union in Hin as [Hin|Hin]; [left|right]; right; exists q', r; auto.
  - intros [[->|(q' & r & Hin & Hs)]|[->|(q' & r & Hin & Hs)]]; try (left; reflexivity);
      right; exists q', r; (split; [apply In_entries_union; auto|exact Hs]).
Qed.

Lemma has_wild_union a b q : has_wild (fz_union a b) q = has_wild a q || has_wild b q.
Proof.
  apply eq_true_iff_eq. rewrite orb_true_iff, !has_wild_spec. cbn [fz_union f_wild]. split.
  - intros [r Hr]. apply In_add_all in Hr as [Hr|Hr]; eauto.
  - intros [[r Hr]|[r Hr]]; exists r; apply In_add_all; auto.
Qed.

Fixpoint merge_children (oc mine : list (label * node)) : list (label * node) :=
  match oc with
  | [] => mine
  | (k, ochild) :: t =>
    match alookup leqb k mine with
    | Some mchild => merge_children t (areplace leqb k (node_merge mchild ochild) mine)
    | None => merge_children t (mine ++ [(k, ochild)])
    end
  end.

Definition merge_wild (mine other : option rmap) : option rmap :=
  match other with
  | Some ow => match mine with Some mw => Some (merge_zrs mw ow) | None => Some ow end
  | None => mine
  end.

Lemma node_merge_unfold a b :
  node_merge a b = Node (n_nsdname a) (merge_zrs (n_this a) (n_this b)) (merge_wild (n_wild a) (n_wild b))
                        (merge_children (n_children b) (n_children a)).
Proof. destruct b as [nsd this wild children]. reflexivity. Qed.

Lemma merge_children_cons k o t mine :
  merge_children ((k, o) :: t) mine
  = merge_children t (ainsert leqb k (match alookup leqb k mine with Some m => node_merge m o | None => o end) mine).
Proof. cbn [merge_children]. unfold ainsert. destruct (alookup leqb k mine); reflexivity. Qed.

Lemma alookup_merge_children k : forall oc mine, NoDup (map fst oc) ->
  alookup leqb k (merge_children oc mine)
  = match alookup leqb k oc with
    | Some o => Some (match alookup leqb k mine with Some m => node_merge m o | None => o end)
    | None => alookup leqb k mine
    end.
Proof.
  induction oc as [|[k0 o0] t IH]; intros mine Hnd; [reflexivity|].
  cbn [map fst] in Hnd. inversion Hnd as [|? ? Hnotin Hnd']; subst.
  rewrite merge_children_cons, (IH _ Hnd'), (alookup_ainsert leqb leqb_eq). cbn [alookup].
  destruct (leqb k k0) eqn:Ek; [|reflexivity].
  apply leqb_eq in Ek. subst k0. rewrite (alookup_notin_none leqb leqb_eq _ _ Hnotin). reflexivity.
Qed.

Fixpoint wf_tree (n : node) : Prop :=
  match n with
  | Node _ _ _ children =>
    NoDup (map fst children) /\
    (fix all (cs : list (label * node)) : Prop :=
       match cs with [] => True | (_, c) :: t => wf_tree c /\ all t end) children
  end.

Lemma wf_tree_unfold n :
  wf_tree n <-> NoDup (map fst (n_children n)) /\ Forall (fun kc => wf_tree (snd kc)) (n_children n).
Proof.
  destruct n as [nsd this wild children]. cbn [wf_tree n_children]. apply and_iff_compat_l.
  induction children as [|[k c] t IH]; [split; [constructor|exact (fun _ => I)]|].
  rewrite Forall_cons_iff. cbn [snd]. tauto.
Qed.

Lemma wf_tree_child n l c : wf_tree n -> alookup leqb l (n_children n) = Some c -> wf_tree c.
Proof.
  intros H Hl. apply wf_tree_unfold in H as [_ H]. exact (alookup_forall leqb leqb_eq _ _ _ _ H Hl).
Qed.

Lemma wf_tree_new nsd : wf_tree (node_new nsd).
Proof. cbn. split; [constructor|exact I]. Qed.

Lemma node_insert_wf_tree w r : forall rp nd nd',
  wf_tree nd -> node_insert w rp r nd = Ok nd' -> wf_tree nd'.
Proof.
  induction rp as [|l rest IH]; intros nd nd' Hwf H; cbn [node_insert] in H.
  - apply wf_tree_unfold in Hwf. destruct w; inversion H; subst; apply wf_tree_unfold; exact Hwf.
  - apply wf_tree_unfold in Hwf as [Hk Hall].
    destruct (alookup leqb l (n_children nd)) as [child|] eqn:El.
    + destruct (node_insert w rest r child) as [child'| | |] eqn:Ec; cbn [bind] in H; try discriminate.
      inversion H; subst. apply wf_tree_unfold. cbn [n_children]. split; [rewrite areplace_keys; exact Hk|].
      apply (areplace_forall leqb leqb_eq); [exact Hall|]. cbn [snd].
      exact (IH _ _ (alookup_forall leqb leqb_eq _ _ _ _ Hall El) Ec).
    + destruct (from_labels (l :: labels (n_nsdname nd))) as [nsd|]; [|discriminate].
      destruct (node_insert w rest r (node_new nsd)) as [child'| | |] eqn:Ec; cbn [bind] in H; try discriminate.
      inversion H; subst. apply wf_tree_unfold. cbn [n_children]. split.
      * rewrite map_app. cbn [map fst]. apply NoDup_snoc; [exact Hk|]. apply (alookup_none_notin leqb leqb_eq). exact El.
      * apply Forall_app. split; [exact Hall|]. constructor; [|constructor]. cbn [snd].
        eapply IH; [apply wf_tree_new|exact Ec].
Qed.

Lemma zone_apply_all_wf_tree : forall ops z z',
  wf_tree (z_records z) -> zone_apply_all z ops = Ok z' -> wf_tree (z_records z').
Proof.
  induction ops as [|o ops IH]; intros z z' Hwf H; cbn [zone_apply_all] in H; [inversion H; subst; exact Hwf|].
  destruct (zone_apply z o) as [z1| | |] eqn:E1; cbn [bind] in H; try discriminate.
  apply (IH z1 z'); [|exact H]. unfold zone_apply, zone_insert in E1.
  destruct (relative_rp z (op_name o)) as [rp|]; [|inversion E1; subst; exact Hwf].
  destruct (node_insert _ rp _ (z_records z)) as [nd| | |] eqn:En; cbn [bind] in E1; try discriminate.
  inversion E1; subst. cbn [z_records]. eapply node_insert_wf_tree; eassumption.
Qed.

Theorem zone_build_wf_tree apex s ops z : zone_build apex s ops = Ok z -> wf_tree (z_records z).
Proof.
  unfold zone_build. apply zone_apply_all_wf_tree. destruct s; cbn; (split; [constructor|exact I]).
Qed.

(* merge keeps child labels unique *)
Lemma merge_children_keys : forall oc mine, NoDup (map fst mine) -> NoDup (map fst (merge_children oc mine)).
Proof.
  induction oc as [|[k o] t IH]; intros mine Hm; [exact Hm|].
  rewrite merge_children_cons. apply IH, (ainsert_nodup leqb leqb_eq), Hm.
Qed.

Lemma node_ind_nested (P : node -> Prop) :
  (forall nsd this wild children, Forall (fun kc => P (snd kc)) children -> P (Node nsd this wild children)) ->
  forall n, P n.
Proof.
  intro H. fix IH 1. intros [nsd this wild children]. apply H.
  induction children as [|[k c] t IHt]; constructor; [apply IH|exact IHt].
Qed.

Lemma merge_children_wf : forall oc mine,
  Forall (fun kc => wf_tree (snd kc)) mine ->
  Forall (fun kc => wf_tree (snd kc) /\ forall a, wf_tree a -> wf_tree (node_merge a (snd kc))) oc ->
  Forall (fun kc => wf_tree (snd kc)) (merge_children oc mine).
Proof.
  induction oc as [|[k o] t IH]; intros mine Hm Ho; [exact Hm|].
  apply Forall_cons_iff in Ho as [[Hwo Hmo] Ho]. cbn [snd] in *.
  rewrite merge_children_cons. apply IH; [|exact Ho]. apply (ainsert_forall leqb leqb_eq); [exact Hm|]. cbn [snd].
  destruct (alookup leqb k mine) as [m|] eqn:E; [|exact Hwo].
  apply Hmo. exact (alookup_forall leqb leqb_eq _ _ _ _ Hm E).
Qed.

Theorem node_merge_wf_tree : forall b a, wf_tree a -> wf_tree b -> wf_tree (node_merge a b).
Proof.
  induction b as [nsd this wild children IH] using node_ind_nested. intros a Ha Hb.
  rewrite node_merge_unfold. apply wf_tree_unfold. cbn [n_children].
  apply wf_tree_unfold in Ha as [Hak Hac]. apply wf_tree_unfold in Hb as [Hbk Hbc]. cbn [n_children] in *.
  split; [apply merge_children_keys, Hak|].
  apply merge_children_wf; [exact Hac|].
  rewrite Forall_forall in *. intros kc Hkc. split; [apply Hbc, Hkc|].
  intros a' Ha'. apply (IH kc Hkc); [exact Ha'|apply Hbc, Hkc].
Qed.

Lemma fold_push_nil_l acc : fold_left push_new [] acc = acc.
Proof. reflexivity. Qed.

Lemma node_ok_union_left apexl za zb q n :
  node_ok apexl za q n -> ~ exists_node zb (rev q) -> node_ok apexl (fz_union za zb) q n.
Proof.
  intros [A B C D E F] Hn. destruct (no_node_no_recs zb (rev q) Hn) as (Hnorm & Hwild & Hhas).
  constructor; try assumption.
  - intro t. cbn [fz_union f_norm]. rewrite recs_at_add_all, Hnorm. apply C.
  - intro t. cbn [fz_union f_wild]. rewrite recs_at_add_all, Hwild. apply E.
  - rewrite has_wild_union, Hhas, orb_false_r. exact F.
Qed.

Lemma node_ok_union_right apexl za zb q n :
  node_ok apexl zb q n -> ~ exists_node za (rev q) -> node_ok apexl (fz_union za zb) q n.
Proof.
  intros [A B C D E F] Hn. destruct (no_node_no_recs za (rev q) Hn) as (Hnorm & Hwild & Hhas).
  constructor; try assumption.
  - intro t. cbn [fz_union f_norm]. rewrite recs_at_add_all, Hnorm, <- C.
    rewrite fold_push_nil; [reflexivity|]. apply wf_rmap_get, B.
  - intro t. cbn [fz_union f_wild]. rewrite recs_at_add_all, Hwild, <- E.
    rewrite fold_push_nil; [reflexivity|]. apply wf_rmap_get, D.
  - rewrite has_wild_union, Hhas. exact F.
Qed.

(* an entry of the one zone (b = false: the first, b = true: the second) at a name the other lacks *)
Lemma entry_union (b : bool) apexl pre za zb l rq o :
  entry apexl pre (if b then zb else za) (l :: rq) o -> entry apexl pre (if b then za else zb) [l] None ->
  entry apexl pre (fz_union za zb) (l :: rq) o.
Proof.
  intros H Hl. assert (Hn : ~ exists_node (if b then za else zb) (rev (pre ++ l :: rq)))
    by (intro Hex; apply Hl; eapply exists_node_anc; [apply is_suffix_rev_snoc|exact Hex]).
  revert H. destruct o as [n|]; cbn [entry]; intro H.
  - destruct H as [Hex Hok]. split; [intro Hrq; apply exists_node_union; destruct b; auto|].
    destruct b; [apply node_ok_union_right|apply node_ok_union_left]; assumption.
  - intro Hex. apply exists_node_union in Hex as [Hex|Hex]; destruct b; contradiction.
Qed.

Lemma node_ok_merge apexl za zb q a b :
  node_ok apexl za q a -> node_ok apexl zb q b -> node_ok apexl (fz_union za zb) q (node_merge a b).
Proof.
  intros [A1 B1 C1 D1 E1 F1] [A2 B2 C2 D2 E2 F2].
  assert (Hw : wf_rmap (wmap (node_merge a b)) /\
               forall t, rget t (wmap (node_merge a b)) = fold_left push_new (rget t (wmap b)) (rget t (wmap a))).
  { rewrite node_merge_unfold. unfold wmap in *. cbn [n_wild]. destruct (n_wild b) as [ow|]; [destruct (n_wild a) as [mw|]|]; cbn [merge_wild].
    - split; [apply wf_rmap_merge_zrs; assumption|]. intro t. apply rget_merge_zrs. exact D2.
    - split; [exact D2|]. intro t. symmetry. apply fold_push_nil. apply wf_rmap_get, D2.
    - split; [exact D1|]. reflexivity. }
  destruct Hw as [Hw1 Hw2]. rewrite node_merge_unfold in *.
  constructor; cbn [n_nsdname n_this]; try assumption.
  - apply wf_rmap_merge_zrs; assumption.
  - intro t. cbn [fz_union f_norm]. rewrite (rget_merge_zrs t _ _ B2), C1, C2, recs_at_add_all. reflexivity.
  - intro t. cbn [fz_union f_wild]. rewrite Hw2, E1, E2, recs_at_add_all. reflexivity.
  - rewrite has_wild_union, <- F1, <- F2. cbn [n_wild]. destruct (n_wild a), (n_wild b); reflexivity.
Qed.

Theorem merge_Rsub apexl za zb : forall rq a b pre,
  Rsub apexl pre a za -> Rsub apexl pre b zb -> wf_tree b ->
  entry apexl pre (fz_union za zb) rq (node_at rq (node_merge a b)).
Proof.
  induction rq as [|l rq IH]; intros a b pre Ha Hb Hwf.
  - cbn [node_at entry]. split; [intro F; contradiction|].
    pose proof (Ha []) as Ha0. pose proof (Hb []) as Hb0. cbn [node_at entry] in Ha0, Hb0.
    apply node_ok_merge; [apply Ha0|apply Hb0].
  - rewrite node_merge_unfold. cbn [node_at n_children].
    pose proof (proj1 (wf_tree_unfold b) Hwf) as [Hbk _].
    rewrite (alookup_merge_children l _ _ Hbk).
    pose proof (Ha [l]) as Hal. pose proof (Hb [l]) as Hbl. cbn [node_at] in Hal, Hbl.
    destruct (alookup leqb l (n_children b)) as [o|] eqn:Eb.
    + destruct (alookup leqb l (n_children a)) as [m|] eqn:Ea.
      * apply entry_shift.
        -- apply IH; [eapply Rsub_child; eassumption|eapply Rsub_child; eassumption|eapply wf_tree_child; eassumption].
        -- apply exists_node_union. left. destruct Hal as [Hex _]. apply Hex. discriminate.
      * pose proof (Hb (l :: rq)) as Hbq. cbn [node_at] in Hbq. rewrite Eb in Hbq.
        exact (entry_union true _ _ _ _ _ _ _ Hbq Hal).
    + pose proof (Ha (l :: rq)) as Haq. cbn [node_at] in Haq.
      exact (entry_union false _ _ _ _ _ _ _ Haq Hbl).
Qed.

(* ZoneRecords::merge of trees representing za and zb represents their union, ordinary and wildcard
   records alike *)
Theorem merge_flat_union apexl a b za zb :
  R apexl a za -> R apexl b zb -> wf_tree b -> R apexl (node_merge a b) (fz_union za zb).
Proof. intros Ha Hb Hwf rq. apply merge_Rsub; assumption. Qed.

Lemma rget_aremove t k : forall m, NoDup (map fst m) ->
  rget t (aremove N.eqb k m) = if t =? k then [] else rget t m.
Proof. intros m Hnd. unfold rget. rewrite (alookup_aremove N.eqb N.eqb_eq _ _ _ Hnd). destruct (t =? k); reflexivity. Qed.

Lemma wf_rmap_aremove k m : wf_rmap m -> wf_rmap (aremove N.eqb k m).
Proof. intros [Hk Hall]. split; [apply (aremove_nodup N.eqb), Hk|apply aremove_forall, Hall]. Qed.

Lemma recs_at_drop_soa p t : forall l,
  recs_at (filter (fun pr => negb (is_nil (fst pr) && (zr_type (snd pr) =? RT_SOA))) l) p t
  = if is_nil p && (t =? RT_SOA) then [] else recs_at l p t.
Proof.
  unfold recs_at. induction l as [|[q r] l IH]; cbn [filter fst snd]; [destruct (_ && _); reflexivity|].
  destruct (lleqb q p && (zr_type r =? t)) eqn:Es.
  - (* a record at (p, t): it is dropped iff (p, t) is the apex SOA *)
    apply andb_true_iff in Es as [Hq Ht]. apply lleqb_eq in Hq. apply N.eqb_eq in Ht. subst q t.
    destruct (is_nil p && (zr_type r =? RT_SOA)); cbn [negb filter fst snd map];
      rewrite ?lleqb_refl, ?N.eqb_refl; cbn [andb map snd]; rewrite IH; reflexivity.
  - destruct (negb (is_nil q && (zr_type r =? RT_SOA))); cbn [filter fst snd]; rewrite ?Es; exact IH.
Qed.

Lemma exists_node_drop_soa z q : exists_node (fz_drop_soa z) q <-> exists_node z q.
Proof.
  unfold exists_node, entries, fz_drop_soa. cbn [f_norm f_wild]. split.
  - intros [->|(q' & r & Hin & Hs)]; [left; reflexivity|]. right. exists q', r. split; [|exact Hs].
    apply in_app_or in Hin as [Hin|Hin]; apply in_or_app; [left|right; exact Hin].
    apply filter_In in Hin. tauto.
  - intros [->|(q' & r & Hin & Hs)]; [left; reflexivity|].
    destruct q as [|x q]; [left; reflexivity|]. right. exists q', r. split; [|exact Hs].
    apply in_app_or in Hin as [Hin|Hin]; apply in_or_app; [left|right; exact Hin].
    apply filter_In. split; [exact Hin|]. cbn [fst snd].
    destruct q' as [|y q']; [apply is_suffix_of_nil in Hs; discriminate|reflexivity].
Qed.

Lemma R_drop_soa apexl a za :
  R apexl a za ->
  R apexl (Node (n_nsdname a) (aremove N.eqb RT_SOA (n_this a)) (n_wild a) (n_children a)) (fz_drop_soa za).
Proof.
  intros H rq. pose proof (H rq) as Hrq. destruct rq as [|l rq].
  - cbn [node_at entry app] in *. destruct Hrq as [_ [A B C D E F]]. split; [intro X; contradiction|].
    constructor; cbn [n_nsdname n_this n_wild wmap]; try assumption.
    + apply wf_rmap_aremove, B.
    + intro t. rewrite (rget_aremove t RT_SOA _ (proj1 B)). cbn [fz_drop_soa f_norm rev].
      rewrite recs_at_drop_soa. cbn [is_nil andb]. rewrite C. reflexivity.
  - cbn [node_at n_children] in *. unfold entry in *. cbn [app] in *.
    destruct (match alookup leqb l (n_children a) with Some c => node_at rq c | None => None end) as [n|].
    + destruct Hrq as [Hex [A B C D E F]]. split; [intro X; apply exists_node_drop_soa, Hex, X|].
      constructor; try assumption.
      intro t. cbn [fz_drop_soa f_norm]. rewrite recs_at_drop_soa, is_nil_rev. apply C.
    + intro Hex. apply Hrq. exact (proj1 (exists_node_drop_soa _ _) Hex).
Qed.

(* Zone::merge on trees representing flat zones gives a tree representing fz_merge:
   the union, the first zone's apex SOA record dropped when the second supplies a SOA *)
Theorem zone_merge_repr a b fa fb m :
  R (labels (z_apex a)) (z_records a) fa -> R (labels (z_apex b)) (z_records b) fb ->
  wf_tree (z_records b) -> zone_merge a b = Some m ->
  z_apex m = z_apex a /\
  R (labels (z_apex m)) (z_records m) (fz_merge fa fb (zone_is_authoritative b)).
Proof.
  intros Ha Hb Hwf Hm. unfold zone_merge in Hm.
  destruct (dname_eqb (z_apex a) (z_apex b)) eqn:E; cbn [negb] in Hm; [|discriminate].
  apply dname_eqb_eq in E. rewrite <- E in Hb.
  unfold zone_is_authoritative, fz_merge. destruct (z_soa b) as [so|]; inversion Hm; subst m; cbn [z_apex z_records].
  - split; [reflexivity|]. apply merge_flat_union; [apply R_drop_soa, Ha|exact Hb|exact Hwf].
  - split; [reflexivity|]. apply merge_flat_union; assumption.
Qed.

(* the SOA record set at the apex is the singleton of the zone's SOA (empty if it has none) *)
Definition soa_inv (z : zone) : Prop :=
  rget RT_SOA (n_this (z_records z)) = match z_soa z with Some so => [soa_zrec so] | None => [] end.

Lemma soa_inv_new apex s : soa_inv (zone_new apex s).
Proof. unfold soa_inv. destruct s; reflexivity. Qed.

(* after a merge the zone's SOA is the last one supplied, and the apex holds exactly that one SOA RR *)
Theorem zone_merge_one_soa a b m :
  wf_rmap (n_this (z_records a)) -> wf_rmap (n_this (z_records b)) ->
  soa_inv a -> soa_inv b -> zone_merge a b = Some m ->
  z_soa m = match z_soa b with Some so => Some so | None => z_soa a end /\ soa_inv m.
Proof.
  intros Hwa Hwb Hia Hib Hm. unfold zone_merge in Hm.
  destruct (negb (dname_eqb (z_apex a) (z_apex b))); [discriminate|].
  unfold soa_inv in *. destruct (z_soa b) as [sb|] eqn:Eb; inversion Hm; subst m; cbn [z_soa z_records];
    (split; [reflexivity|]); rewrite node_merge_unfold; cbn [n_this]; rewrite (rget_merge_zrs _ _ _ Hwb), Hib.
  - rewrite (rget_aremove _ _ _ (proj1 Hwa)), N.eqb_refl. reflexivity.
  - exact Hia.
Qed.

(* insertions other than an ordinary SOA-typed record at the apex leave the apex SOA set alone, hence
   keep [soa_inv] *)
Lemma node_insert_this_other w r : forall rp nd nd',
  node_insert w rp r nd = Ok nd' -> (w = true \/ rp <> [] \/ zr_type r <> RT_SOA) ->
  rget RT_SOA (n_this nd') = rget RT_SOA (n_this nd).
Proof.
  intros rp nd nd' H Hc. destruct rp as [|l rest]; cbn [node_insert] in H.
  - destruct w; inversion H; subst; cbn [n_this]; [reflexivity|].
    rewrite rget_insert. destruct Hc as [Hc|[Hc|Hc]]; [discriminate|contradiction|].
    apply N.eqb_neq in Hc. rewrite Hc. reflexivity.
  - destruct (alookup leqb l (n_children nd)).
    + destruct (node_insert w rest r n); cbn [bind] in H; inversion H; subst. reflexivity.
    + destruct (from_labels (l :: labels (n_nsdname nd))); [|discriminate].
      destruct (node_insert w rest r (node_new d)); cbn [bind] in H; inversion H; subst. reflexivity.
Qed.

Lemma zone_apply_soa_inv z o z' :
  soa_inv z -> zone_apply z o = Ok z' ->
  (op_wild o = true \/ rel_path (labels (z_apex z)) (op_name o) <> Some [] \/ op_type o <> RT_SOA) ->
  soa_inv z'.
Proof.
  intros Hi H Hc. unfold zone_apply, zone_insert in H. rewrite relative_rp_rel in H.
  destruct (rel_path (labels (z_apex z)) (op_name o)) as [p|] eqn:Ep; cbn [option_map] in H; [|inversion H; subst; exact Hi].
  destruct (node_insert _ (rev p) _ (z_records z)) as [nd| | |] eqn:En; cbn [bind] in H; try discriminate.
  inversion H; subst. unfold soa_inv in *. cbn [z_soa z_records]. rewrite <- Hi.
  eapply node_insert_this_other; [exact En|]. cbn [zr_type].
  destruct Hc as [Hc|[Hc|Hc]]; [left; exact Hc| |right; right; exact Hc].
  right. left. intro E. apply Hc. destruct p; [reflexivity|]. cbn [rev] in E. apply app_eq_nil in E as [_ E]. discriminate.
Qed.
