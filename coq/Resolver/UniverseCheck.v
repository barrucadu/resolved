(* Resolver/UniverseCheck.v -- the hypotheses the C07 theorems make about a universe, its root hints
   and a question (RecursiveCorrect.v, RecursiveDepth1.v) as boolean functions.  Each comes with the
   lemma that the value [true] establishes the hypothesis, so that on a concrete universe the
   hypothesis is settled by one evaluation.  The later files of the family add, in the same way, the
   checks of the hypotheses they introduce. *)
From RV Require Import Base.Prelude Name.NameModel Wire.WireTypes Wire.WireModel
     Wire.WireEncodeProofs Zone.ZoneFlat Zone.ZoneProofs Resolver.ValidateModel
     Resolver.TransportModel Resolver.Universe Resolver.RecursiveCorrect Resolver.RecursiveDepth1.

Lemma rr_eqb_eq a b : rr_eqb a b = true -> a = b.
Proof.
  unfold rr_eqb. rewrite !andb_true_iff, !N.eqb_eq, dname_eqb_eq, rdata_eqb_eq.
  destruct a, b; cbn. intros ((((-> & ->) & ->) & ->) & ->). reflexivity.
Qed.

Lemma rrs_eqb_eq : forall a b, rrs_eqb a b = true -> a = b.
Proof.
  induction a as [|x a IH]; destruct b as [|y b]; cbn [rrs_eqb]; try discriminate; [reflexivity|].
  intro H. apply andb_true_iff in H as [H1 H2]. rewrite (rr_eqb_eq _ _ H1), (IH _ H2). reflexivity.
Qed.

Definition uzone_eqb (a b : uzone) : bool :=
  dname_eqb (uz_apex a) (uz_apex b) && rr_eqb (uz_soa a) (uz_soa b) && rrs_eqb (uz_rrs a) (uz_rrs b)
  && rrs_eqb (uz_cuts a) (uz_cuts b) && rrs_eqb (uz_glue a) (uz_glue b).

Lemma uzone_eqb_eq a b : uzone_eqb a b = true -> a = b.
Proof.
  unfold uzone_eqb. rewrite !andb_true_iff, dname_eqb_eq. intros ((((H1 & H2) & H3) & H4) & H5).
  apply rr_eqb_eq in H2. apply rrs_eqb_eq in H3, H4, H5. destruct a, b; cbn in *. congruence.
Qed.

Definition is_none {A} (o : option A) : bool := match o with None => true | Some _ => false end.
Definition is_name (o : option dname) (n : dname) : bool :=
  match o with Some c => dname_eqb c n | None => false end.
Definition is_zone (o : option uzone) (z : uzone) : bool :=
  match o with Some z' => uzone_eqb z' z | None => false end.

Lemma is_none_eq {A} (o : option A) : is_none o = true -> o = None.
Proof. destruct o; [discriminate|reflexivity]. Qed.
Lemma is_name_eq o n : is_name o n = true -> o = Some n.
Proof. destruct o as [c|]; [|discriminate]. intro H. apply dname_eqb_eq in H. rewrite H. reflexivity. Qed.
Lemma is_zone_eq o z : is_zone o z = true -> o = Some z.
Proof. destruct o as [z'|]; [|discriminate]. intro H. rewrite (uzone_eqb_eq _ _ H). reflexivity. Qed.

Definition servesb (u : universe) (a : ip) (z : uzone) (n : dname) : bool :=
  match zones_of_server u a with Some zs => is_zone (best_zone zs n None) z | None => false end.

Lemma servesb_sound u a z q : servesb u a z (q_name q) = true -> serves_owner u a z q.
Proof.
  unfold servesb, serves_owner. destruct (zones_of_server u a) as [zs|]; [|discriminate].
  intro H. exists zs. split; [reflexivity|apply is_zone_eq, H].
Qed.

Definition answering_zoneb (u : universe) (z : uzone) (q : question) : bool :=
  is_zone (best_zone (u_zones u) (q_name q) None) z
  && is_none (cut_owner z (q_name q)) && is_none (cname_at (rrs_at z (q_name q)) (q_type q))
  && forallb (fun r => negb (rr_is_unknown r)) (zone_data z)
  && (rr_type (uz_soa z) =? RT_SOA) && dname_eqb (rr_name (uz_soa z)) (uz_apex z).

Lemma answering_zoneb_sound u z q : answering_zoneb u z q = true -> answering_zone u z q.
Proof.
  unfold answering_zoneb. rewrite !andb_true_iff, forallb_forall. intros (((((H1 & H2) & H3) & H4) & H5) & H6).
  split; [split; [apply is_zone_eq, H1|split; apply is_none_eq; assumption]|].
  split; [|split; [apply N.eqb_eq, H5|apply dname_eqb_eq, H6]].
  apply Forall_forall. intros r Hr. apply negb_true_iff, H4, Hr.
Qed.

(* the zones a server holds; [zones_of_server] finds them by address *)
Definition server_zones (u : universe) (s : ip * list dname) : list uzone :=
  filter (fun z => existsb (dname_eqb (uz_apex z)) (snd s)) (u_zones u).

Lemma zones_of_server_in u a zs : zones_of_server u a = Some zs -> exists s, In s (u_servers u) /\ zs = server_zones u s.
Proof.
  unfold zones_of_server. destruct (find _ (u_servers u)) as [s|] eqn:E; [|discriminate].
  intro H. inversion H. exists s. split; [exact (proj1 (find_some _ _ E))|reflexivity].
Qed.

Definition serve_fitsb (u : universe) (q : question) : bool :=
  forallb (fun s =>
    let m := reply_message q (serve_name CHAIN_FUEL (server_zones u s) (q_name q) (q_type q) true) in
    wf_message_b m && match encode m with Ok bs => llen bs <=? 512 | _ => false end) (u_servers u).

Lemma serve_fitsb_sound u q : serve_fitsb u q = true -> serve_fits u q.
Proof.
  unfold serve_fitsb, serve_fits, serve. rewrite forallb_forall. intros H a m E.
  destruct (zones_of_server u a) as [zs|] eqn:Ez; [|discriminate]. apply zones_of_server_in in Ez as (s & Hs & ->).
  specialize (H s Hs). cbv zeta in H. inversion E; subst m. apply andb_true_iff in H as [H1 H2].
  split; [apply wf_message_b_sound, H1|]. destruct (encode _) as [bs| | |]; try discriminate.
  exists bs. split; [reflexivity|apply N.leb_le, H2].
Qed.

Definition plain_questionb (u : universe) (q : question) : bool :=
  wf_question_b q && negb (q_type q =? RT_CNAME) && negb (q_type q =? QT_Wildcard)
  && match encode (make_request q false) with Ok req => llen req <=? 512 | _ => true end
  && serve_fitsb u q.

Lemma plain_questionb_sound u q : plain_questionb u q = true -> plain_question u q.
Proof.
  unfold plain_questionb. rewrite !andb_true_iff, !negb_true_iff, !N.eqb_neq. intros ((((H1 & H2) & H3) & H4) & H5).
  split; [apply wf_question_b_sound, H1|]. split; [exact H2|]. split; [exact H3|]. split; [|apply serve_fitsb_sound, H5].
  intros req E. rewrite E in H4. apply N.leb_le, H4.
Qed.

Definition same_labels (h : dname) (g : rr) : bool := lleqb (labels (rr_name g)) (labels h).
Definition owned_by_name (h : dname) (g : rr) : bool := dname_eqb (rr_name g) h.

Lemma same_labels_eq h g : labels (rr_name g) = labels h -> same_labels h g = true.
Proof. unfold same_labels. intros ->. apply lleqb_refl. Qed.
Lemma owned_by_name_eq h g : rr_name g = h -> owned_by_name h g = true.
Proof. unfold owned_by_name. intros ->. apply dname_eqb_refl. Qed.

Definition zone_inb (z : uzone) (zs : list uzone) : bool := existsb (uzone_eqb z) zs.
Lemma zone_inb_in z zs : zone_inb z zs = true -> In z zs.
Proof. unfold zone_inb. rewrite existsb_exists. intros (z' & Hin & E). rewrite (uzone_eqb_eq _ _ E). exact Hin. Qed.

(* the A records of [l] that [same] selects hold addresses of servers whose closest zone for the
   name is [z] *)
Definition a_leadb (u : universe) (z : uzone) (n : dname) (same : rr -> bool) (l : list rr) : bool :=
  forallb (fun g => implb (same g && (rr_type g =? RT_A))
                          match rr_data g with RD_A a => servesb u (inl a) z n | _ => false end) l.

Lemma a_leadb_sound u z q same l : a_leadb u z (q_name q) same l = true ->
  forall g, In g l -> same g = true -> rr_type g = RT_A -> exists a, rr_data g = RD_A a /\ serves_owner u (inl a) z q.
Proof.
  unfold a_leadb. rewrite forallb_forall. intros H g Hg Hs Ht. specialize (H g Hg).
  rewrite Hs, Ht in H. cbn in H. destruct (rr_data g) as [a| | | | | | |]; try discriminate.
  exists a. split; [reflexivity|apply servesb_sound, H].
Qed.

Lemma a_leadb_data u z q same l : a_leadb u z (q_name q) same l = true ->
  forall g a, In g l -> same g = true -> rr_type g = RT_A -> rr_data g = RD_A a -> serves_owner u (inl a) z q.
Proof.
  intros H g a Hg Hs Ht Hd. destruct (a_leadb_sound u z q same l H g Hg Hs Ht) as (a' & Hd' & Hsrv).
  rewrite Hd in Hd'. inversion Hd'; subst a'. exact Hsrv.
Qed.

(* the name owns nothing in the glue or the data of the zone (the glue shortcut, finding F11) *)
Definition owns_nothingb (z : uzone) (n : dname) : bool :=
  forallb (fun r => negb (owned_by_name n r)) (uz_glue z ++ uz_rrs z).

Lemma owns_nothingb_sound z n : owns_nothingb z n = true -> forall r, In r (uz_glue z ++ uz_rrs z) -> rr_name r <> n.
Proof.
  unfold owns_nothingb. rewrite forallb_forall. intros H r Hr E. specialize (H r Hr).
  rewrite (owned_by_name_eq _ _ E) in H. discriminate.
Qed.

(* [P] holds of every host named by an NS record of [l] that [c] owns *)
Definition ns_hosts_allb (l : list rr) (c : dname) (P : dname -> bool) : bool :=
  forallb (fun r => match is_ns_rr r with Some h => implb (owned_by_name c r) (P h) | None => true end) l.

Lemma ns_hosts_allb_sound l c P : ns_hosts_allb l c P = true ->
  forall h, (exists r, In r l /\ rr_name r = c /\ is_ns_rr r = Some h) -> P h = true.
Proof.
  unfold ns_hosts_allb. rewrite forallb_forall. intros H h (r & Hr & Hn & Hh). specialize (H r Hr).
  rewrite Hh, (owned_by_name_eq _ _ Hn) in H. exact H.
Qed.

(* the zone holds, in its glue or data, a record for [h] of one of the [types] with a positive TTL *)
Definition has_glueb (z : uzone) (types : list N) (h : dname) : bool :=
  existsb (fun g => owned_by_name h g && existsb (N.eqb (rr_type g)) types && (0 <? rr_ttl g)) (uz_glue z ++ uz_rrs z).

Lemma has_glueb_sound z types h : has_glueb z types h = true ->
  exists g, In g (uz_glue z ++ uz_rrs z) /\ rr_name g = h /\ In (rr_type g) types /\ 0 < rr_ttl g.
Proof.
  unfold has_glueb, owned_by_name. rewrite existsb_exists. intros (g & Hg & H).
  rewrite !andb_true_iff, dname_eqb_eq, existsb_exists, N.ltb_lt in H. destruct H as ((H1 & t & Ht & E) & H3).
  apply N.eqb_eq in E. subst t. exists g. auto.
Qed.

Definition hint_okb (r : rr) : bool :=
  wf_name_b (rr_name r) &&
  match rr_data r with
  | RD_Name _ => (rr_type r =? RT_NS) && lleqb (labels (rr_name r)) [[]]
  | RD_A _ => rr_type r =? RT_A
  | _ => false
  end.

Lemma hint_okb_sound r : hint_okb r = true -> hint_ok r.
Proof.
  unfold hint_okb. intro H. apply andb_true_iff in H as [H1 H2]. split; [apply wf_name_b_sound, H1|].
  destruct (rr_data r) as [a|h| | | | | |]; try discriminate.
  - right. split; [apply N.eqb_eq, H2|exists a; reflexivity].
  - apply andb_true_iff in H2 as [H2 H3]. left. split; [apply N.eqb_eq, H2|]. split; [apply lleqb_eq, H3|exists h; reflexivity].
Qed.

(* the hints name a nameserver, and hold no record that answers the question *)
Definition hints_silentb (hints : list rr) (q : question) : bool :=
  existsb (fun r => rr_type r =? RT_NS) hints
  && forallb (fun r => implb (same_labels (q_name q) r) (negb (rtype_matches (rr_type r) (q_type q)))) hints.

Lemma hints_silentb_sound hints q : hints_silentb hints q = true ->
  (exists r, In r hints /\ rr_type r = RT_NS)
  /\ (forall r, In r hints -> labels (rr_name r) = labels (q_name q) -> rtype_matches (rr_type r) (q_type q) = false).
Proof.
  unfold hints_silentb. rewrite andb_true_iff, forallb_forall, existsb_exists. intros [(r & Hr & Ht) H]. split.
  - exists r. split; [exact Hr|apply N.eqb_eq, Ht].
  - intros g Hg Hl. specialize (H g Hg). rewrite (same_labels_eq _ _ Hl) in H. apply negb_true_iff, H.
Qed.

(* the hints hold a record of one of the [types] for the host [h] *)
Definition has_hintb (hints : list rr) (types : list N) (h : dname) : bool :=
  existsb (fun g => same_labels h g && existsb (N.eqb (rr_type g)) types) hints.

Lemma has_hintb_sound hints types h : has_hintb hints types h = true ->
  exists g, In g hints /\ labels (rr_name g) = labels h /\ In (rr_type g) types.
Proof.
  unfold has_hintb. rewrite existsb_exists. intros (g & Hg & H). apply andb_true_iff in H as [Hl Ht].
  apply existsb_exists in Ht as (t & Ht & E). apply N.eqb_eq in E. subst t.
  exists g. split; [exact Hg|]. split; [apply lleqb_eq, Hl|exact Ht].
Qed.

Definition hints_forb (u : universe) (zroot : uzone) (hints : list rr) (q : question) : bool :=
  forallb hint_okb hints
  && forallb (fun r => match is_ns_rr r with
                       | Some h => wf_name_b h && has_hintb hints [RT_A] h
                       | None => true
                       end) hints
  && a_leadb u zroot (q_name q) (fun _ => true) hints
  && hints_silentb hints q.

Lemma is_ns_rr_some r h : rr_type r = RT_NS -> rr_data r = RD_Name h -> is_ns_rr r = Some h.
Proof. unfold is_ns_rr. intros -> ->. reflexivity. Qed.

Lemma hints_forb_sound u zroot hints q : hints_forb u zroot hints q = true -> hints_for u zroot hints q.
Proof.
  unfold hints_forb. rewrite !andb_true_iff, !forallb_forall. intros (((H1 & H3) & H4) & H5).
  destruct (hints_silentb_sound _ _ H5) as [S1 S2].
  split; [apply Forall_forall; intros r Hr; apply hint_okb_sound, H1, Hr|]. split; [exact S1|]. split; [|split; [|exact S2]].
  - intros r h Hr Ht Hd. specialize (H3 r Hr). rewrite (is_ns_rr_some r h Ht Hd) in H3.
    apply andb_true_iff in H3 as [H3 H3']. split; [apply wf_name_b_sound, H3|].
    destruct (has_hintb_sound _ _ _ H3') as (g & Hg & Hl & [Ht'|[]]). exists g. auto.
  - intros g a Hg. exact (a_leadb_data u zroot q _ hints H4 g a Hg eq_refl).
Qed.
