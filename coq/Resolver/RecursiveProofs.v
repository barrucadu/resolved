(* Resolver/RecursiveProofs.v -- lemmas about the recursive resolver model
   (Resolver/RecursiveModel.v over Resolver/TransportModel.v) for C08 (termination
   for every oracle, no panic, provenance), C18 (whole-log theorems), C06
   (only_validated_is_cached), C01 / C10 (network-mode clauses) and C07
   (referral progress). *)
From Coq Require Import Arith.
From RV Require Import Base.Prelude Name.NameModel Wire.WireTypes Wire.WireModel Wire.WireGrammar Wire.WireEncodeProofs Wire.WireDecodeProofs
     Zone.ZoneModel Resolver.LocalModel Resolver.LocalSpec Resolver.LocalProofs
     Resolver.ValidateModel Resolver.ValidateSpec Resolver.ValidateProofs
     Resolver.TransportModel Resolver.RecursiveModel Resolver.ResolverFacts.
(* re-exported: the facts about cut_at_local_authority are used together with these lemmas *)
From RV Require Export Resolver.CutFacts.

(* octets are [N]; what a peer sends are octets *)
Definition oracle_bytes_ok (o : oracle) : Prop :=
  forall n p a req bs, t_bytes (o n p a req) = Some bs -> Forall (fun b => b < 256) bs.

Definition bad_abort (w : abort) : Prop := w = APanic \/ w = AFuel.

Lemma decode_opt_fine ob :
  (forall bs, ob = Some bs -> Forall (fun b => b < 256) bs) ->
  forall w, decode_opt ob = Abort w -> False.
Proof.
  intros H w. unfold decode_opt. destruct ob as [bs|]; [|discriminate].
  destruct (decode_total bs (H bs eq_refl)) as [HP HF].
  destruct (decode bs); try discriminate; congruence.
Qed.

Lemma Some_inj {A} (a b : A) : Some a = Some b -> a = b.
Proof. intro H; inversion H; reflexivity. Qed.

Lemma udp_outcome_bytes r bs :
  (forall b, t_bytes r = Some b -> Forall (fun x => x < 256) b) ->
  snd (udp_outcome r) = Some bs -> Forall (fun x => x < 256) bs.
Proof.
  intros H. unfold udp_outcome. destruct (t_refuse r); [discriminate|].
  destruct (t_bytes r) as [b|]; [|discriminate].
  destruct (UDP_TIMEOUT_MS <? t_delay_ms r); [discriminate|].
  cbn [snd]. intro E. apply Some_inj in E. subst bs. apply PreludeFacts.Forall_firstn. apply H. reflexivity.
Qed.

Lemma tcp_outcome_bytes r bs :
  (forall b, t_bytes r = Some b -> Forall (fun x => x < 256) b) ->
  snd (tcp_outcome r) = Some bs -> Forall (fun x => x < 256) bs.
Proof.
  intros H. unfold tcp_outcome. destruct (TCP_TIMEOUT_MS <? t_delay_ms r); [discriminate|].
  remember (match t_bytes r with Some b => b | None => [] end) as stream eqn:Es.
  assert (Hs : Forall (fun x => x < 256) stream).
  { subst stream. destruct (t_bytes r) as [b|]; [apply H; reflexivity|constructor]. }
  clear Es.
  unfold read_tcp_stream. destruct stream as [|hi [|lo rest]].
  1,2: destruct (t_close r); discriminate.
  destruct (u16_be hi lo <=? llen rest).
  - cbn [snd]. intro E. apply Some_inj in E. subst bs. apply PreludeFacts.Forall_firstn.
    apply Forall_inv_tail in Hs. apply Forall_inv_tail in Hs. exact Hs.
  - destruct (t_close r); discriminate.
Qed.

Lemma llen_map_byte2 f bs : llen (map_byte2 f bs) = llen bs.
Proof. unfold map_byte2. destruct bs as [|a [|b [|c t]]]; reflexivity. Qed.
Lemma llen_clear_tc bs : llen (clear_tc bs) = llen bs.
Proof. apply llen_map_byte2. Qed.

(* octets in, so the decoder is total: the only way [receive] is abandoned is the budget *)
Lemma receive_fine cost bytes s1 w :
  (forall bs, bytes = Some bs -> Forall (fun b => b < 256) bs) -> fst (receive cost bytes s1) = Abort w -> w = ATimeout.
Proof.
  intros Hb. unfold receive, charge. destruct (BUDGET_MS <? ts_elapsed s1 + cost).
  - cbn [fst]. intro E; inversion E; reflexivity.
  - destruct (decode_opt bytes) as [om|w'] eqn:Ed; [discriminate|]. exfalso. eapply decode_opt_fine; eassumption.
Qed.

(* what udp_exchange returns: no panic and no fuel exhaustion for a complete request *)
Lemma udp_exchange_fine o a q rd req s :
  oracle_bytes_ok o -> 12 <= llen req ->
  (forall w, fst (udp_exchange o a q rd req s) = Abort w -> w = ATimeout)
  /\ (forall om req1, fst (udp_exchange o a q rd req s) = Val (om, req1) -> llen req1 = llen req).
Proof.
  intros Ho Hlen. rewrite udp_exchange_eq.
  destruct (512 <? llen req). { cbn [fst]. split; [discriminate|]. intros om r1 E. inversion E; reflexivity. }
  destruct (llen req <? 12) eqn:E12. { apply N.ltb_lt in E12. lia. }
  cbv zeta. set (r := o (ts_nexch s) Udp a (clear_tc req)). set (s1 := next_exchange _).
  pose proof (receive_fine (fst (udp_outcome r)) (snd (udp_outcome r)) s1) as Hr.
  destruct (receive _ _ _) as [[om|w] s2]; cbn [fst] in *; split; try discriminate.
  - intros om' r1 E. inversion E; subst. apply llen_clear_tc.
  - intros w' E. inversion E; subst. apply Hr; [|reflexivity].
    intros bs Ebs. eapply udp_outcome_bytes; [|exact Ebs]. intros b Hb. eapply Ho, Hb.
Qed.

Lemma tcp_exchange_fine o a q rd req s :
  oracle_bytes_ok o -> 12 <= llen req ->
  forall w, fst (tcp_exchange o a q rd req s) = Abort w -> w = ATimeout.
Proof.
  intros Ho Hlen w. rewrite tcp_exchange_eq. cbv zeta.
  destruct (t_refuse _); [discriminate|].
  destruct (llen req <? 12) eqn:E12. { apply N.ltb_lt in E12. lia. }
  apply receive_fine. intros bs Ebs. eapply tcp_outcome_bytes; [|exact Ebs]. intros b Hb. eapply Ho, Hb.
Qed.

(* the encoder never fails on a single-question request, and writes at least the header *)
Lemma ext_encode_name n c b : ext b (encode_name n c b).
Proof.
  unfold encode_name. destruct (if c then _ else _).
  - apply ext_write_octets.
  - destruct (write_labels_spec (labels n) (memoise_name n b)) as [E _].
    exists (wire_labels (labels n)). rewrite E, (proj1 (memoise_name_spec _ _)). reflexivity.
Qed.

Lemma encode_request_ok q rd : exists req, encode (make_request q rd) = Ok req /\ 12 <= llen req.
Proof.
  unfold encode, make_request, from_question.
  cbn [m_questions m_answers m_authority m_additional m_header h_id h_qr h_opcode h_aa h_tc h_rd h_ra h_rcode].
  change (usize_to_u16 (llen [q])) with (@Ok serr N 1).
  change (usize_to_u16 (llen (@nil rr))) with (@Ok serr N 0).
  cbn [bind encode_rrs fold_left].
  eexists. split; [reflexivity|].
  unfold encode_question, write_u16.
  rewrite !octets_write_octets.
  edestruct (ext_encode_name (q_name q) true) as [os Eos].   (* the buffer: found by [rewrite Eos] *)
  rewrite Eos. unfold encode_header, write_u8, write_u16. rewrite !octets_write_octets.
  rewrite !llen_app. unfold u16_bytes, llen at 2 3 4 5 6 7 8. cbn [length N.of_nat].
  change (wb_octets wb_empty) with (@nil byte). unfold llen at 1. cbn [length N.of_nat]. lia.
Qed.

Lemma query_nameserver_fine o a q rd s :
  oracle_bytes_ok o -> forall w, fst (query_nameserver o a q rd s) = Abort w -> w = ATimeout.
Proof.
  intros Ho w. unfold query_nameserver.
  destruct (encode_request_ok q rd) as [req [Ereq Hlen]]. rewrite Ereq.
  pose proof (udp_exchange_fine o a q rd req s Ho Hlen) as [Hu1 Hu2].
  destruct (udp_exchange o a q rd req s) as [[[om req1]|w1] s1].
  - cbn [fst] in Hu2. specialize (Hu2 om req1 eq_refl).
    destruct (gate _ om); [discriminate|].
    pose proof (tcp_exchange_fine o a q rd req1 s1 Ho) as Ht. rewrite Hu2 in Ht. specialize (Ht Hlen).
    destruct (tcp_exchange o a q rd req1 s1) as [[om2|w2] s2]; [discriminate|].
    cbn [fst] in *. intro E. inversion E; subst. apply Ht. reflexivity.
  - cbn [fst] in *. intro E. inversion E; subst. apply Hu1. reflexivity.
Qed.

(* the octets an exchange delivered (after the 5 s time-out, the 512-octet receive
   buffer, the TCP length prefix) and the message they decode to *)
Definition exchange_bytes (e : exchange) : option (list byte) :=
  match x_kind e with
  | KUdp => snd (udp_outcome (x_reply e))
  | KTcp => snd (tcp_outcome (x_reply e))
  | KTcpConnect => None
  end.
Definition exchange_message (e : exchange) : option message :=
  match exchange_bytes e with
  | Some bs => match decode bs with Ok m => Some m | _ => None end
  | None => None
  end.

Lemma decode_opt_some ob m : decode_opt ob = Val (Some m) -> exists bs, ob = Some bs /\ decode bs = Ok m.
Proof.
  unfold decode_opt. destruct ob as [bs|]; [|discriminate].
  destruct (decode bs) eqn:E; try discriminate. intro H. inversion H; subst. exists bs. auto.
Qed.

Definition reply_from (o : oracle) (e : exchange) : Prop := exists n p a req, x_reply e = o n p a req.
Definition logged_reply (o : oracle) (a : addr) (q : question) (rd : bool) (m : message) (e : exchange) : Prop :=
  x_addr e = a /\ x_question e = q /\ x_rd e = rd /\ exchange_message e = Some m /\ reply_from o e.

Lemma receive_some cost bytes s1 m s2 : receive cost bytes s1 = (Val (Some m), s2) ->
  ts_rlog s2 = ts_rlog s1 /\ exists bs, bytes = Some bs /\ decode bs = Ok m.
Proof.
  intro H. split; [exact (receive_rlog _ _ _ _ _ H)|]. unfold receive in H.
  destruct (charge cost s1) as [[u|w] s]; [|discriminate].
  destruct (decode_opt bytes) as [om|w] eqn:Ed; inversion H; subst. apply decode_opt_some, Ed.
Qed.

Lemma udp_exchange_logged o a q rd req s m req1 s' :
  udp_exchange o a q rd req s = (Val (Some m, req1), s') ->
  exists e, ts_rlog s' = e :: ts_rlog s /\ logged_reply o a q rd m e.
Proof.
  rewrite udp_exchange_eq.
  destruct (512 <? llen req); [discriminate|]. destruct (llen req <? 12); [discriminate|]. cbv zeta.
  destruct (receive _ _ _) as [[om|w] s2] eqn:Er; [|discriminate]. intro H. inversion H; subst.
  destruct (receive_some _ _ _ _ _ Er) as [El (bs & Eb & Ed)]. rewrite El.
  eexists. split; [reflexivity|]. unfold logged_reply, exchange_message, exchange_bytes.
  cbn [x_addr x_question x_rd x_kind x_reply]. rewrite Eb, Ed.
  repeat split; try reflexivity. unfold reply_from. cbn [x_reply]. do 4 eexists. reflexivity.
Qed.

Lemma tcp_exchange_logged o a q rd req s m s' :
  tcp_exchange o a q rd req s = (Val (Some m), s') ->
  exists e e0, ts_rlog s' = e :: e0 :: ts_rlog s /\ logged_reply o a q rd m e /\ x_addr e0 = a /\ x_question e0 = q /\ x_rd e0 = rd.
Proof.
  rewrite tcp_exchange_eq. cbv zeta.
  destruct (t_refuse _); [discriminate|]. destruct (llen req <? 12); [discriminate|]. intro H.
  destruct (receive_some _ _ _ _ _ H) as [El (bs & Eb & Ed)]. rewrite El.
  do 2 eexists. split; [reflexivity|]. cbn [x_addr x_question x_rd]. split; [|auto].
  unfold logged_reply, exchange_message, exchange_bytes. cbn [x_addr x_question x_rd x_kind x_reply]. rewrite Eb, Ed.
  repeat split; try reflexivity. unfold reply_from. cbn [x_reply]. do 4 eexists. reflexivity.
Qed.

Lemma gate_some request om m : gate request om = Some m -> om = Some m /\ response_matches_request request m = true.
Proof.
  unfold gate. destruct om as [x|]; [|discriminate].
  destruct (response_matches_request request x) eqn:E; [|discriminate]. intro H; inversion H; subst. auto.
Qed.

(* a reply query_nameserver hands on is the decoding of what a logged exchange of this very
   call delivered, and passed the header gate against the request *)
Lemma query_nameserver_logged o a q rd s m s' :
  query_nameserver o a q rd s = (Val (Some m), s') ->
  exists new e, ts_rlog s' = new ++ ts_rlog s /\ In e new /\ logged_reply o a q rd m e
                /\ response_matches_request (make_request q rd) m = true
                /\ Forall (fun x => x_addr x = a /\ x_question x = q /\ x_rd x = rd) new.
Proof.
  intro H. pose proof (query_nameserver_dest _ _ _ _ _ _ _ H) as [new0 [Enew0 Fnew0]].
  unfold query_nameserver in H.
  destruct (encode _) as [req|e| |]; try discriminate.
  destruct (udp_exchange o a q rd req s) as [[[om req1]|w] s1] eqn:Eu; [|discriminate].
  destruct (gate _ om) as [resp|] eqn:Eg.
  - inversion H; subst. apply gate_some in Eg. destruct Eg as [-> Hm].
    destruct (udp_exchange_logged _ _ _ _ _ _ _ _ _ Eu) as [e [El Hl]].
    exists [e], e. split; [exact El|]. split; [left; reflexivity|]. split; [exact Hl|]. split; [exact Hm|].
    destruct Hl as (h1 & h2 & h3 & _). repeat constructor; assumption.
  - destruct (tcp_exchange o a q rd req1 s1) as [[om2|w] s2] eqn:Et; [|discriminate].
    inversion H; subst. apply gate_some in H1. destruct H1 as [-> Hm].
    destruct (tcp_exchange_logged _ _ _ _ _ _ _ _ Et) as [e [e0 [El [Hl _]]]].
    exists new0, e. split; [exact Enew0|]. split.
    + pose proof (udp_exchange_dest _ _ _ _ _ _ _ _ Eu) as [n1 [E1 _]].
      rewrite El, E1 in Enew0.
      (* e is among the new entries: the new list is e :: e0 :: n1 *)
      apply (app_inv_tail (ts_rlog s) (e :: e0 :: n1)) in Enew0. subst new0. left. reflexivity.
    + split; [exact Hl|]. split; [exact Hm|exact Fnew0].
Qed.

Lemma logged_reply_wf o a q rd m e : oracle_bytes_ok o -> logged_reply o a q rd m e -> wf_message m.
Proof.
  intros Ho (_ & _ & _ & H & [n [p [a' [req Er]]]]). unfold exchange_message in H.
  destruct (exchange_bytes e) as [bs|] eqn:Eb; [|discriminate].
  destruct (decode bs) as [m'| | |] eqn:Ed; try discriminate. inversion H; subst m'.
  eapply decode_wf; [|exact Ed].
  unfold exchange_bytes in Eb. rewrite Er in Eb. destruct (x_kind e); [| discriminate |].
  - eapply udp_outcome_bytes; [|exact Eb]. intros b Hb. eapply Ho, Hb.
  - eapply tcp_outcome_bytes; [|exact Eb]. intros b Hb. eapply Ho, Hb.
Qed.

Lemma pop_last_app {A} : forall (l : list A) x t, pop_last l = Some (x, t) -> l = t ++ [x].
Proof.
  induction l as [|y l IH]; intros x t H; cbn [pop_last] in H; [discriminate|].
  destruct (pop_last l) as [[z t']|] eqn:E.
  - inversion H; subst. cbn [app]. f_equal. apply IH. reflexivity.
  - inversion H; subst. destruct l; [reflexivity|]. cbn [pop_last] in E. destruct (pop_last l) as [[? ?]|]; discriminate.
Qed.

Lemma pop_last_length {A} (l : list A) x t : pop_last l = Some (x, t) -> length l = S (length t).
Proof. intro H. rewrite (pop_last_app _ _ _ H), app_length. cbn [length]. lia. Qed.

Definition zresult_rrs (zr : zresult) : list rr :=
  match zr with ZAnswer rrs => rrs | ZCname _ r => [r] | ZDelegation ns => ns | ZNameError => [] end.
Definition lresult_soa (l : lresult) : option rr :=
  match l with LDone r => resolved_soa_rr r | LDelegation _ s _ => s | _ => None end.
Definition opt_list {A} (o : option A) : list A := match o with Some x => [x] | None => [] end.

Lemma Forall_merge (P : rr -> Prop) a b : Forall P a -> Forall P b -> Forall P (prioritising_merge a b).
Proof.
  intros Ha Hb. unfold prioritising_merge. apply Forall_app. split; [exact Ha|].
  apply Forall_forall. intros x Hx. apply filter_In in Hx. eapply Forall_forall in Hb; [exact Hb|tauto].
Qed.

Section LocalFrom.
  Variable zs : zones.
  Variable cget : dname -> N -> list rr.
  Variable P : rr -> Prop.
  Hypothesis Hz : forall name qt z zr r, zones_resolve zs name qt = Some (z, Ok zr) -> In r (zresult_rrs zr) -> P r.
  Hypothesis Hs : forall name qt z zr s, zones_resolve zs name qt = Some (z, zr) -> zone_soa_rr z = Some s -> P s.
  Hypothesis Hc : forall n t r, In r (cget n t) -> P r.

  Definition lgood (l : lresult) : Prop := Forall P (lresult_rrs l) /\ Forall P (opt_list (lresult_soa l)).

  Lemma local_from : forall f stack q l, resolve_local zs cget f stack q = Ok l -> lgood l.
  Proof.
    induction f as [|f IH]; intros stack q l H; [discriminate|].
    rewrite resolve_local_eq in H.
    destruct (at_recursion_limit stack); [discriminate|].
    destruct (is_duplicate_question stack q); [discriminate|].
    set (sub := fun name => resolve_local zs cget f (stack ++ [q]) (subq q name)) in H.
    assert (Hsub : forall n l', sub n = Ok l' -> lgood l') by (intros n l' E; eapply IH, E).
    clearbody sub. clear IH.
    assert (Hcache : forall rz, Forall P rz -> cache_phase cget q sub rz = Ok l -> lgood l).
    { intros rz Hrz Hcp. unfold cache_phase in Hcp.
      assert (Hpart : forall rc fc, cache_part cget q sub = Ok (rc, fc) -> Forall P rc).
      { intros rc fc Ep. unfold cache_part in Ep.
        assert (Hfc : Forall P (cget (q_name q) (q_type q))) by (apply Forall_forall; intros x Hx; eapply Hc, Hx).
        destruct (is_nil (cget (q_name q) (q_type q)) && negb (q_type q =? RT_CNAME)).
        2:{ inversion Ep; subst. exact Hfc. }
        destruct (cget (q_name q) RT_CNAME) as [|cr t] eqn:Ecn. { inversion Ep; subst. exact Hfc. }
        assert (Hcr : P cr) by (eapply (Hc (q_name q) RT_CNAME); rewrite Ecn; left; reflexivity).
        destruct (if rr_type cr =? RT_CNAME then rr_data cr else RD_A 0); try discriminate.
        unfold ccombine in Ep. destruct (sub n) as [l'| | |] eqn:Es; try discriminate.
        - specialize (Hsub _ _ Es). destruct Hsub as [Hl _].
          destruct l' as [r|rrs|rrs s d|rrs cq]; inversion Ep; subst; cbn [app lresult_rrs] in *;
            try (constructor; [exact Hcr|exact Hl]); constructor; [exact Hcr|constructor].
        - inversion Ep; subst. constructor; [exact Hcr|constructor]. }
      destruct (cache_part cget q sub) as [[rc fc]| | |] eqn:Ep; try discriminate.
      specialize (Hpart rc fc eq_refl).
      pose proof (Forall_merge P rz rc Hrz Hpart) as Hm.
      destruct (is_nil (prioritising_merge rz rc)); [discriminate|].
      destruct fc as [c|].
      - inversion Hcp; subst. split; [exact Hm|constructor].
      - destruct (q_type q =? QT_Wildcard); inversion Hcp; subst; (split; [exact Hm|constructor]). }
    unfold local_step, zone_phase in H.
    destruct (zones_resolve zs (q_name q) (q_type q)) as [[z r]|] eqn:Ez; [|apply (Hcache []); [constructor|exact H]].
    destruct r as [zr|e| |]; try discriminate.
    pose proof (fun r => Hz _ _ _ _ r Ez) as Hzr.
    destruct zr as [rrs|c cr|ns|]; cbn [zresult_rrs] in Hzr.
    - assert (Hrrs : Forall P rrs) by (apply Forall_forall; exact Hzr).
      destruct (zone_soa_rr z) as [s|] eqn:Esoa.
      + inversion H; subst. split; [exact Hrrs|]. constructor; [eapply Hs; eassumption|constructor].
      + destruct (negb (q_type q =? QT_Wildcard) && negb (is_nil rrs)).
        * inversion H; subst. split; [exact Hrrs|constructor].
        * apply (Hcache rrs Hrrs H).
    - assert (Hcr : P cr) by (apply Hzr; left; reflexivity).
      unfold zcombine in H. destruct (sub c) as [l'| | |] eqn:Es; try discriminate.
      + specialize (Hsub _ _ Es). destruct Hsub as [Hl Hso].
        destruct l' as [[rrs so|so|rrs so]|rrs|rrs so d|rrs cq]; inversion H; subst;
          cbn [app lresult_rrs lresult_soa resolved_rrs resolved_soa_rr opt_list] in *;
          (split; [try (constructor; [exact Hcr|]); try exact Hl; try constructor|try exact Hso; try constructor]).
      + inversion H; subst. split; [constructor; [exact Hcr|constructor]|constructor].
    - destruct (zone_soa_rr z) as [s|] eqn:Esoa; [|apply (Hcache []); [constructor|exact H]].
      destruct ns as [|first t]; [discriminate|]. inversion H; subst.
      split; [apply Forall_forall; exact Hzr|]. constructor; [eapply Hs; eassumption|constructor].
    - destruct (zone_soa_rr z) as [s|] eqn:Esoa; [|apply (Hcache []); [constructor|exact H]].
      inversion H; subst. split; [constructor|]. constructor; [eapply Hs; eassumption|constructor].
  Qed.
End LocalFrom.

(* two records that agree in owner, type and data (the cache does not keep the class, and
   hands back the TTL that remains) *)
Definition rr_sim (a b : rr) : Prop := rr_name a = rr_name b /\ rr_type a = rr_type b /\ rr_data a = rr_data b.
Lemma rr_sim_refl a : rr_sim a a.
Proof. repeat split. Qed.
Lemma rr_sim_trans a b c : rr_sim a b -> rr_sim b c -> rr_sim a c.
Proof. intros (h1 & h2 & h3) (k1 & k2 & k3). repeat split; congruence. Qed.

(* the shape of the RDATA is the one the type code demands (RecordTypeWithData) *)
Definition rr_typed (r : rr) : Prop := shape_of_rdata (rr_data r) = shape_of_type (rr_type r).
Lemma rr_typed_sim a b : rr_sim a b -> rr_typed b -> rr_typed a.
Proof. intros (_ & h2 & h3). unfold rr_typed. rewrite h2, h3. auto. Qed.
Lemma wf_rr_typed r : wf_rr r -> rr_typed r.
Proof. intros (_ & _ & _ & _ & [H _]). exact H. Qed.

Lemma zrh_cname_qt name qt recs nsd cd c r :
  zone_result_helper name qt recs nsd cd = Ok (ZCname c r) -> rtype_matches RT_CNAME qt = false.
Proof.
  unfold zone_result_helper. destruct (_ && _ && _); [discriminate|].
  destruct (rtype_matches RT_CNAME qt); [|reflexivity]. cbn [negb].
  destruct (qt =? QT_Wildcard); [discriminate|]. destruct (existsb _ _); discriminate.
Qed.

Lemma node_resolve_cname_qt name qt rp nd ia c r :
  node_resolve name qt rp nd ia = Ok (ZCname c r) -> rtype_matches RT_CNAME qt = false.
Proof.
  revert c r. apply (node_resolve_leaf name qt (fun x => forall c r, x = Ok (ZCname c r) -> rtype_matches RT_CNAME qt = false));
    try discriminate. intros recs nsd cd c r. apply zrh_cname_qt.
Qed.

Lemma zones_resolve_cname_qt zs name qt z c r :
  zones_resolve zs name qt = Some (z, Ok (ZCname c r)) -> rtype_matches RT_CNAME qt = false.
Proof.
  unfold zones_resolve. destruct (zones_get zs name) as [z0|]; [|discriminate].
  unfold zone_resolve. destruct (relative_rp z0 name) as [rp|]; cbn [option_map]; [|discriminate].
  intro H. inversion H. eapply node_resolve_cname_qt. eassumption.
Qed.

Lemma cname_qt_not_any qt : rtype_matches RT_CNAME qt = false -> qt <> QT_Wildcard.
Proof. intros H E. subst qt. vm_compute in H. discriminate. Qed.

(* a Partial local result only arises for QTYPE * (so for every other question the records
   "combined" with the upstream answer in resolve_recursive_notimeout are none) *)
Lemma no_partial zs cget : forall f stack q rrs,
  q_type q <> QT_Wildcard -> resolve_local zs cget f stack q <> Ok (LPartial rrs).
Proof.
  induction f as [|f IH]; intros stack q rrs Hq H; [discriminate|].
  destruct (resolve_local_kind zs cget _ _ _ _ H) as [[K _]|[[K _]|[_ [K|(n & rrs' & K)]]]]; try discriminate;
    [contradiction|]. revert K. apply IH. exact Hq.
Qed.

(* what local resolution makes of a question about a name an authoritative zone owns: an answer,
   or an alias to be followed -- never a referral, a partial answer or an error *)
Lemma owned_local_cases zs cget f stack q :
  owned_auth zs (q_name q) -> guards_pass stack q ->
  (exists r, resolve_local zs cget (S f) stack q = Ok (LDone r))
  \/ (exists rrs cq, resolve_local zs cget (S f) stack q = Ok (LCname rrs cq))
  \/ resolve_local zs cget (S f) stack q = Panic \/ resolve_local zs cget (S f) stack q = OutOfFuel.
Proof.
  intros [z Ho] Hg. destruct (auth_zone_alone zs cget f stack q z Ho Hg) as [soa [Hs [r [Hr H]]]].
  destruct r as [zr|e| |]; try contradiction; [|right; right; left; exact H].
  destruct zr as [rrs|c cr|ns|]; try contradiction.
  - left. eexists; exact H.
  - rewrite H. pose proof (cname_qt_not_any _ (zones_resolve_cname_qt _ _ _ _ _ _ Hr)) as Hq.
    pose proof (no_partial zs cget f (stack ++ [q]) (subq q c)) as Hnp. cbn [subq q_type] in Hnp.
    unfold zcombine. destruct (resolve_local zs cget f (stack ++ [q]) (subq q c)) as [[[| |]|rrs'| |]| | |];
      try (left; eexists; reflexivity); try (right; left; do 2 eexists; reflexivity); try (right; right; left; reflexivity);
      try (right; right; right; reflexivity).
    exfalso. eapply Hnp; [exact Hq|reflexivity].
  - left. eexists; exact H.
Qed.

(* local resolution left the question to the upstream: a partial answer, a referral or an error *)
Definition goes_upstream (x : res rerror lresult) : Prop :=
  (exists rrs, x = Ok (LPartial rrs)) \/ (exists rrs s d, x = Ok (LDelegation rrs s d)) \/ exists e, x = Err e.

(* so a question that goes upstream (local resolution gave a partial answer, a referral or an
   error) is not about an owned name; [rewrite local_fuel_value] because owned_local_cases speaks of
   fuel [S f] *)
Lemma owned_not_upstream zs cget stack q :
  at_recursion_limit stack = false -> is_duplicate_question stack q = false ->
  goes_upstream (resolve_local zs cget LOCAL_FUEL stack q) ->
  ~ owned_auth zs (q_name q).
Proof.
  intros Hl Hd Hcases Hown. rewrite local_fuel_value in Hcases.
  destruct (owned_local_cases zs cget 33 stack q Hown (conj Hl Hd)) as [[r H]|[[rrs [cq H]]|[H|H]]];
    destruct Hcases as [[x Hx]|[[x [y [z Hx]]]|[x Hx]]]; rewrite H in Hx; discriminate.
Qed.

(* what chain_ok's "no owner twice" clause implies, in a form that can be computed *)
Fixpoint dnodupb (l : list dname) : bool :=
  match l with [] => true | x :: t => negb (existsb (dname_eqb x) t) && dnodupb t end.

Lemma NoDup_dnodupb l : NoDup l -> dnodupb l = true.
Proof.
  induction 1 as [|x t Hx _ IH]; [reflexivity|]. cbn [dnodupb]. rewrite IH, andb_true_r.
  destruct (existsb (dname_eqb x) t) eqn:E; [|reflexivity].
  apply existsb_exists in E. destruct E as [y [Hy Hxy]]. apply dname_eqb_eq in Hxy. subst y. contradiction.
Qed.

Lemma chain_from_all_cname : forall cn a b, chain_from a cn = Some b -> Forall (fun r => (rr_type r =? RT_CNAME) = true) cn.
Proof.
  induction cn as [|r cn IH]; intros a b H; [constructor|]. cbn [chain_from] in H.
  destruct (dname_eqb (rr_name r) a && (rr_type r =? RT_CNAME)) eqn:E; [|discriminate].
  apply andb_prop in E. destruct E as [_ E].
  destruct (rr_data r); try discriminate. constructor; [exact E|eapply IH, H].
Qed.

Lemma chain_ok_cname_owners qname qty rrs :
  qty <> RT_CNAME -> chain_ok qname qty rrs ->
  dnodupb (map rr_name (filter (fun r => rr_type r =? RT_CNAME) rrs)) = true.
Proof.
  intros Hq (cn & fin & last & -> & Hch & Hnd & Hfin).
  rewrite filter_app, (ZoneProofs.filter_all _ cn (chain_from_all_cname _ _ _ Hch)), (ZoneProofs.filter_none _ fin), app_nil_r.
  - apply NoDup_dnodupb, Hnd.
  - eapply Forall_impl; [|exact Hfin]. intros r [_ Ht]. apply N.eqb_neq. congruence.
Qed.

(* chain_ok (Resolver/LocalSpec.v) without its "no owner twice" clause: CNAMEs first, each owner the
   previous target, starting at the question name, then only records of the asked type at the
   last target.  (With an upstream that contradicts itself the clause is false for the recursive
   resolver: see C10_recursive_owner_twice in Properties/C10.v.) *)
Definition chain_shape (qname : dname) (qty : N) (rrs : list rr) : Prop :=
  exists cn fin last, rrs = cn ++ fin /\ chain_from qname cn = Some last
    /\ Forall (fun r => rr_name r = last /\ rr_type r = qty) fin.

Lemma chain_ok_shape qname qty rrs : chain_ok qname qty rrs -> chain_shape qname qty rrs.
Proof. intros (cn & fin & last & H1 & H2 & _ & H4). exists cn, fin, last. auto. Qed.

Lemma chain_from_app : forall l1 l2 a b, chain_from a l1 = Some b -> chain_from a (l1 ++ l2) = chain_from b l2.
Proof.
  induction l1 as [|r l1 IH]; intros l2 a b H; cbn [chain_from app] in *.
  - inversion H; reflexivity.
  - destruct (dname_eqb (rr_name r) a && (rr_type r =? RT_CNAME)); [|discriminate].
    destruct (rr_data r); try discriminate. apply IH. exact H.
Qed.

Lemma chain_shape_app l1 a b qty l2 :
  chain_from a l1 = Some b -> chain_shape b qty l2 -> chain_shape a qty (l1 ++ l2).
Proof.
  intros H1 (cn & fin & last & E & H2 & H3). exists (l1 ++ cn), fin, last.
  split; [rewrite E, app_assoc; reflexivity|]. split; [|exact H3].
  rewrite (chain_from_app _ _ _ _ H1). exact H2.
Qed.

Lemma chain_shape_nil a qty : chain_shape a qty [].
Proof. exists [], [], a. repeat split; constructor. Qed.

(* the glue shortcut answers with the address records of the question's own type *)
Lemma glue_answer_some combined rrs q r : glue_answer combined rrs q = Some r ->
  r = ROk (NonAuthoritative (prioritising_merge combined (get_records rrs (q_name q) (q_type q))) None).
Proof.
  unfold glue_answer. destruct (q_type q =? RT_A) eqn:EA.
  - apply N.eqb_eq in EA. rewrite EA. destruct (negb _); intro H; inversion H; reflexivity.
  - destruct (q_type q =? RT_AAAA) eqn:E6; [|discriminate]. apply N.eqb_eq in E6. rewrite E6.
    destruct (negb _); intro H; inversion H; reflexivity.
Qed.

Section RP.
  Variable cache : Type.
  Variable cache_get : cache -> dname -> N -> list rr.
  Variable cache_insert_all : cache -> list rr -> cache.
  Variable sort_names : list dname -> list dname.
  Variable zs : zones.
  Variable o : oracle.
  Variable pmode : protocol_mode.
  Variable port : N.

  Notation RM := (RM cache).
  Notation rstate := (rstate cache).
  Notation rrn := (resolve_recursive_notimeout cache cache_get cache_insert_all sort_names zs o pmode port).
  Notation cloop := (candidate_loop cache cache_get cache_insert_all sort_names zs o pmode port).
  Notation rlocal := (local cache cache_get zs).
  Notation rbody := (recursive_body cache cache_get sort_names zs).
  Notation cstep := (candidate_step cache cache_get cache_insert_all sort_names zs o pmode port).
  Notation rcr := (resolve_combined_recursive cache).
  Notation rwnr := (resolve_with_nameserver_response cache cache_insert_all zs).
  Notation rwm := (resolve_with_response_match cache cache_insert_all).
  Notation htry := (hostname_try cache cache_get zs).
  Notation hloop := (hostname_loop cache cache_get zs).
  Notation rhi := (resolve_hostname_to_ip cache cache_get zs pmode).
  Notation qav := (query_and_validate cache o).
  Notation cns := (candidate_nameservers cache cache_get zs).
  Notation cnsl := (candidate_ns_loop cache cache_get zs).
  Notation rret := (ret cache).
  Notation rbind := (rbind cache).

  Lemma rrn_S f stack q : rrn (S f) stack q = rbody (rrn f) (cloop f) stack q.
  Proof. reflexivity. Qed.
  Lemma cloop_S f stack q combined mc cands next locally :
    cloop (S f) stack q combined mc cands next locally
    = cstep (rrn f) (cloop f stack q combined) stack q combined mc cands next locally.
  Proof. reflexivity. Qed.

  (* resolve_with_nameserver_response is the `match` on the response that
     cut_at_local_authority leaves (cut_ok: it never panics) *)
  Lemma rwnr_cut rec stack combined nr q :
    exists nr', cut_shape zs q nr nr' /\ cut_at_local_authority zs q nr = Ok nr'
                /\ rwnr rec stack combined nr q = rwm rec stack combined nr' q.
  Proof.
    destruct (cut_ok zs q nr) as (nr' & E & Hs). exists nr'. split; [exact Hs|]. split; [exact E|].
    unfold resolve_with_nameserver_response. rewrite E. reflexivity.
  Qed.

  Lemma stack_le_32 (stack : list question) (q : question) :
    (length stack <= 32)%nat -> at_recursion_limit stack = false -> (length (stack ++ [q]) <= 32)%nat.
  Proof.
    intros H E. apply at_limit_false in E. rewrite app_length. cbn [length]. lia.
  Qed.

  Lemma at_limit_true (stack : list question) : length stack = 32%nat -> at_recursion_limit stack = true.
  Proof. intro E. unfold at_recursion_limit, llen. rewrite E. reflexivity. Qed.

  (* local: the state is untouched; never out of fuel while the stack is within the limit *)
  Lemma rlocal_state stack q st : snd (rlocal stack q st) = st.
  Proof. unfold local. destruct (resolve_local _ _ _ _ _); reflexivity. Qed.

  Lemma rlocal_cases stack q st :
    (length stack <= 32)%nat ->
    (exists ol, rlocal stack q st = (Val ol, st)
                /\ match ol with
                   | Some l => resolve_local zs (cache_get (fst st)) LOCAL_FUEL stack q = Ok l
                   | None => exists e, resolve_local zs (cache_get (fst st)) LOCAL_FUEL stack q = Err e
                   end)
    \/ (rlocal stack q st = (Abort APanic, st) /\ resolve_local zs (cache_get (fst st)) LOCAL_FUEL stack q = Panic).
  Proof.
    intro Hl. unfold local.
    pose proof (resolve_local_no_fuel zs (cache_get (fst st)) LOCAL_FUEL stack q Hl) as Hf.
    rewrite local_fuel_value in Hf. specialize (Hf ltac:(lia)). rewrite <- (local_fuel_value) in Hf.
    destruct (resolve_local zs (cache_get (fst st)) LOCAL_FUEL stack q) as [l|e| |] eqn:E.
    - left. exists (Some l). split; reflexivity.
    - left. exists None. split; [reflexivity|]. exists e. reflexivity.
    - right. split; reflexivity.
    - congruence.
  Qed.

  (* query_and_validate: the only way it is abandoned is the 60 s budget *)
  Lemma qav_fine (Ho : oracle_bytes_ok o) a q mc st w : fst (qav a q mc st) = Abort w -> w = ATimeout.
  Proof.
    unfold query_and_validate, RecursiveModel.rbind, lift_t.
    pose proof (query_nameserver_fine o a q false (snd st) Ho) as Hq.
    destruct (query_nameserver o a q false (snd st)) as [[om|w1] ts].
    - destruct om as [response|]; [|discriminate].
      destruct (never_panics q response mc) as [x Ex]. rewrite Ex. discriminate.
    - cbn [fst] in *. intro E. inversion E; subst. apply Hq. reflexivity.
  Qed.

  Lemma qav_some a q mc st nr st' :
    qav a q mc st = (Val (Some nr), st') ->
    exists response, validate_nameserver_response q response mc = Ok (Some nr)
                     /\ query_nameserver o a q false (snd st) = (Val (Some response), snd st') /\ fst st' = fst st.
  Proof.
    unfold query_and_validate, RecursiveModel.rbind, lift_t.
    destruct (query_nameserver o a q false (snd st)) as [[om|w1] ts]; [|discriminate].
    destruct om as [response|]; [|discriminate].
    destruct (never_panics q response mc) as [x Ex]. rewrite Ex. cbn [lift_res]. unfold ret.
    intro E. inversion E; subst. exists response. auto.
  Qed.

  Lemma get_ip_lift rrs h t (st : rstate) : exists oa, lift_res cache (get_ip rrs h t) st = (Val oa, st) /\ get_ip rrs h t = Ok oa.
  Proof. destruct (get_ip_total rrs h t) as [x E]. rewrite E. exists x. split; reflexivity. Qed.

  (* stabilisation: from some fuel on the result no longer changes *)

  Definition nofuel {A} (x : out A * rstate) : Prop := fst x <> Abort AFuel.

  Definition stab {A} (m : nat -> RM A) (st : rstate) : Prop :=
    exists f0 r, nofuel r /\ forall f, (f0 <= f)%nat -> m f st = r.

  Lemma stab_const {A} (m : RM A) st : nofuel (m st) -> stab (fun _ => m) st.
  Proof. intro H. exists O, (m st). split; [exact H|reflexivity]. Qed.

  Lemma stab_bind {A B} (m : nat -> RM A) (k : nat -> A -> RM B) st :
    stab m st ->
    (forall a st1, (exists f, m f st = (Val a, st1)) -> stab (fun f => k f a) st1) ->
    stab (fun f => rbind (m f) (k f)) st.
  Proof.
    intros [f1 [r1 [N1 H1]]] Hk. destruct r1 as [[a|w] st1].
    - destruct (Hk a st1) as [f2 [r2 [N2 H2]]]. { exists f1. apply H1. lia. }
      exists (Nat.max f1 f2), r2. split; [exact N2|]. intros f Hf. unfold RecursiveModel.rbind.
      rewrite H1 by lia. apply H2. lia.
    - exists f1, (Abort w, st1). split; [unfold nofuel in *; cbn [fst] in *; congruence|]. intros f Hf. unfold RecursiveModel.rbind. rewrite H1 by lia. reflexivity.
  Qed.

  (* [m] at fuel [d + f] is [m'] at fuel [f] *)
  Lemma stab_shift {A} d (m m' : nat -> RM A) st : (forall f, m (d + f)%nat = m' f) -> stab m' st -> stab m st.
  Proof.
    intros E [f0 [r [N H]]]. exists (d + f0)%nat, r. split; [exact N|]. intros f Hf.
    replace f with (d + (f - d))%nat by lia. rewrite E. apply H. lia.
  Qed.

  Ltac stab_ret := apply stab_const; unfold nofuel, ret; cbn [fst]; discriminate.

  Section Stab.
    Hypothesis Ho : oracle_bytes_ok o.
    Variable stack : list question.
    Hypothesis Hlen : (length stack <= 32)%nat.
    (* nested resolutions on this stack stabilise *)
    Hypothesis Hrec : forall q st, stab (fun f => rrn f stack q) st.

    Lemma rlocal_nofuel q st : nofuel (rlocal stack q st).
    Proof.
      destruct (rlocal_cases stack q st Hlen) as [[ol [E _]]|[E _]]; unfold nofuel; rewrite E; discriminate.
    Qed.

    Lemma rcr_stab rrs q st : stab (fun f => rcr (rrn f) stack rrs q) st.
    Proof.
      unfold resolve_combined_recursive. apply stab_bind; [apply Hrec|].
      intros r st1 _. destruct r; stab_ret.
    Qed.

    Lemma rwnr_stab combined nr q st : stab (fun f => rwnr (rrn f) stack combined nr q) st.
    Proof.
      destruct (rwnr_cut (rrn O) stack combined nr q) as (nr' & _ & Ecut & _).
      apply (stab_shift 0 _ (fun f => rwm (rrn f) stack combined nr' q)).
      { intro f. unfold resolve_with_nameserver_response. rewrite Ecut. reflexivity. }
      unfold resolve_with_response_match. destruct nr' as [rrs soa|rrs cname|rrs d].
      - stab_ret.
      - apply stab_bind; [stab_ret|]. intros _ st1 _.
        apply stab_bind; [apply rcr_stab|]. intros r st2 _. stab_ret.
      - apply stab_const. unfold nofuel, RecursiveModel.rbind, insert_all. destruct (glue_answer _ _ _); discriminate.
    Qed.

    Lemma htry_stab locally h t st : stab (fun f => htry (rrn f) stack locally h t) st.
    Proof.
      unfold hostname_try. destruct locally.
      - apply stab_bind; [apply stab_const, rlocal_nofuel|].
        intros l st1 _. destruct l as [[r| | |]|]; try stab_ret.
        apply stab_const. destruct (get_ip_lift (resolved_rrs r) h t st1) as [oa [E _]]. unfold nofuel. rewrite E. discriminate.
      - apply stab_bind; [apply Hrec|].
        intros r st1 _. destruct r as [r|e]; [|stab_ret].
        apply stab_const. destruct (get_ip_lift (resolved_rrs r) h t st1) as [oa [E _]]. unfold nofuel. rewrite E. discriminate.
    Qed.

    Lemma hloop_stab locally h : forall ts st, stab (fun f => hloop (rrn f) stack locally h ts) st.
    Proof.
      induction ts as [|t ts IH]; intro st; cbn [hostname_loop]; [stab_ret|].
      apply stab_bind; [apply htry_stab|]. intros a st1 _. destruct a; [stab_ret|apply IH].
    Qed.

    Definition cmeas (cands next : list dname) (locally : bool) : nat :=
      if locally then 2 * length cands + length next + 1 else length cands.

    Lemma rwnr_inr rec combined nr q st d st' :
      rwnr rec stack combined nr q st = (Val (inr d), st') -> exists rrs, nr = NRDelegation rrs d.
    Proof.
      destruct (rwnr_cut rec stack combined nr q) as (nr' & Hs & _ & ->). intro H.
      cut (exists rrs, nr' = NRDelegation rrs d). { intros [rrs E]. exists rrs. destruct Hs; [exact E|discriminate]. }
      revert H. unfold resolve_with_response_match, RecursiveModel.rbind, insert_all, ret.
      destruct nr' as [rrs soa|rrs cname|rrs d0].
      - discriminate.
      - destruct (resolve_combined_recursive _ _ _ _ _ _) as [[r|w] st2]; discriminate.
      - destruct (glue_answer _ _ _); [discriminate|]. intro E. inversion E; subst. exists rrs. reflexivity.
    Qed.

    Lemma cloop_stab q combined :
      forall k mc, N.to_nat (llen (labels (q_name q)) + 1 - mc) = k ->
      forall j cands next locally, cmeas cands next locally = j ->
      forall st, stab (fun f => cloop f stack q combined mc cands next locally) st.
    Proof.
      induction k as [k IHk] using lt_wf_ind. intros mc Hk.
      induction j as [j IHj] using lt_wf_ind. intros cands next locally Hj st.
      apply (stab_shift 1 _ (fun f => cstep (rrn f) (cloop f stack q combined) stack q combined mc cands next locally));
        [intro f; apply cloop_S|]. unfold candidate_step.
      destruct (pop_last cands) as [[candidate rest]|] eqn:Ep; [|stab_ret].
      pose proof (pop_last_length _ _ _ Ep) as Hl.
      apply stab_bind; [apply hloop_stab|].
      intros oip st1 _. destruct oip as [a|].
      - apply stab_bind; [apply stab_const; intro E; apply (qav_fine Ho) in E; discriminate|].
        intros onr st2 [_ Hq]. destruct onr as [nr|]; [|stab_ret].
        apply stab_bind; [apply rwnr_stab|].
        intros r st3 [f3 Hr]. destruct r as [result|d]; [stab_ret|].
        apply rwnr_inr in Hr. destruct Hr as [rrs Enr]. subst nr.
        apply qav_some in Hq. destruct Hq as [response [Hv _]].
        destruct (delegation_progress _ _ _ _ _ Hv) as [Hlt [_ [pre Hanc]]].
        assert (Hle : ns_match_count d <= llen (labels (q_name q))).
        { unfold ns_match_count, llen. rewrite Hanc, app_length. lia. }
        apply (IHk (N.to_nat (llen (labels (q_name q)) + 1 - ns_match_count d)) ltac:(lia) _ eq_refl _ _ _ _ eq_refl).
      - destruct locally.
        + destruct (is_nil rest) eqn:En.
          * apply (IHj (cmeas (next ++ [candidate]) [] false)); [|reflexivity].
            destruct rest; [|discriminate]. subst j. unfold cmeas. rewrite app_length, Hl. cbn [length]. lia.
          * apply (IHj (cmeas rest (next ++ [candidate]) true)); [|reflexivity].
            subst j. unfold cmeas. rewrite app_length, Hl. cbn [length]. lia.
        + apply (IHj (cmeas rest next false)); [|reflexivity]. subst j. unfold cmeas. lia.
    Qed.
  End Stab.

  Lemma cnsl_nofuel stack (Hlen : (length stack <= 32)%nat) : forall sufs st, nofuel (cnsl stack sufs st).
  Proof.
    induction sufs as [|ls rest IH]; intro st; cbn [candidate_ns_loop]; [unfold nofuel, ret; discriminate|].
    destruct (from_labels ls) as [name|]; [|apply IH].
    unfold RecursiveModel.rbind.
    destruct (rlocal_cases stack (mkq name RT_NS RC_IN) st Hlen) as [[ol [E _]]|[E _]]; rewrite E; [|unfold nofuel; discriminate].
    destruct (is_nil _); [apply IH|unfold nofuel, ret; discriminate].
  Qed.

  (* C08: for every oracle, every cache, every zone set and every candidate order the
     untimed resolver stabilises: from some fuel on the result no longer changes and is
     not "out of fuel" *)
  Theorem rrn_stab (Ho : oracle_bytes_ok o) :
    forall n stack, (length stack <= 32)%nat -> (32 - length stack <= n)%nat ->
    forall q st, stab (fun f => rrn f stack q) st.
  Proof.
    induction n as [|n IH]; intros stack Hlen Hn q st.
    - assert (E : length stack = 32%nat) by lia.
      exists 1%nat, (Val (RErr ERecursionLimit), st). split; [unfold nofuel; discriminate|].
      intros f Hf. destruct f as [|f]; [lia|]. rewrite rrn_S. unfold recursive_body.
      rewrite (at_limit_true stack E). reflexivity.
    - apply (stab_shift 1 _ (fun f => rbody (rrn f) (cloop f) stack q)); [intro f; apply rrn_S|]. unfold recursive_body.
      destruct (at_recursion_limit stack) eqn:El; [stab_ret|].
      destruct (is_duplicate_question stack q); [stab_ret|].
      pose proof (stack_le_32 stack q Hlen El) as Hlen'.
      assert (Hrec : forall q' st', stab (fun f => rrn f (stack ++ [q]) q') st').
      { apply IH; [exact Hlen'|]. apply at_limit_false in El. rewrite app_length. cbn [length]. lia. }
      apply stab_bind; [apply stab_const, rlocal_nofuel, Hlen|].
      intros l st1 _. cbv zeta.
      assert (Hcont : forall (given : RM (option nameservers)) combined st2,
                 nofuel (given st2) ->
                 stab (fun f => rbind given (fun c => match c with
                                  | Some d => cloop f (stack ++ [q]) q combined (ns_match_count d) (sort_names (ns_hostnames d)) [] true
                                  | None => rret (RErr (EDeadEnd q))
                                  end)) st2).
      { intros given combined st2 Hg. apply stab_bind; [apply stab_const, Hg|].
        intros c st3 _. destruct c as [d|]; [|stab_ret].
        eapply cloop_stab; try eassumption; reflexivity. }
      destruct l as [[r|rrs|rrs soa d|rrs cq]|].
      + stab_ret.
      + apply Hcont. apply cnsl_nofuel, Hlen'.
      + apply Hcont. unfold nofuel, ret. discriminate.
      + apply rcr_stab. exact Hrec.
      + apply Hcont. apply cnsl_nofuel, Hlen'.
  Qed.

  (* the statement for resolve_recursive: an explicit threshold exists beyond which the fuel is irrelevant *)
  Theorem recursive_terminates (Ho : oracle_bytes_ok o) q st :
    exists F, fst (resolve_recursive cache cache_get cache_insert_all sort_names zs o pmode port F q st) <> OutOfFuel
              /\ forall fuel, (F <= fuel)%nat ->
                   resolve_recursive cache cache_get cache_insert_all sort_names zs o pmode port fuel q st
                   = resolve_recursive cache cache_get cache_insert_all sort_names zs o pmode port F q st.
  Proof.
    destruct (rrn_stab Ho 32 [] ltac:(cbn; lia) ltac:(cbn; lia) q st) as [f0 [r [Nr H]]].
    exists f0. unfold resolve_recursive. split.
    - rewrite (H f0) by lia. destruct r as [[[x|e]|[| |]] st']; cbn [finish fst]; try discriminate.
      exfalso. apply Nr. reflexivity.
    - intros fuel Hf. rewrite (H fuel Hf), (H f0) by lia. reflexivity.
  Qed.

  (* a generic invariant theorem: one induction over the execution *)

  (* the records of a validated reply that are cached and used: nr_rrs, nr_soa (CutFacts.v);
     what is cached is a prefix of them (all of them unless cut_at_local_authority cuts) *)

  Lemma result_rrs_split nr : result_rrs nr = nr_rrs nr ++ opt_list (nr_soa nr).
  Proof. destruct nr as [rrs [s|]|rrs c|rrs d]; cbn [result_rrs nr_rrs nr_soa opt_list]; rewrite ?app_nil_r; reflexivity. Qed.

  Definition rlocal_res (stack : list question) (q : question) (st : rstate) : res rerror lresult :=
    resolve_local zs (cache_get (fst st)) LOCAL_FUEL stack q.

  Section Generic.
    Variable Inv : rstate -> Prop.                (* state invariant *)
    Variable R : rstate -> rstate -> Prop.        (* how the state evolves *)
    Variable G : rstate -> rr -> Prop.            (* records that may be used in this state *)
    Variable Ab : abort -> Prop.                  (* the ways a computation may be abandoned *)
    Variable AddrOK : rstate -> ip -> Prop.       (* addresses that may be contacted *)
    Variable QOK : question -> Prop.              (* questions that may be sent upstream *)

    Hypothesis R_refl : forall st, R st st.
    Hypothesis R_trans : forall a b c, R a b -> R b c -> R a c.
    Hypothesis G_mono : forall st st' r, R st st' -> G st r -> G st' r.
    Hypothesis Ab_fuel : Ab AFuel.
    Hypothesis H_local : forall stack q st l, Inv st -> rlocal_res stack q st = Ok l ->
      Forall (G st) (lresult_rrs l) /\ Forall (G st) (opt_list (lresult_soa l)).
    Hypothesis H_local_panic : forall stack q st, Inv st -> rlocal_res stack q st = Panic -> Ab APanic.
    Hypothesis H_q : forall stack q st, Inv st ->
      at_recursion_limit stack = false -> is_duplicate_question stack q = false ->
      goes_upstream (rlocal_res stack q st) -> QOK q.
    Hypothesis H_insert : forall st q resp mc nr i,
      Inv st -> validate_nameserver_response q resp mc = Ok (Some nr) -> Forall (G st) (result_rrs nr) ->
      ((exists x y, nr = NRDelegation x y) \/ forall r, In r (firstn i (nr_rrs nr)) -> owned_elsewhere zs q r = false) ->
      Inv (cache_insert_all (fst st) (firstn i (nr_rrs nr)), snd st)
      /\ R st (cache_insert_all (fst st) (firstn i (nr_rrs nr)), snd st).
    Hypothesis H_ip : forall st rrs h t a,
      Inv st -> Forall (G st) rrs -> In t (rtypes_of_mode pmode) -> get_ip rrs h t = Ok (Some a) -> AddrOK st a.
    Hypothesis H_query : forall st a q mc r st',
      Inv st -> AddrOK st a -> QOK q -> qav (a, port) q mc st = (r, st') ->
      Inv st' /\ R st st' /\ (forall nr, r = Val (Some nr) -> Forall (G st') (result_rrs nr)) /\ (forall w, r = Abort w -> Ab w).

    Definition post {A} (V : A -> rstate -> Prop) (st : rstate) (x : out A * rstate) : Prop :=
      Inv (snd x) /\ R st (snd x) /\ match fst x with Val a => V a (snd x) | Abort w => Ab w end.

    Definition good_resolved (res : resolved) (st : rstate) : Prop :=
      Forall (G st) (resolved_rrs res) /\ Forall (G st) (opt_list (resolved_soa_rr res)).
    Definition good_rres (r : rres) (st : rstate) : Prop :=
      match r with ROk res => good_resolved res st | RErr _ => True end.

    Lemma post_ret {A} (V : A -> rstate -> Prop) a st : Inv st -> V a st -> post V st (rret a st).
    Proof. intros HI HV. unfold post, ret. cbn [fst snd]. auto. Qed.

    Lemma post_bind {A B} (V1 : A -> rstate -> Prop) (V2 : B -> rstate -> Prop) (m : RM A) (k : A -> RM B) st :
      post V1 st (m st) ->
      (forall a st1, Inv st1 -> R st st1 -> V1 a st1 -> post V2 st1 (k a st1)) ->
      post V2 st (rbind m k st).
    Proof.
      intros (I1 & R1 & H1) Hk. unfold RecursiveModel.rbind. destruct (m st) as [[a|w] st1]; cbn [fst snd] in *.
      - destruct (Hk a st1 I1 R1 H1) as (I2 & R2 & H2). split; [exact I2|]. split; [eapply R_trans; eassumption|exact H2].
      - split; [exact I1|]. split; [exact R1|exact H1].
    Qed.

    Lemma post_weaken {A} (V V' : A -> rstate -> Prop) st x :
      (forall a st', Inv st' -> R st st' -> V a st' -> V' a st') -> post V st x -> post V' st x.
    Proof.
      intros HV (I1 & R1 & H1). split; [exact I1|]. split; [exact R1|].
      destruct (fst x); [apply HV; assumption|exact H1].
    Qed.

    Lemma Forall_G_mono st st' l : R st st' -> Forall (G st) l -> Forall (G st') l.
    Proof. intros HR H. eapply Forall_impl; [|exact H]. intros r. apply G_mono, HR. Qed.

    Lemma post_local stack q st : Inv st ->
      post (fun ol st' => st' = st /\ match ol with
                                      | Some l => rlocal_res stack q st = Ok l
                                      | None => exists e, rlocal_res stack q st = Err e
                                      end) st (rlocal stack q st).
    Proof.
      intro HI. unfold local, post. pose proof (H_local_panic stack q st HI) as HP. unfold rlocal_res in *.
      destruct (resolve_local zs (cache_get (fst st)) LOCAL_FUEL stack q) as [l|e| |]; cbn [fst snd];
        (split; [exact HI|]); (split; [apply R_refl|]); auto. split; [reflexivity|]. exists e. reflexivity.
    Qed.

    Definition rec_ok (rec : list question -> question -> RM rres) : Prop :=
      forall stack q st, Inv st -> post good_rres st (rec stack q st).
    Definition loop_ok (combined : list rr) (loop : N -> list dname -> list dname -> bool -> RM rres) : Prop :=
      forall mc cands next locally st, Inv st -> Forall (G st) combined -> post good_rres st (loop mc cands next locally st).

    Section Combinators.
      Variable rec : list question -> question -> RM rres.
      Hypothesis Hrec : rec_ok rec.

      Lemma post_rcr stack rrs q st : Inv st -> Forall (G st) rrs -> post good_rres st (rcr rec stack rrs q st).
      Proof.
        intros HI Hr. unfold resolve_combined_recursive. eapply post_bind; [apply Hrec, HI|].
        intros r st1 I1 R1 V1. destruct r as [res|e]; (apply post_ret; [exact I1|]); [|exact I].
        destruct V1 as [V1 V2]. split; cbn [resolved_rrs resolved_soa_rr]; [|exact V2].
        apply Forall_app. split; [eapply Forall_G_mono; eassumption|exact V1].
      Qed.

      Lemma post_rwnr stack combined nr q st resp mc :
        Inv st -> Forall (G st) combined -> validate_nameserver_response q resp mc = Ok (Some nr) ->
        Forall (G st) (result_rrs nr) ->
        post (fun r st' => match r with inl res => good_rres res st' | inr d => True end) st
             (rwnr rec stack combined nr q st).
      Proof.
        intros HI Hc Hv Hg.
        destruct (rwnr_cut rec stack combined nr q) as (nr' & Hs & _ & ->).
        assert (Hins : post (fun _ _ => True) st (insert_all cache cache_insert_all (nr_rrs nr') st)).
        { destruct (cut_shape_insert _ _ _ _ Hs) as (i & -> & Hcut). destruct (H_insert st q resp mc nr i HI Hv Hg Hcut) as [I1 R1].
          unfold insert_all, post. cbn [fst snd]. auto. }
        assert (Hrrs : Forall (G st) (nr_rrs nr') /\ Forall (G st) (opt_list (nr_soa nr'))).
        { rewrite result_rrs_split in Hg. apply Forall_app in Hg. destruct Hg as [Hg1 Hg2]. split.
          - apply Forall_forall. intros x Hx. eapply Forall_forall; [exact Hg1|]. eapply cut_shape_incl; eassumption.
          - destruct (cut_shape_soa _ _ _ _ Hs) as [->| ->]; [exact Hg2|constructor]. }
        destruct Hrrs as [Hrrs Hsoa]. clear Hs Hg Hv. clear nr. rename nr' into nr.
        unfold resolve_with_response_match. destruct nr as [rrs soa|rrs cname|rrs d]; cbn [nr_rrs nr_soa] in *.
        - eapply post_bind; [exact Hins|]. intros _ st1 I1 R1 _. apply post_ret; [exact I1|].
          split; cbn [resolved_rrs resolved_soa_rr]; [|eapply Forall_G_mono; eassumption].
          apply Forall_merge; eapply Forall_G_mono; eassumption.
        - eapply post_bind; [exact Hins|]. intros _ st1 I1 R1 _.
          eapply post_bind; [apply post_rcr; [exact I1|]|].
          + apply Forall_merge; eapply Forall_G_mono; eassumption.
          + intros r st2 I2 R2 V2. apply post_ret; [exact I2|exact V2].
        - eapply post_bind; [exact Hins|]. intros _ st1 I1 R1 _.
          destruct (glue_answer combined rrs q) as [r|] eqn:Eg; apply post_ret; auto.
          apply glue_answer_some in Eg. subst r. split; [|constructor]. cbn [resolved_rrs].
          apply Forall_merge; [eapply Forall_G_mono; eassumption|].
          unfold get_records. apply Forall_forall. intros x Hx. apply filter_In in Hx.
          eapply Forall_forall in Hrrs; [|exact (proj1 Hx)]. eapply G_mono; eassumption.
      Qed.

      Definition addr_post (oa : option ip) (st' : rstate) : Prop :=
        match oa with Some a => AddrOK st' a | None => True end.

      Lemma post_get_ip st rrs h t : Inv st -> Forall (G st) rrs -> In t (rtypes_of_mode pmode) ->
        post addr_post st (lift_res cache (get_ip rrs h t) st).
      Proof.
        intros HI Hg Ht. destruct (get_ip_lift rrs h t st) as [oa [E1 E2]]. rewrite E1.
        apply post_ret; [exact HI|]. destruct oa as [a|]; [|exact I]. eapply H_ip; eassumption.
      Qed.

      Lemma post_htry stack locally h t st : Inv st -> In t (rtypes_of_mode pmode) ->
        post addr_post st (htry rec stack locally h t st).
      Proof.
        intros HI Ht. unfold hostname_try. destruct locally.
        - eapply post_bind; [apply post_local, HI|].
          intros ol st1 I1 R1 [-> Hl]. destruct ol as [[r|rrs|rrs s d|rrs cq]|]; try (apply post_ret; [exact I1|exact I]).
          apply post_get_ip; [exact I1| |exact Ht]. apply (H_local _ _ _ _ I1 Hl).
        - eapply post_bind; [apply Hrec, HI|].
          intros r st1 I1 R1 V1. destruct r as [res|e]; [|apply post_ret; [exact I1|exact I]].
          apply post_get_ip; [exact I1|exact (proj1 V1)|exact Ht].
      Qed.

      Lemma post_hloop stack locally h : forall ts st, Inv st -> incl ts (rtypes_of_mode pmode) ->
        post addr_post st (hloop rec stack locally h ts st).
      Proof.
        induction ts as [|t ts IH]; intros st HI Hin; cbn [hostname_loop].
        - apply post_ret; [exact HI|exact I].
        - eapply post_bind; [apply post_htry; [exact HI|apply Hin; left; reflexivity]|].
          intros oa st1 I1 R1 V1. destruct oa as [a|]; [apply post_ret; assumption|].
          apply IH; [exact I1|]. intros x Hx. apply Hin. right. exact Hx.
      Qed.

      Lemma post_cnsl stack : forall sufs st, Inv st -> post (fun _ _ => True) st (cnsl stack sufs st).
      Proof.
        induction sufs as [|ls rest IH]; intros st HI; cbn [candidate_ns_loop]; [apply post_ret; auto|].
        destruct (from_labels ls) as [name|]; [|apply IH, HI].
        eapply post_bind; [apply post_local, HI|].
        intros ol st1 I1 R1 [-> _]. destruct (is_nil _); [apply IH, I1|apply post_ret; auto].
      Qed.

      Lemma post_qav st a q mc : Inv st -> AddrOK st a -> QOK q ->
        post (fun onr st' => match onr with
                             | Some nr => Forall (G st') (result_rrs nr) /\ exists resp, validate_nameserver_response q resp mc = Ok (Some nr)
                             | None => True
                             end) st (qav (a, port) q mc st).
      Proof.
        intros HI Ha Hq. destruct (qav (a, port) q mc st) as [r st'] eqn:E.
        destruct (H_query st a q mc r st' HI Ha Hq E) as (I2 & R2 & Hnr & Hab). split; [exact I2|]. split; [exact R2|]. cbn [fst snd].
        destruct r as [[nr|]|w]; [|exact I|apply Hab; reflexivity]. split; [apply Hnr; reflexivity|].
        destruct (qav_some _ _ _ _ _ _ E) as [resp [Hv _]]. exists resp. exact Hv.
      Qed.

      Lemma post_cstep loop stack q combined mc cands next locally st :
        loop_ok combined loop -> QOK q -> Inv st -> Forall (G st) combined ->
        post good_rres st (cstep rec loop stack q combined mc cands next locally st).
      Proof.
        intros Hloop Hq HI Hc. unfold candidate_step.
        destruct (pop_last cands) as [[candidate rest]|]; [|apply post_ret; [exact HI|exact I]].
        eapply post_bind; [apply post_hloop; [exact HI|apply incl_refl]|].
        intros oip st1 I1 R1 V1.
        assert (Hc1 : Forall (G st1) combined) by (eapply Forall_G_mono; eassumption).
        destruct oip as [a|].
        - eapply post_bind; [apply post_qav; assumption|]. intros onr st2 I2 R2 V2.
          destruct onr as [nr|]; [|apply post_ret; [exact I2|exact I]]. destruct V2 as [Hg [resp Hv]].
          assert (Hc2 : Forall (G st2) combined) by (eapply Forall_G_mono; eassumption).
          eapply post_bind; [eapply post_rwnr; [exact I2|exact Hc2|exact Hv|exact Hg]|].
          intros r0 st3 I3 R3 V3. destruct r0 as [result|d]; [apply post_ret; assumption|].
          apply Hloop; [exact I3|eapply Forall_G_mono; eassumption].
        - destruct locally.
          + destruct (is_nil rest); apply Hloop; assumption.
          + apply Hloop; assumption.
      Qed.

      Lemma post_rbody (loop : list question -> question -> list rr -> N -> list dname -> list dname -> bool -> RM rres) stack q st :
        (forall stack' q' combined, QOK q' -> loop_ok combined (loop stack' q' combined)) ->
        Inv st -> post good_rres st (rbody rec loop stack q st).
      Proof.
        intros Hloop HI. unfold recursive_body.
        destruct (at_recursion_limit stack) eqn:El; [apply post_ret; [exact HI|exact I]|].
        destruct (is_duplicate_question stack q) eqn:Ed; [apply post_ret; [exact HI|exact I]|].
        eapply post_bind; [apply post_local, HI|].
        intros ol st1 I1 R1 [-> Hl]. cbv zeta.
        assert (Hcont : forall (given : RM (option nameservers)) combined,
                   QOK q -> Forall (G st) combined -> post (fun _ _ => True) st (given st) ->
                   post good_rres st (rbind given (fun c => match c with
                                    | Some d => loop (stack ++ [q]) q combined (ns_match_count d) (sort_names (ns_hostnames d)) [] true
                                    | None => rret (RErr (EDeadEnd q))
                                    end) st)).
        { intros given combined Hq Hc Hg. eapply post_bind; [exact Hg|].
          intros c st2 I2 R2 _. destruct c as [d|]; [|apply post_ret; [exact I2|exact I]].
          apply Hloop; [exact Hq|exact I2|eapply Forall_G_mono; eassumption]. }
        destruct ol as [[r|rrs|rrs s d|rrs cq]|].
        - apply post_ret; [exact I1|]. apply (H_local _ _ _ _ I1 Hl).
        - apply Hcont.
          + eapply H_q; try eassumption. left. eexists; exact Hl.
          + apply (H_local _ _ _ _ I1 Hl).
          + apply post_cnsl, I1.
        - apply Hcont.
          + eapply H_q; try eassumption. right; left. do 3 eexists; exact Hl.
          + constructor.
          + apply post_ret; auto.
        - apply post_rcr; [exact I1|]. apply (H_local _ _ _ _ I1 Hl).
        - apply Hcont.
          + eapply H_q; try eassumption. right; right. exact Hl.
          + constructor.
          + apply post_cnsl, I1.
      Qed.
    End Combinators.

    Theorem generic_invariant : forall f,
      rec_ok (rrn f) /\ (forall stack q combined, QOK q -> loop_ok combined (cloop f stack q combined)).
    Proof.
      induction f as [|f [IHr IHl]].
      - split.
        + intros stack q st HI. cbn. unfold post, stop. cbn [fst snd]. auto.
        + intros stack q combined _ mc cands next locally st HI _. cbn. unfold post, stop. cbn [fst snd]. auto.
      - split.
        + intros stack q st HI. rewrite rrn_S. apply post_rbody; assumption.
        + intros stack q combined Hq mc cands next locally st HI Hc. rewrite cloop_S.
          apply post_cstep; try assumption. apply IHl, Hq.
    Qed.
  End Generic.

  (* what a query does to the state: the cache stays, the log grows by exchanges with that address and question *)
  Lemma qav_state a q mc st :
    fst (snd (qav a q mc st)) = fst st
    /\ exists new, ts_rlog (snd (snd (qav a q mc st))) = new ++ ts_rlog (snd st)
                   /\ Forall (fun x => x_addr x = a /\ x_question x = q /\ x_rd x = false) new.
  Proof.
    unfold query_and_validate, RecursiveModel.rbind, lift_t.
    destruct (query_nameserver o a q false (snd st)) as [[om|w] ts] eqn:E;
      pose proof (query_nameserver_dest _ _ _ _ _ _ _ E) as [new [E1 F1]]; cbn [fst snd].
    - destruct om as [resp|]; [|split; [reflexivity|exists new; auto]].
      destruct (validate_nameserver_response q resp mc) as [x|e| |]; (split; [reflexivity|exists new; auto]).
    - split; [reflexivity|exists new; auto].
  Qed.

  Theorem rrn_no_panic (Ho : oracle_bytes_ok o) (Hz : ~ zone_panics zs) f stack q st :
    fst (rrn f stack q st) <> Abort APanic.
  Proof.
    destruct (generic_invariant (fun _ => True) (fun _ _ => True) (fun _ _ => True) (fun w => w <> APanic)
                (fun _ _ => True) (fun _ => True)) with (f := f) as [Hr _]; auto.
    - discriminate.
    - intros. split; apply Forall_forall; auto.
    - intros stack0 q0 st0 _ H. exfalso. apply Hz. eapply resolve_local_panic, H.
    - intros st0 a q0 mc r st' _ _ _ E. repeat split; auto.
      + intros. apply Forall_forall; auto.
      + intros w ->. intro. subst w. pose proof (qav_fine Ho (a, port) q0 mc st0 APanic) as Hq. rewrite E in Hq. discriminate (Hq eq_refl).
    - specialize (Hr stack q st I). destruct Hr as (_ & _ & Hr). destruct (fst (rrn f stack q st)) as [x|w]; [discriminate|].
      intro E. inversion E; subst. apply Hr. reflexivity.
  Qed.

  (* C06 only_validated_is_cached:
     the cache is changed by nothing but insert_all of the records of a result of
     validate_nameserver_response: every property of caches that such inserts preserve is preserved
     by a whole resolution *)
  Theorem rrn_cached_cut (P : cache -> Prop) :
    (forall c q resp mc nr i, P c -> validate_nameserver_response q resp mc = Ok (Some nr) ->
        ((exists x y, nr = NRDelegation x y) \/ forall r, In r (firstn i (nr_rrs nr)) -> owned_elsewhere zs q r = false) ->
        P (cache_insert_all c (firstn i (nr_rrs nr)))) ->
    forall f stack q st, P (fst st) -> P (fst (snd (rrn f stack q st))).
  Proof.
    intros HP f stack q st H0.
    destruct (generic_invariant (fun st => P (fst st)) (fun _ _ => True) (fun _ _ => True) (fun _ => True)
                (fun _ _ => True) (fun _ => True)) with (f := f) as [Hr _]; auto.
    - intros. split; apply Forall_forall; auto.
    - intros st0 q0 resp mc nr i H1 H2 _ H3. split; [|exact I]. cbn [fst]. eapply HP; eassumption.
    - intros st0 a q0 mc r st' H1 _ _ E. repeat split; auto.
      + pose proof (proj1 (qav_state (a, port) q0 mc st0)) as Hc. rewrite E in Hc. cbn [snd] in Hc. rewrite Hc. exact H1.
      + intros. apply Forall_forall; auto.
    - specialize (Hr stack q st H0). exact (proj1 Hr).
  Qed.

  Theorem rrn_only_validated_cached (P : cache -> Prop) :
    (forall c q resp mc nr i, P c -> validate_nameserver_response q resp mc = Ok (Some nr) ->
                              P (cache_insert_all c (firstn i (nr_rrs nr)))) ->
    forall f stack q st, P (fst st) -> P (fst (snd (rrn f stack q st))).
  Proof. intros HP. apply rrn_cached_cut. intros c q resp mc nr i H1 H2 _. eapply HP; eassumption. Qed.

  (* what passes the filter was decoded from octets the oracle sent: it is well formed *)
  Lemma validated_wf (Ho : oracle_bytes_ok o) a q mc st nr st' :
    qav a q mc st = (Val (Some nr), st') -> Forall wf_rr (result_rrs nr).
  Proof.
    intro E. destruct (qav_some _ _ _ _ _ _ E) as [resp [Hv [Hq _]]].
    destruct (query_nameserver_logged _ _ _ _ _ _ _ Hq) as [new [e [_ [_ [Hl _]]]]].
    pose proof (logged_reply_wf _ _ _ _ _ _ Ho Hl) as (_ & _ & Wan & Wau & Wad).
    pose proof (filter_sound _ _ _ _ Hv) as Hall.
    eapply Forall_impl; [|exact Hall]. intros r Hr.
    assert (Hin : In r (m_answers resp) \/ In r (m_authority resp) \/ In r (m_additional resp)).
    { destruct Hr as [Ha|[Hn|[Hg|Hs]]].
      - left. exact (proj1 Ha).
      - destruct Hn as [[[H|H] _] _]; auto.
      - destruct Hg as [[H|H] _]; auto.
      - destruct Hs as (_ & _ & _ & [l1 [l2 [E2 _]]] & _). right; left. rewrite E2. apply in_or_app. right; left; reflexivity. }
    destruct Hin as [H|[H|H]];
      [exact (proj1 (Forall_forall _ _) Wan r H)|exact (proj1 (Forall_forall _ _) Wau r H)|exact (proj1 (Forall_forall _ _) Wad r H)].
  Qed.

  (* the address get_ip yields has the family of the record type asked for *)
  Lemma get_ip_family rrs h t a : Forall rr_typed rrs -> get_ip rrs h t = Ok (Some a) ->
    (t = RT_A -> ip_is_v4 a = true) /\ (t = RT_AAAA -> ip_is_v4 a = false).
  Proof.
    intros Ht. unfold get_ip. destruct (follow_cnames rrs h QT_Wildcard) as [[[fin m]|]| | |]; try discriminate.
    destruct (get_record rrs fin t) as [r|] eqn:Er; [|discriminate].
    unfold get_record in Er. apply find_some in Er. destruct Er as [Hin Hb]. apply andb_prop in Hb. destruct Hb as [Hty _].
    apply N.eqb_eq in Hty. eapply Forall_forall in Ht; [|exact Hin]. unfold rr_typed in Ht.
    revert Ht. destruct (rr_data r); intros Ht E; inversion E; subst a; cbn [ip_is_v4]; split; intro Et;
      try reflexivity; exfalso; rewrite Et in Hty; rewrite Hty in Ht; vm_compute in Ht; discriminate.
  Qed.

  Definition zones_rrs_ok (P : rr -> Prop) : Prop :=
    (forall name qt z zr r, zones_resolve zs name qt = Some (z, Ok zr) -> In r (zresult_rrs zr) -> P r)
    /\ (forall name qt z zr s, zones_resolve zs name qt = Some (z, zr) -> zone_soa_rr z = Some s -> P s).

  (* the loop of resolve_hostname_to_ip over two record types: the second is asked only when the
     first yielded no address *)
  Lemma hloop_two rec stack locally h t1 t2 st a st' :
    hloop rec stack locally h [t1; t2] st = (Val (Some a), st') ->
    htry rec stack locally h t1 st = (Val (Some a), st')
    \/ exists st1, htry rec stack locally h t1 st = (Val None, st1) /\ htry rec stack locally h t2 st1 = (Val (Some a), st').
  Proof.
    cbn [hostname_loop]. unfold RecursiveModel.rbind, ret.
    destruct (htry rec stack locally h t1 st) as [[[x|]|w] st1] eqn:E1; try discriminate.
    - intro E. inversion E; subst. left. reflexivity.
    - destruct (htry rec stack locally h t2 st1) as [[[y|]|w] st2] eqn:E2; try discriminate.
      intro E. inversion E; subst. right. exists st1. split; [reflexivity|exact E2].
  Qed.

  Lemma finish_ok (x : out rres * rstate) res st' : finish cache x = (Ok res, st') -> x = (Val (ROk res), st').
  Proof. destruct x as [[[r|e]|[| |]] st1]; cbn [finish]; intro H; inversion H; reflexivity. Qed.
  Lemma finish_snd (x : out rres * rstate) : snd (finish cache x) = snd x.
  Proof. destruct x as [[[r|e]|[| |]] st1]; reflexivity. Qed.

  Section CacheLaws.
    Variable cache_content : cache -> rr -> Prop.
    Hypothesis CL_get : forall c n t r, In r (cache_get c n t) -> exists r', cache_content c r' /\ rr_sim r r'.
    Hypothesis CL_insert : forall c rrs r, cache_content (cache_insert_all c rrs) r ->
                                           cache_content c r \/ exists r', In r' rrs /\ rr_sim r r'.

  Section LogInvariant.
    Variable PA : ip -> Prop.             (* addresses *)
    Variable PQ : question -> Prop.       (* questions *)
    Variable GT : rr -> Prop.             (* records *)
    Hypothesis GT_sim : forall a b, rr_sim a b -> GT b -> GT a.
    Hypothesis GT_up : forall a q mc st nr st', qav a q mc st = (Val (Some nr), st') -> Forall GT (result_rrs nr).
    Hypothesis GT_zone : forall name qt z zr r, zones_resolve zs name qt = Some (z, Ok zr) -> In r (zresult_rrs zr) -> GT r.
    Hypothesis GT_soa : forall name qt z zr s, zones_resolve zs name qt = Some (z, zr) -> zone_soa_rr z = Some s -> GT s.
    Hypothesis PA_ip : forall rrs h t a, Forall GT rrs -> In t (rtypes_of_mode pmode) -> get_ip rrs h t = Ok (Some a) -> PA a.
    Hypothesis PQ_q : forall stack q c,
      at_recursion_limit stack = false -> is_duplicate_question stack q = false ->
      goes_upstream (resolve_local zs (cache_get c) LOCAL_FUEL stack q) -> PQ q.
    Variable base : list exchange.        (* the log before the resolution *)

    Definition log_ok (e : exchange) : Prop :=
      PA (fst (x_addr e)) /\ snd (x_addr e) = port /\ PQ (x_question e) /\ x_rd e = false.

    Definition log_inv (st : rstate) : Prop :=
      (exists new, ts_rlog (snd st) = new ++ base /\ Forall log_ok new) /\ (forall r, cache_content (fst st) r -> GT r).

    Theorem rrn_log_invariant f stack q st :
      log_inv st ->
      log_inv (snd (rrn f stack q st))
      /\ (forall res, fst (rrn f stack q st) = Val (ROk res) ->
            Forall GT (resolved_rrs res) /\ Forall GT (opt_list (resolved_soa_rr res))).
    Proof.
      intro H0.
      destruct (generic_invariant log_inv (fun _ _ => True) (fun _ r => GT r) (fun _ => True) (fun _ a => PA a) PQ)
        with (f := f) as [Hr _]; auto.
      - intros stack0 q0 st0 l [_ Hc] Hl.
        refine (local_from zs (cache_get (fst st0)) GT GT_zone GT_soa _ _ _ _ _ Hl).
        intros n t r Hr. destruct (CL_get _ _ _ _ Hr) as [r' [H1 H2]]. eapply GT_sim; [exact H2|]. apply Hc, H1.
      - intros stack0 q0 st0 _ Hl Hd Hc. eapply PQ_q; eassumption.
      - intros st0 q0 resp mc nr i [Hl Hc] Hv Hg _. split; [|exact I].
        split; [exact Hl|]. cbn [fst]. intros r Hr. destruct (CL_insert _ _ _ Hr) as [H|[r' [H1 H2]]]; [apply Hc, H|].
        eapply GT_sim; [exact H2|]. rewrite result_rrs_split in Hg. apply Forall_app in Hg.
        eapply Forall_forall; [exact (proj1 Hg)|]. eapply firstn_incl, H1.
      - intros st0 rrs h t a _ Hg Ht Hip. eapply PA_ip; eassumption.
      - intros st0 a q0 mc r st' [[new0 [El0 Fl0]] Hc] Ha Hq E.
        destruct (qav_state (a, port) q0 mc st0) as [Ecache [new [Elog Fnew]]].
        rewrite E in Ecache, Elog. cbn [snd] in Ecache, Elog.
        split; [|split; [exact I|split; [|auto]]].
        + split.
          * exists (new ++ new0). rewrite Elog, El0, app_assoc. split; [reflexivity|]. apply Forall_app. split; [|exact Fl0].
            eapply Forall_impl; [|exact Fnew]. intros x (h1 & h2 & h3). unfold log_ok. rewrite h1, h2, h3. cbn [fst snd]. auto.
          * rewrite Ecache. exact Hc.
        + intros nr ->. eapply GT_up, E.
      - specialize (Hr stack q st H0). destruct Hr as (H1 & _ & H3).
        split; [exact H1|]. intros res E. rewrite E in H3. exact H3.
    Qed.
  End LogInvariant.

  Section Family.
    Hypothesis Ho : oracle_bytes_ok o.
    Hypothesis Hzt : zones_rrs_ok rr_typed.

    (* with typed sources every record the resolver returns is typed, the cache stays typed, and the
       destinations are what get_ip yields of typed records *)
    Lemma rrn_typed (PA : ip -> Prop) f stack q st :
      (forall rrs h t a, Forall rr_typed rrs -> In t (rtypes_of_mode pmode) -> get_ip rrs h t = Ok (Some a) -> PA a) ->
      (forall r, cache_content (fst st) r -> rr_typed r) ->
      log_inv PA (fun _ => True) rr_typed (ts_rlog (snd st)) (snd (rrn f stack q st))
      /\ (forall res, fst (rrn f stack q st) = Val (ROk res) ->
            Forall rr_typed (resolved_rrs res) /\ Forall rr_typed (opt_list (resolved_soa_rr res))).
    Proof.
      intros Hip Hc0. apply rrn_log_invariant; auto.
      - exact rr_typed_sim.
      - intros a q0 mc st0 nr st' E. eapply Forall_impl; [|exact (validated_wf Ho _ _ _ _ _ _ E)]. exact wf_rr_typed.
      - exact (proj1 Hzt).
      - exact (proj2 Hzt).
      - split; [|exact Hc0]. exists []. split; [reflexivity|constructor].
    Qed.

    (* C18 only_v4 / only_v6: every destination of a resolution has the configured family *)
    Theorem rrn_only_family (v4 : bool) f stack q st :
      pmode = (if v4 then OnlyV4 else OnlyV6) ->
      (forall r, cache_content (fst st) r -> rr_typed r) ->
      exists new, ts_rlog (snd (snd (rrn f stack q st))) = new ++ ts_rlog (snd st)
                  /\ Forall (fun e => ip_is_v4 (fst (x_addr e)) = v4) new.
    Proof.
      intros Hm Hc0. destruct (rrn_typed (fun a => ip_is_v4 a = v4) f stack q st) as [[[new [E F]] _] _]; [|exact Hc0|].
      - intros rrs h t a Ht Hin Hip. destruct (get_ip_family _ _ _ _ Ht Hip) as [H4 H6].
        rewrite Hm in Hin. destruct v4; cbn [rtypes_of_mode] in Hin; destruct Hin as [<-|[]]; auto.
      - exists new. split; [exact E|]. eapply Forall_impl; [|exact F]. intros e (h & _). exact h.
    Qed.

    (* the address a hostname lookup yields has the family of the record type asked for *)
    Lemma htry_family f stack locally h t st a st' :
      (forall r, cache_content (fst st) r -> rr_typed r) ->
      htry (rrn f) stack locally h t st = (Val (Some a), st') ->
      (t = RT_A -> ip_is_v4 a = true) /\ (t = RT_AAAA -> ip_is_v4 a = false).
    Proof.
      intros Hc0. unfold hostname_try. destruct locally.
      - unfold RecursiveModel.rbind, local.
        destruct (resolve_local zs (cache_get (fst st)) LOCAL_FUEL stack (mkq h t RC_IN)) as [l|e| |] eqn:El; try discriminate.
        destruct l as [r|rrs|rrs s d|rrs cq]; try discriminate.
        destruct (get_ip_lift (resolved_rrs r) h t st) as [oa [E1 E2]]. rewrite E1. intro E. inversion E; subst.
        eapply get_ip_family; [|exact E2].
        refine (proj1 (local_from zs (cache_get (fst st')) rr_typed (proj1 Hzt) (proj2 Hzt) _ _ _ _ _ El)).
        intros n t0 r0 Hr. destruct (CL_get _ _ _ _ Hr) as [r' [H1 H2]]. eapply rr_typed_sim; [exact H2|]. apply Hc0, H1.
      - unfold RecursiveModel.rbind.
        destruct (rrn_typed (fun _ => True) f stack (mkq h t RC_IN) st (fun _ _ _ _ _ _ _ => I) Hc0) as [_ Hres].
        destruct (rrn f stack (mkq h t RC_IN) st) as [[[res|e]|w] st1]; try discriminate.
        destruct (Hres res eq_refl) as [Hres' _].
        destruct (get_ip_lift (resolved_rrs res) h t st1) as [oa [E1 E2]]. rewrite E1. intro E. inversion E; subst.
        eapply get_ip_family; eassumption.
    Qed.

    (* C18 prefer_family: an address of the other family is used for a host only after the question
       for the preferred family was asked (locally, or upstream when the host is looked up
       recursively) and yielded no address *)
    Theorem rhi_prefer_family (v4 : bool) f stack locally h st a st' :
      pmode = (if v4 then PreferV4 else PreferV6) ->
      (forall r, cache_content (fst st) r -> rr_typed r) ->
      rhi (rrn f) stack locally h st = (Val (Some a), st') ->
      ip_is_v4 a = negb v4 ->
      exists st1, htry (rrn f) stack locally h (if v4 then RT_A else RT_AAAA) st = (Val None, st1)
                  /\ htry (rrn f) stack locally h (if v4 then RT_AAAA else RT_A) st1 = (Val (Some a), st').
    Proof.
      intros Hm Hc0 E Hfam. unfold resolve_hostname_to_ip in E.
      assert (Hrt : rtypes_of_mode pmode = if v4 then [RT_A; RT_AAAA] else [RT_AAAA; RT_A]) by (rewrite Hm; destruct v4; reflexivity).
      rewrite Hrt in E. clear Hrt.
      destruct v4; apply hloop_two in E; destruct E as [E|E]; try exact E; exfalso;
        destruct (htry_family f stack locally h _ st a st' Hc0 E) as [H4 H6].
      - rewrite (H4 eq_refl) in Hfam. discriminate.
      - rewrite (H6 eq_refl) in Hfam. discriminate.
    Qed.
  End Family.

  Section Provenance.
    Variable c0 : cache.                  (* the cache before the resolution *)

    (* local data: a record (or the SOA) of a configured zone *)
    Definition zone_src (r : rr) : Prop :=
      (exists name qt z zr, zones_resolve zs name qt = Some (z, Ok zr) /\ In r (zresult_rrs zr))
      \/ (exists name qt z zr, zones_resolve zs name qt = Some (z, zr) /\ zone_soa_rr z = Some r).
    (* a record of a message the oracle sent (a logged exchange delivered octets that decode to it)
       which passed the header gate against the request of that exchange and which the filter
       allows for the question of that exchange *)
    Definition upstream_src (log : list exchange) (r : rr) : Prop :=
      exists e resp mc, In e log /\ reply_from o e /\ exchange_message e = Some resp
        /\ response_matches_request (make_request (x_question e) (x_rd e)) resp = true
        /\ allowed (x_question e) mc resp r.
    (* where a record may come from: local data, the cache before the resolution, or what [src] admits
       of the exchange log ([upstream_src] here, the forwarder's replies in forwarding mode) *)
    Definition prov (src : list exchange -> rr -> Prop) (log : list exchange) (r : rr) : Prop :=
      exists r0, rr_sim r r0 /\ (zone_src r0 \/ cache_content c0 r0 \/ src log r0).

    Lemma prov_sim src log a b : rr_sim a b -> prov src log b -> prov src log a.
    Proof. intros Hs [r0 [H1 H2]]. exists r0. split; [eapply rr_sim_trans; eassumption|exact H2]. Qed.

    Lemma prov_mono (src : list exchange -> rr -> Prop) : (forall log new r, src log r -> src (new ++ log) r) ->
      forall log new r, prov src log r -> prov src (new ++ log) r.
    Proof. intros Hm log new r [r0 [H1 [H|[H|H]]]]; exists r0; (split; [exact H1|]); auto. Qed.

    Lemma upstream_src_mono log new r : upstream_src log r -> upstream_src (new ++ log) r.
    Proof.
      intros (e & resp & mc & Hin & H). exists e, resp, mc. split; [apply in_or_app; right; exact Hin|exact H].
    Qed.

    (* what local resolution returns over a cache of such records, and what the cache holds after
       inserting such records *)
    Lemma prov_local src c log stack q l :
      (forall r, cache_content c r -> prov src log r) -> resolve_local zs (cache_get c) LOCAL_FUEL stack q = Ok l ->
      Forall (prov src log) (lresult_rrs l) /\ Forall (prov src log) (opt_list (lresult_soa l)).
    Proof.
      intros Hc Hl. refine (local_from zs (cache_get c) (prov src log) _ _ _ _ _ _ _ Hl).
      - intros name qt z zr r Hz Hin. exists r. split; [apply rr_sim_refl|]. left. left. exists name, qt, z, zr. auto.
      - intros name qt z zr s Hz Hs. exists s. split; [apply rr_sim_refl|]. left. right. exists name, qt, z, zr. auto.
      - intros n t r Hr. destruct (CL_get _ _ _ _ Hr) as [r' [H1 H2]]. eapply prov_sim; [exact H2|]. apply Hc, H1.
    Qed.

    Lemma prov_insert src c log rrs :
      (forall r, cache_content c r -> prov src log r) -> (forall r, In r rrs -> prov src log r) ->
      forall r, cache_content (cache_insert_all c rrs) r -> prov src log r.
    Proof.
      intros Hc Hrrs r Hr. destruct (CL_insert _ _ _ Hr) as [H|[r' [H1 H2]]]; [apply Hc, H|].
      eapply prov_sim; [exact H2|apply Hrrs, H1].
    Qed.

    Definition prov_inv (st : rstate) : Prop :=
      forall r, cache_content (fst st) r -> prov upstream_src (ts_rlog (snd st)) r.

    Theorem rrn_provenance f stack q st :
      prov_inv st ->
      prov_inv (snd (rrn f stack q st))
      /\ (forall res, fst (rrn f stack q st) = Val (ROk res) ->
            Forall (prov upstream_src (ts_rlog (snd (snd (rrn f stack q st))))) (resolved_rrs res ++ opt_list (resolved_soa_rr res))).
    Proof.
      intro H0.
      destruct (generic_invariant prov_inv (fun st st' => exists new, ts_rlog (snd st') = new ++ ts_rlog (snd st))
                  (fun st r => prov upstream_src (ts_rlog (snd st)) r) (fun _ => True) (fun _ _ => True) (fun _ => True))
        with (f := f) as [Hr _]; auto.
      - intros st0. exists []. reflexivity.
      - intros a b c [n1 E1] [n2 E2]. exists (n2 ++ n1). rewrite E2, E1, app_assoc. reflexivity.
      - intros st0 st' r [new E]. rewrite E. apply prov_mono, upstream_src_mono.
      - intros stack0 q0 st0 l Hc Hl. exact (prov_local _ _ _ _ _ _ Hc Hl).
      - intros st0 q0 resp mc nr i Hc Hv Hg _. split; [|exists []; reflexivity].
        unfold prov_inv. cbn [fst snd]. apply prov_insert; [exact Hc|]. intros r Hr.
        rewrite result_rrs_split in Hg. apply Forall_app in Hg.
        eapply Forall_forall; [exact (proj1 Hg)|]. eapply firstn_incl, Hr.
      - intros st0 a q0 mc r st' Hc _ _ E.
        destruct (qav_state (a, port) q0 mc st0) as [Ecache [new [Elog _]]].
        rewrite E in Ecache, Elog. cbn [snd] in Ecache, Elog.
        split; [|split; [exists new; exact Elog|split; [|auto]]].
        + intros r0 Hr0. rewrite Ecache in Hr0. rewrite Elog. apply prov_mono, Hc, Hr0. exact upstream_src_mono.
        + intros nr ->. destruct (qav_some _ _ _ _ _ _ E) as [resp [Hv [Hq _]]].
          destruct (query_nameserver_logged _ _ _ _ _ _ _ Hq) as [new' [e [El [Hin [(h1 & h2 & h3 & h4 & h5) [Hm _]]]]]].
          eapply Forall_impl; [|exact (filter_sound _ _ _ _ Hv)]. intros r0 Hall.
          exists r0. split; [apply rr_sim_refl|]. right; right. exists e, resp, mc.
          split; [rewrite El; apply in_or_app; left; exact Hin|]. split; [exact h5|]. split; [exact h4|].
          rewrite h2, h3. split; [exact Hm|exact Hall].
      - specialize (Hr stack q st H0). destruct Hr as (H1 & _ & H3).
        split; [exact H1|]. intros res E. rewrite E in H3. apply Forall_app. exact H3.
    Qed.
  End Provenance.

    Theorem recursive_provenance f q st res st' :
      resolve_recursive cache cache_get cache_insert_all sort_names zs o pmode port f q st = (Ok res, st') ->
      forall r, In r (resolved_rrs res ++ opt_list (resolved_soa_rr res)) ->
      exists r0, rr_sim r r0 /\
        (zone_src r0 \/ cache_content (fst st) r0 \/ upstream_src (ts_rlog (snd st')) r0).
    Proof.
      intros H r Hr. apply finish_ok in H.
      destruct (rrn_provenance (fst st) f [] q st) as [_ Hres].
      { intros x Hx. exists x. split; [apply rr_sim_refl|]. right; left. exact Hx. }
      rewrite H in Hres. cbn [fst snd] in Hres. specialize (Hres res eq_refl).
      eapply Forall_forall in Hres; [|exact Hr]. exact Hres.
    Qed.
  End CacheLaws.

  (* done_means_no_upstream: a question local data answers is answered without touching the
     cache, the clock or the log *)
  Theorem rrn_done_no_upstream f stack q st r :
    at_recursion_limit stack = false -> is_duplicate_question stack q = false ->
    resolve_local zs (cache_get (fst st)) LOCAL_FUEL stack q = Ok (LDone r) ->
    rrn (S f) stack q st = (Val (ROk r), st).
  Proof.
    intros H1 H2 Hl. rewrite rrn_S. unfold recursive_body. rewrite H1, H2.
    unfold RecursiveModel.rbind, local. rewrite Hl. reflexivity.
  Qed.

  (* C18 port_fixed, C01 log_names_not_owned: every exchange of a resolution goes to the configured port
     and asks without RD, and no question sent upstream is about a name an authoritative zone owns *)
  Theorem rrn_port_fixed f stack q st :
    exists new, ts_rlog (snd (snd (rrn f stack q st))) = new ++ ts_rlog (snd st)
                /\ Forall (fun e => snd (x_addr e) = port /\ ~ owned_auth zs (q_name (x_question e)) /\ x_rd e = false) new.
  Proof.
    destruct (rrn_log_invariant (fun _ _ => True)) with (PA := fun _ : ip => True) (PQ := fun q : question => ~ owned_auth zs (q_name q))
      (GT := fun _ : rr => True) (base := ts_rlog (snd st)) (f := f) (stack := stack) (q := q) (st := st)
      as [[[new [E F]] _] _]; auto.
    - intros c n t r _. exists r. split; [exact I|apply rr_sim_refl].
    - intros. apply Forall_forall. auto.
    - intros stack0 q0 c. apply owned_not_upstream.
    - split; [|auto]. exists []. split; [reflexivity|constructor].
    - exists new. split; [exact E|]. eapply Forall_impl; [|exact F]. intros e (_ & h). exact h.
  Qed.

  (* nxdomain_only_from_auth_zone: the recursive resolver reports a name error only when local
     resolution did (nothing an upstream server says becomes AuthoritativeNameError) *)
  Lemma rcr_not_ane rec stack rrs q st s st' : rcr rec stack rrs q st <> (Val (ROk (AuthoritativeNameError s)), st').
  Proof.
    unfold resolve_combined_recursive, RecursiveModel.rbind, ret.
    destruct (rec stack q st) as [[[r|e]|w] st1]; discriminate.
  Qed.

  Lemma rwnr_not_ane rec stack combined nr q st s st' :
    rwnr rec stack combined nr q st <> (Val (inl (ROk (AuthoritativeNameError s))), st').
  Proof.
    destruct (rwnr_cut rec stack combined nr q) as (nr' & _ & _ & ->). clear nr. rename nr' into nr.
    unfold resolve_with_response_match, RecursiveModel.rbind, insert_all, ret.
    destruct nr as [rrs soa|rrs cname|rrs d]; [discriminate| |].
    - destruct (resolve_combined_recursive _ _ _ _ _ _) as [[r|w] st1] eqn:E; [|discriminate].
      intro H. inversion H; subst. eapply rcr_not_ane. exact E.
    - destruct (glue_answer combined rrs q) as [r|] eqn:Eg; [|discriminate]. apply glue_answer_some in Eg. subst r. discriminate.
  Qed.

  Lemma cloop_not_ane : forall f stack q combined mc cands next locally st s st',
    cloop f stack q combined mc cands next locally st <> (Val (ROk (AuthoritativeNameError s)), st').
  Proof.
    induction f as [|f IH]; intros stack q combined mc cands next locally st s st'; [discriminate|].
    rewrite cloop_S. unfold candidate_step.
    destruct (pop_last cands) as [[candidate rest]|]; [|discriminate].
    unfold RecursiveModel.rbind at 1.
    destruct (rhi (rrn f) stack locally candidate st) as [[oip|w] st1]; [|discriminate].
    destruct oip as [a|].
    - unfold RecursiveModel.rbind at 1. destruct (qav (a, port) q mc st1) as [[onr|w] st2]; [|discriminate].
      destruct onr as [nr|]; [|discriminate].
      unfold RecursiveModel.rbind at 1. destruct (rwnr (rrn f) stack combined nr q st2) as [[r|w] st3] eqn:Er; [|discriminate].
      destruct r as [result|d]; [|apply IH].
      unfold ret. intro H. inversion H; subst. eapply rwnr_not_ane. exact Er.
    - destruct locally; [destruct (is_nil rest)|]; apply IH.
  Qed.

  Theorem rrn_nxdomain_only_local f stack q st s st' :
    rrn f stack q st = (Val (ROk (AuthoritativeNameError s)), st') ->
    resolve_local zs (cache_get (fst st)) LOCAL_FUEL stack q = Ok (LDone (AuthoritativeNameError s)) /\ st' = st.
  Proof.
    destruct f as [|f]; [discriminate|]. rewrite rrn_S. unfold recursive_body.
    destruct (at_recursion_limit stack); [discriminate|]. destruct (is_duplicate_question stack q); [discriminate|].
    unfold RecursiveModel.rbind at 1. unfold local at 1.
    destruct (resolve_local zs (cache_get (fst st)) LOCAL_FUEL stack q) as [l|e| |]; try discriminate.
    - cbv zeta. destruct l as [r|rrs|rrs so d|rrs cq].
      + unfold ret. intro H. inversion H; subst. auto.
      + unfold RecursiveModel.rbind. destruct (cns _ _ _) as [[c|w] st1]; [|discriminate].
        destruct c as [d|]; [|discriminate]. intro H. exfalso. eapply cloop_not_ane. exact H.
      + unfold RecursiveModel.rbind, ret. intro H. exfalso. eapply cloop_not_ane. exact H.
      + intro H. exfalso. eapply rcr_not_ane. exact H.
    - cbv zeta. unfold RecursiveModel.rbind. destruct (cns _ _ _) as [[c|w] st1]; [|discriminate].
      destruct c as [d|]; [|discriminate]. intro H. exfalso. eapply cloop_not_ane. exact H.
  Qed.

  Section Chain.
    Hypothesis Hzones : zones_answers_ok zs.
    Hypothesis Hcache : forall c, cget_ok (cache_get c).

    Lemma get_records_fin rrs name t : Forall (fun r => rr_name r = name /\ rr_type r = t) (get_records rrs name t).
    Proof.
      unfold get_records. apply Forall_forall. intros r Hr. apply filter_In in Hr. destruct Hr as [_ Hb].
      apply andb_prop in Hb. destruct Hb as [H1 H2]. apply N.eqb_eq in H1. apply dname_eqb_eq in H2. auto.
    Qed.

    Definition chain_res (q : question) (r : rres) : Prop :=
      match r with ROk res => chain_shape (q_name q) (q_type q) (resolved_rrs res) | RErr _ => True end.

    Lemma rcr_chain rec stack rrs q0 q st r st' :
      (forall st1 r1 st2, rec stack q st1 = (Val r1, st2) -> chain_res q r1) ->
      chain_from (q_name q0) rrs = Some (q_name q) -> q_type q = q_type q0 ->
      rcr rec stack rrs q st = (Val r, st') -> chain_res q0 r.
    Proof.
      intros Hrec Hch Hty. unfold resolve_combined_recursive, RecursiveModel.rbind, ret.
      destruct (rec stack q st) as [[[res|e]|w] st1] eqn:E; try discriminate; intro H; inversion H; subst; [|exact I].
      cbn [chain_res resolved_rrs]. eapply chain_shape_app; [exact Hch|]. rewrite <- Hty. exact (Hrec _ _ _ E).
    Qed.

    Lemma rwnr_chain rec stack nr q st r st' resp mc :
      q_type q <> QT_Wildcard ->
      (forall q' st1 r1 st2, q_type q' = q_type q -> rec stack q' st1 = (Val r1, st2) -> chain_res q' r1) ->
      validate_nameserver_response q resp mc = Ok (Some nr) ->
      rwnr rec stack [] nr q st = (Val (inl r), st') -> chain_res q r.
    Proof.
      intros Hq2 Hrec Hv. pose proof (filter_chain_ok _ _ _ _ Hv) as Hch.
      destruct (rwnr_cut rec stack [] nr q) as (nr' & Hs & _ & ->).
      assert (Hcn : forall rrs c, chain_from (q_name q) rrs = Some c ->
                rwm rec stack [] (NRCname rrs c) q st = (Val (inl r), st') -> chain_res q r).
      { intros rrs c Hcf. unfold resolve_with_response_match. unfold RecursiveModel.rbind at 1 2. unfold insert_all at 1.
        destruct (resolve_combined_recursive _ _ _ _ _ _) as [[r1|w] st1] eqn:E; [|discriminate].
        unfold ret. intro H. inversion H; subst. rewrite merge_nil_l in E.
        eapply rcr_chain; [| | |exact E]; [|exact Hcf|reflexivity].
        intros st2 r2 st3 E2. eapply Hrec; [|exact E2]. reflexivity. }
      destruct Hs as [_|i r0 Hnd Hn Ho Hp].
      2: { (* cut: the prefix is the chain from the question name to the owner of the first record cut *)
        apply Hcn. destruct nr as [rrs [s0|]|rrs c|rrs d]; cbn [nr_rrs] in *.
        - subst rrs. destruct i; discriminate.
        - destruct Hch as (cn & fin & last & -> & _ & Hvc). destruct Hvc as (H1 & _ & H3 & _).
          eapply cut_chain; try eassumption. eapply Forall_impl; [|exact H3]. cbn beta. tauto.
        - destruct Hch as [_ (H1 & _)].
          pose proof (cut_chain zs q (q_name q) rrs [] c i r0 H1 (Forall_nil _)) as Hcc.
          rewrite app_nil_r in Hcc. apply Hcc; assumption.
        - exfalso. eapply Hnd. reflexivity. }
      destruct nr as [rrs soa|rrs cname|rrs d]; [|exact (Hcn _ _ (proj1 (proj2 Hch)))|]; unfold resolve_with_response_match.
      - unfold RecursiveModel.rbind, insert_all, ret. intro H. inversion H; subst. cbn [chain_res resolved_rrs].
        rewrite merge_nil_l. destruct soa as [s|].
        + subst rrs. apply chain_shape_nil.
        + destruct Hch as (cn & fin & last & -> & _ & Hvc). apply chain_ok_shape. eapply vchain_chain_ok; eassumption.
      - unfold RecursiveModel.rbind, insert_all, ret.
        destruct (glue_answer [] rrs q) as [r1|] eqn:Eg; [|discriminate]. apply glue_answer_some in Eg. subst r1.
        intro H; inversion H; subst. cbn [chain_res resolved_rrs]. rewrite merge_nil_l.
        exists [], (get_records rrs (q_name q) (q_type q)), (q_name q). split; [reflexivity|]. split; [reflexivity|apply get_records_fin].
    Qed.

    Theorem rrn_chain_shape : forall f,
      (forall stack q st r st', q_type q <> RT_CNAME -> q_type q <> QT_Wildcard ->
         rrn f stack q st = (Val r, st') -> chain_res q r)
      /\ (forall stack q mc cands next locally st r st', q_type q <> RT_CNAME -> q_type q <> QT_Wildcard ->
         cloop f stack q [] mc cands next locally st = (Val r, st') -> chain_res q r).
    Proof.
      induction f as [|f [IHr IHl]]; [split; intros; discriminate|]. split.
      - intros stack q st r st' Hq1 Hq2. rewrite rrn_S. unfold recursive_body.
        destruct (at_recursion_limit stack); [unfold ret; intro H; inversion H; exact I|].
        destruct (is_duplicate_question stack q); [unfold ret; intro H; inversion H; exact I|].
        unfold RecursiveModel.rbind at 1. unfold local at 1.
        destruct (resolve_local zs (cache_get (fst st)) LOCAL_FUEL stack q) as [l|e| |] eqn:El; try discriminate.
        + cbv zeta. destruct l as [res|rrs|rrs so d|rrs cq].
          * unfold ret. intro H. inversion H; subst. cbn [chain_res]. apply chain_ok_shape.
            apply (local_chain_ok zs (cache_get (fst st')) Hzones (Hcache _) _ _ _ _ Hq1 Hq2 El). intros [].
          * exfalso. eapply no_partial; [exact Hq2|exact El].
          * unfold RecursiveModel.rbind, ret. apply IHl; assumption.
          * destruct (local_alias zs (cache_get (fst st)) Hzones (Hcache _) _ _ _ _ _ Hq2 El) as [H1 H2].
            intro H. eapply rcr_chain; [| | |exact H].
            -- intros st1 r1 st2 E1. eapply IHr; [| |exact E1]; rewrite H2; cbn [subq q_type]; assumption.
            -- exact H1.
            -- rewrite H2. reflexivity.
        + cbv zeta. unfold RecursiveModel.rbind. destruct (cns _ _ _) as [[c|w] st1]; [|discriminate].
          destruct c as [d|]; [apply IHl; assumption|]. unfold ret. intro H. inversion H; exact I.
      - intros stack q mc cands next locally st r st' Hq1 Hq2. rewrite cloop_S. unfold candidate_step.
        destruct (pop_last cands) as [[candidate rest]|]; [|unfold ret; intro H; inversion H; exact I].
        unfold RecursiveModel.rbind at 1.
        destruct (rhi (rrn f) stack locally candidate st) as [[oip|w] st1]; [|discriminate].
        destruct oip as [a|].
        + unfold RecursiveModel.rbind at 1. destruct (qav (a, port) q mc st1) as [[onr|w] st2] eqn:Eq; [|discriminate].
          destruct onr as [nr|]; [|unfold ret; intro H; inversion H; exact I].
          destruct (qav_some _ _ _ _ _ _ Eq) as [resp [Hv _]].
          unfold RecursiveModel.rbind at 1. destruct (rwnr (rrn f) stack [] nr q st2) as [[r0|w] st3] eqn:Er; [|discriminate].
          destruct r0 as [result|d]; [|apply IHl; assumption].
          unfold ret. intro H. inversion H; subst.
          eapply rwnr_chain; [exact Hq2| |exact Hv|exact Er].
          intros q' st4 r1 st5 Hty E. eapply IHr; [| |exact E]; rewrite Hty; assumption.
        + destruct locally; [destruct (is_nil rest)|]; apply IHl; assumption.
    Qed.
  End Chain.

  (* C07 referral_progress:
     the only way the candidate loop changes the delegation in use: a validated referral, which is
     strictly deeper than the delegation in use (its match count exceeds the current one), encloses
     the question name (so the count never exceeds the number of labels of the question name) and
     names at least one host; the loop then continues with exactly that delegation *)
  Theorem referral_progress rec loop stack q combined mc cands next locally st candidate rest a st1 nr st2 d st3 :
    pop_last cands = Some (candidate, rest) ->
    rhi rec stack locally candidate st = (Val (Some a), st1) ->
    qav (a, port) q mc st1 = (Val (Some nr), st2) ->
    rwnr rec stack combined nr q st2 = (Val (inr d), st3) ->
    cstep rec loop stack q combined mc cands next locally st
    = loop (ns_match_count d) (sort_names (ns_hostnames d)) [] true st3
    /\ mc < ns_match_count d
    /\ is_subdomain_of (q_name q) (ns_name d) = true
    /\ ns_match_count d <= llen (labels (q_name q))
    /\ ns_hostnames d <> [].
  Proof.
    intros Ep Eh Eq Er. split.
    - unfold candidate_step. rewrite Ep. unfold RecursiveModel.rbind. rewrite Eh, Eq, Er. reflexivity.
    - destruct (rwnr_inr stack rec combined nr q st2 d st3 Er) as [rrs ->].
      destruct (qav_some _ _ _ _ _ _ Eq) as [resp [Hv _]].
      destruct (delegation_progress _ _ _ _ _ Hv) as [Hlt [Hsub [pre Hanc]]].
      split; [exact Hlt|]. split; [exact Hsub|]. split.
      + unfold ns_match_count, llen. rewrite Hanc, app_length. lia.
      + eapply delegation_hostnames_nonempty. exact Hv.
  Qed.

  (* when no referral is involved the delegation in use stays the same *)
  Theorem no_referral_same_delegation rec loop stack q combined mc cands next locally st candidate rest st1 :
    pop_last cands = Some (candidate, rest) ->
    rhi rec stack locally candidate st = (Val None, st1) ->
    exists cands' next' locally',
      cstep rec loop stack q combined mc cands next locally st = loop mc cands' next' locally' st1.
  Proof.
    intros Ep Eh. unfold candidate_step. rewrite Ep. unfold RecursiveModel.rbind. rewrite Eh.
    destruct locally; [destruct (is_nil rest)|]; do 3 eexists; reflexivity.
  Qed.

End RP.
