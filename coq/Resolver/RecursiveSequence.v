(* SEQUENCES of questions sharing one cache.  [resolve_seq]: the questions of a list resolved one after the other, each with a fresh transport
   state (its own log and 60 s budget), the cache handed from one to the next.  When every question
   of the list is a plain question of the universe (RecursiveWarm.warm_question, plain_question) and
   the first starts in a cache consistent with the universe -- the empty cache is -- then EVERY
   question returns its authoritative answer: exactly [auth_answer] when it is resolved over the
   network, and the cached RRset with exactly the authoritative data (TTLs and order the cache's)
   when an earlier question of the sequence has put it into the cache; and the cache at the end is
   consistent again.  Induction on the list with RecursiveWarm.warm_correct. *)
From Coq Require Import Permutation.
From RV Require Import Base.Prelude Name.NameModel Wire.WireTypes Zone.ZoneModel Zone.ZoneFlat
     Resolver.LocalModel Resolver.TransportModel Resolver.RecursiveModel Resolver.ForwardingModel
     Resolver.Universe Resolver.RecursiveDepth1 Resolver.RecursiveChain Resolver.RecursiveWarm.

Section Sequence.
  Variable cache : Type.
  Variable cache_get : cache -> dname -> N -> list rr.
  Variable cache_insert_all : cache -> list rr -> cache.
  Variable sort_names : list dname -> list dname.
  Variable port : N.
  Variable zs : zones.
  Variable o : oracle.

  Notation run fuel q c :=
    (resolve cache cache_get cache_insert_all sort_names (ModeRecursive OnlyV4) port zs o fuel q (c, tstate_init)).

  (* per question: the result and the log of its exchanges; and the cache at the end *)
  Fixpoint resolve_seq (fuel : nat) (qs : list question) (c : cache)
    : list (res rerror resolved * list exchange) * cache :=
    match qs with
    | [] => ([], c)
    | q :: t =>
      let r := run fuel q c in
      let rest := resolve_seq fuel t (fst (snd r)) in
      ((fst r, ts_log (snd (snd r))) :: fst rest, snd rest)
    end.
End Sequence.

(* the result is the authoritative answer: the SOA of the denial exactly, the records with exactly
   the authoritative data *)
Definition answer_is_auth (u : universe) (q : question) (r : res rerror resolved) : Prop :=
  exists rrs, r = Ok (NonAuthoritative rrs (aa_soa (auth_answer u q))) /\ same_data rrs (aa_rrs (auth_answer u q)).

Section SequenceCorrect.
  Variable cache : Type.
  Variable cache_get : cache -> dname -> N -> list rr.
  Variable cache_insert_all : cache -> list rr -> cache.
  Hypothesis LAWS : cache_laws cache cache_get cache_insert_all.
  Variable sort_names : list dname -> list dname.
  Hypothesis Hsort : forall l, Permutation (sort_names l) l.
  Variable port : N.
  Variable u : universe.
  Hypothesis UNS : universe_ns_ok u.
  Variable hints : list rr.
  Variable hz : zone.
  Hypothesis Hbuilt : zone_build root_domain None (hint_ops hints) = Ok hz.
  Variable fuel : nat.

  Notation consistent := (cache_consistent u hints cache cache_get).
  Notation rseq := (resolve_seq cache cache_get cache_insert_all sort_names port (zones_insert [] hz) (universe_oracle u []) fuel).

  (* a question the sequence theorem covers: a plain question of the universe with its chain,
     short enough for the fuel *)
  Definition seq_question (q : question) : Prop :=
    exists zroot rest zk, warm_question u hints q zroot rest zk /\ plain_question u q /\ (length rest + 2 <= fuel)%nat.

  (* each question's outcome, relative to the cache it starts in (RecursiveWarm.warm_outcome) *)
  Fixpoint seq_outcomes (qs : list question) (c : cache) : Prop :=
    match qs with
    | [] => True
    | q :: t =>
      let r := resolve cache cache_get cache_insert_all sort_names (ModeRecursive OnlyV4) port (zones_insert [] hz)
                       (universe_oracle u []) fuel q (c, tstate_init) in
      (exists zroot rest, warm_outcome cache cache_get port u hints q zroot rest c r) /\ seq_outcomes t (fst (snd r))
    end.

  Theorem sequence_outcomes : forall qs c, Forall seq_question qs -> consistent c ->
    seq_outcomes qs c /\ consistent (snd (rseq qs c)).
  Proof.
    induction qs as [|q t IH]; intros c Hqs HC; cbn [seq_outcomes resolve_seq snd]; [split; [exact I|exact HC]|].
    inversion Hqs as [|? ? (zroot & rest & zk & WQ & Hq & Hf) Ht]; subst.
    pose proof (warm_correct cache cache_get cache_insert_all LAWS sort_names Hsort port u UNS hints hz Hbuilt
                  q zroot rest zk c fuel WQ Hq HC Hf) as Hout.
    pose proof Hout as (rrs & c' & ts' & E & HC' & _).
    rewrite E in *. cbn [fst snd] in *.
    destruct (IH c' Ht HC') as [H1 H2]. split; [|exact H2]. split; [|exact H1]. exists zroot, rest. exact Hout.
  Qed.

  Lemma seq_outcomes_auth : forall qs c, seq_outcomes qs c ->
    Forall2 (fun q out => answer_is_auth u q (fst out)) qs (fst (rseq qs c)).
  Proof.
    induction qs as [|q t IH]; intros c H; cbn [resolve_seq fst]; [constructor|].
    cbn [seq_outcomes] in H. destruct H as ((zroot & rest & rrs & c' & ts' & E & _ & Hcases) & Ht).
    constructor; [|exact (IH _ Ht)]. cbn [fst]. rewrite E. cbn [fst]. exists rrs. split; [reflexivity|].
    destruct Hcases as [(_ & _ & _ & _ & Hs)|(-> & _)]; [exact Hs|apply same_data_refl].
  Qed.

  (* every question of the sequence returns its authoritative answer, and the cache stays
     consistent *)
  Theorem sequence_correct qs c : Forall seq_question qs -> consistent c ->
    Forall2 (fun q out => answer_is_auth u q (fst out)) qs (fst (rseq qs c)) /\ consistent (snd (rseq qs c)).
  Proof.
    intros Hqs HC. destruct (sequence_outcomes qs c Hqs HC) as [H1 H2]. split; [exact (seq_outcomes_auth qs c H1)|exact H2].
  Qed.
End SequenceCorrect.

(* the hypotheses are satisfiable: on the worked universe of RecursiveWarm.v (the depth-3 chain
   with two cross-zone aliases) the sequence  www.sub.example.com. A, MX, A  on one SimpleCache
   started empty: every question returns its authoritative answer; evaluated inside Coq the three
   logs are: four exchanges (root, com., example.com., sub.example.com.), one (sub.example.com.),
   none (the cache) *)
Definition c4_seq : list question := [c3_q; c3_q_mx; c3_q].

Lemma c4_seq_questions : Forall (seq_question c4_universe c3_hints 5%nat) c4_seq.
Proof.
  repeat constructor; exists c4_root, [c4_com; c4_ex; c4_sub], c4_sub;
    (split; [apply c4_warm_question|split; [apply c4_plain_question|cbn; lia]]); auto.
Qed.

Notation c4_seq_run := (resolve_seq scache sc_get sc_insert_all sort_names_ord 53 (zones_insert [] c3_hz)
                                    (universe_oracle c4_universe []) 5%nat c4_seq sc_empty).

Example sequence_example :
  Forall2 (fun q out => answer_is_auth c4_universe q (fst out)) c4_seq (fst c4_seq_run)
  /\ cache_consistent c4_universe c3_hints scache sc_get (snd c4_seq_run).
Proof.
  exact (sequence_correct scache sc_get sc_insert_all sc_cache_laws sort_names_ord sort_names_ord_perm 53 c4_universe
           c4_universe_ns_ok c3_hints c3_hz c3_hz_built 5%nat c4_seq sc_empty c4_seq_questions (sc_empty_consistent _ _)).
Qed.

Example sequence_example_eval :
  map fst (fst c4_seq_run)
  = [Ok (NonAuthoritative [c3_rr c3_n_www RT_A 300 (RD_A 3221225985)] None);
     Ok (NonAuthoritative [] (Some (uz_soa c4_sub)));
     Ok (NonAuthoritative [c3_rr c3_n_www RT_A 300 (RD_A 3221225985)] None)]
  /\ map (fun out => map x_addr (snd out)) (fst c4_seq_run)
     = [[(inl c3_ip0, 53); (inl c3_ip1, 53); (inl c3_ip2, 53); (inl c3_ip3, 53)]; [(inl c3_ip3, 53)]; []].
Proof. vm_compute. split; reflexivity. Qed.
