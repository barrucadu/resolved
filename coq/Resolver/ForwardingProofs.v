(* Resolver/ForwardingProofs.v -- lemmas about the forwarding resolver model
   (Resolver/ForwardingModel.v) for C08 (termination with an explicit fuel, no panic,
   provenance), C18 (forward_only_forwarder), C01 / C10 (network-mode clauses), and about
   SimpleCache (it meets the cache laws the resolver theorems assume), and about the table oracle of
   Universe.v (it sends octets; without faults its reply is the table's message with the id patched in). *)
From Coq Require Import Arith.
From RV Require Import Base.Prelude Name.NameModel Wire.WireTypes Wire.WireEncodeProofs
     Zone.ZoneModel Resolver.LocalModel Resolver.LocalSpec Resolver.LocalProofs
     Resolver.ValidateModel Resolver.ValidateSpec Resolver.ValidateProofs
     Resolver.TransportModel Resolver.RecursiveModel Resolver.ForwardingModel Resolver.ResolverFacts
     Resolver.RecursiveProofs.

Section FP.
  Variable cache : Type.
  Variable cache_get : cache -> dname -> N -> list rr.
  Variable cache_insert_all : cache -> list rr -> cache.
  Variable zs : zones.
  Variable o : oracle.
  Variable fa : addr.                      (* the forwarder *)

  Notation RM := (RM cache).
  Notation rstate := (rstate cache).
  Notation rfn := (resolve_forwarding_notimeout cache cache_get cache_insert_all zs o fa).
  Notation fq := (forward_query cache cache_insert_all zs o fa).
  Notation rlocal := (local cache cache_get zs).
  Notation rret := (ret cache).
  Notation rbind := (rbind cache).

  (* what follows local resolution in resolve_forwarding_notimeout *)
  Definition fwd_cont (f : nat) (stack : list question) (q : question) (l : option lresult) : RM rres :=
    match l with
    | Some (LDone r) => rret (ROk r)
    | Some (LPartial rrs) => fq (rfn f) stack rrs q
    | Some (LDelegation _ _ _) => fq (rfn f) stack [] q
    | Some (LCname rrs cq) =>
      rbind (rfn f (stack ++ [q]) cq) (fun r =>
        match r with
        | ROk resolved => rret (ROk (NonAuthoritative (rrs ++ resolved_rrs resolved) (resolved_soa_rr resolved)))
        | RErr _ => rret (RErr (EDeadEnd cq))
        end)
    | None => fq (rfn f) stack [] q
    end.

  Lemma rfn_S f stack q :
    rfn (S f) stack q =
    if at_recursion_limit stack then rret (RErr ERecursionLimit)
    else if is_duplicate_question stack q then rret (RErr (EDuplicateQuestion q))
    else rbind (rlocal stack q) (fwd_cont f stack q).
  Proof. reflexivity. Qed.

  (* the continuation when the forwarder's answer leads into a locally authoritative name:
     the rest of the chain is resolved by the forwarding resolver itself, the question pushed *)
  Definition fq_nested (rec : list question -> question -> RM rres) (stack : list question)
             (combined : list rr) (q : question) (prefix : list rr) (name : dname) : RM rres :=
    rbind (rec (stack ++ [q]) (mkq name (q_type q) (q_class q))) (fun r =>
      match r with
      | ROk resolved => rret (ROk (NonAuthoritative (prioritising_merge combined prefix ++ resolved_rrs resolved)
                                                   (resolved_soa_rr resolved)))
      | RErr _ => rret (RErr (EDeadEnd (mkq name (q_type q) (q_class q))))
      end).

  (* what forward_query does, case by case *)
  Lemma fq_cases rec stack combined q st :
    (exists resp ts, query_nameserver o fa q true (snd st) = (Val (Some resp), ts)
        /\ (forall r, In r (m_answers resp) -> owned_elsewhere zs q r = false)
        /\ fq rec stack combined q st = (Val (ROk (NonAuthoritative (prioritising_merge combined (m_answers resp))
                                                        (get_nxdomain_nodata_soa q resp 0))),
                               (cache_insert_all (fst st) (m_answers resp), ts)))
    \/ (exists resp ts i r, query_nameserver o fa q true (snd st) = (Val (Some resp), ts)
        /\ nth_error (m_answers resp) i = Some r /\ owned_elsewhere zs q r = true
        /\ (forall x, In x (firstn i (m_answers resp)) -> owned_elsewhere zs q x = false)
        /\ fq rec stack combined q st
           = fq_nested rec stack combined q (firstn i (m_answers resp)) (rr_name r)
                       (cache_insert_all (fst st) (firstn i (m_answers resp)), ts))
    \/ (exists ts, query_nameserver o fa q true (snd st) = (Val None, ts)
        /\ fq rec stack combined q st = (Val (RErr (EDeadEnd q)), (fst st, ts)))
    \/ (exists w ts, query_nameserver o fa q true (snd st) = (Abort w, ts)
        /\ fq rec stack combined q st = (Abort w, (fst st, ts))).
  Proof.
    unfold fq_nested, forward_query, RecursiveModel.rbind, lift_t, insert_all, ret.
    destruct (query_nameserver o fa q true (snd st)) as [[om|w1] ts].
    - destruct om as [resp|]; [|right; right; left; exists ts; auto].
      destruct (cut_rrs_ok zs q (m_answers resp)) as (c & -> & Hc). destruct Hc as [Hn|i r Hn Ho Hf].
      + left. exists resp, ts. split; [reflexivity|]. split; [exact Hn|]. reflexivity.
      + right; left. exists resp, ts, i, r. repeat (split; [first [reflexivity|assumption]|]). reflexivity.
    - right; right; right. exists w1, ts. auto.
  Qed.

  (* C08 forwarding_terminates: fuel 34 always suffices.
     A call with fuel S f uses the calls with fuel f only on the stack extended by its question:
     so its result, and whether it runs out of fuel, depend on them alone. *)
  Lemma fq_ext rec rec' stack combined q st :
    (forall q' st', rec (stack ++ [q]) q' st' = rec' (stack ++ [q]) q' st') ->
    fq rec stack combined q st = fq rec' stack combined q st.
  Proof.
    intro H. unfold forward_query, RecursiveModel.rbind, insert_all.
    destruct (lift_t cache _ st) as [[[resp|]|w] st1]; try reflexivity.
    destruct (cut_rrs zs q (m_answers resp)) as [[[prefix name]|]| | |]; try reflexivity.
    rewrite H. reflexivity.
  Qed.

  Lemma fq_nofuel (Ho : oracle_bytes_ok o) rec stack combined q st :
    (forall q' st', fst (rec (stack ++ [q]) q' st') <> Abort AFuel) ->
    fst (fq rec stack combined q st) <> Abort AFuel.
  Proof.
    intro H.
    destruct (fq_cases rec stack combined q st) as [(resp & ts & _ & _ & E)|[(resp & ts & i & r & _ & _ & _ & _ & E)|[(ts & _ & E)|(w & ts & Eq & E)]]];
      rewrite E; try discriminate.
    - unfold fq_nested, RecursiveModel.rbind. specialize (H (mkq (rr_name r) (q_type q) (q_class q)) (cache_insert_all (fst st) (firstn i (m_answers resp)), ts)).
      destruct (rec _ _ _) as [[[res|e]|w] st1]; try discriminate. exact H.
    - cbn [fst]. pose proof (query_nameserver_fine o fa q true (snd st) Ho w) as Hq. rewrite Eq in Hq.
      intro Hw. inversion Hw; subst. discriminate (Hq eq_refl).
  Qed.

  Lemma rfn_S_ext f f' stack q st :
    (at_recursion_limit stack = false -> forall q' st', rfn f (stack ++ [q]) q' st' = rfn f' (stack ++ [q]) q' st') ->
    rfn (S f) stack q st = rfn (S f') stack q st.
  Proof.
    intro H. rewrite !rfn_S. destruct (at_recursion_limit stack); [reflexivity|]. specialize (H eq_refl).
    destruct (is_duplicate_question stack q); [reflexivity|]. unfold RecursiveModel.rbind.
    destruct (rlocal stack q st) as [[ol|w] st1]; [|reflexivity].
    destruct ol as [[r|rrs|rrs s d|rrs cq]|]; cbn [fwd_cont]; try reflexivity; try (apply fq_ext; exact H).
    unfold RecursiveModel.rbind. rewrite H. reflexivity.
  Qed.

  Lemma rfn_S_nofuel (Ho : oracle_bytes_ok o) f stack q st :
    (length stack <= 32)%nat ->
    (at_recursion_limit stack = false -> forall q' st', fst (rfn f (stack ++ [q]) q' st') <> Abort AFuel) ->
    fst (rfn (S f) stack q st) <> Abort AFuel.
  Proof.
    intros Hlen H. rewrite rfn_S. destruct (at_recursion_limit stack); [discriminate|]. specialize (H eq_refl).
    destruct (is_duplicate_question stack q); [discriminate|]. unfold RecursiveModel.rbind.
    destruct (rlocal_cases cache cache_get zs stack q st Hlen) as [[ol [E _]]|[E _]]; rewrite E; [|discriminate].
    destruct ol as [[r|rrs|rrs s d|rrs cq]|]; cbn [fwd_cont]; try discriminate; try (apply fq_nofuel; assumption).
    unfold RecursiveModel.rbind. specialize (H cq st).
    destruct (rfn f (stack ++ [q]) cq st) as [[[res|e]|w] st1]; try discriminate. exact H.
  Qed.

  Lemma rfn_stable (Ho : oracle_bytes_ok o) : forall f stack q st,
    (length stack <= 32)%nat -> (33 <= f + length stack)%nat ->
    fst (rfn f stack q st) <> Abort AFuel
    /\ forall f', (f <= f')%nat -> rfn f' stack q st = rfn f stack q st.
  Proof.
    induction f as [|f IH]; intros stack q st Hlen Hf; [cbn in Hf; lia|].
    assert (Hdeep : at_recursion_limit stack = false ->
                    (length (stack ++ [q]) <= 32)%nat /\ (33 <= f + length (stack ++ [q]))%nat).
    { intro El. split; [apply stack_le_32; assumption|]. apply at_limit_false in El. rewrite app_length. cbn [length]. lia. }
    split.
    - apply rfn_S_nofuel; [exact Ho|exact Hlen|]. intros El q' st'. destruct (Hdeep El). apply IH; assumption.
    - intros f' Hf'. destruct f' as [|f']; [lia|]. apply rfn_S_ext. intros El q' st'. destruct (Hdeep El).
      apply IH; [assumption|assumption|lia].
  Qed.

  Definition FORWARDING_FUEL : nat := 34.

  Theorem forwarding_terminates (Ho : oracle_bytes_ok o) q st :
    fst (resolve_forwarding cache cache_get cache_insert_all zs o fa FORWARDING_FUEL q st) <> OutOfFuel
    /\ forall fuel, (FORWARDING_FUEL <= fuel)%nat ->
         resolve_forwarding cache cache_get cache_insert_all zs o fa fuel q st
         = resolve_forwarding cache cache_get cache_insert_all zs o fa FORWARDING_FUEL q st.
  Proof.
    destruct (rfn_stable Ho FORWARDING_FUEL [] q st) as [H1 H2]; [cbn; lia|cbn; lia|].
    unfold resolve_forwarding. split.
    - destruct (rfn FORWARDING_FUEL [] q st) as [[[x|e]|[| |]] st']; cbn [finish fst] in *; try discriminate. congruence.
    - intros fuel Hf. rewrite (H2 fuel Hf). reflexivity.
  Qed.

  Section Generic.
    Variable Inv : rstate -> Prop.
    Variable R : rstate -> rstate -> Prop.
    Variable G : rstate -> rr -> Prop.
    Variable Ab : abort -> Prop.
    Variable QOK : question -> Prop.

    Hypothesis R_refl : forall st, R st st.
    Hypothesis R_trans : forall a b c, R a b -> R b c -> R a c.
    Hypothesis G_mono : forall st st' r, R st st' -> G st r -> G st' r.
    Hypothesis Ab_fuel : Ab AFuel.
    Hypothesis H_local : forall stack q st l, Inv st -> rlocal_res cache cache_get zs stack q st = Ok l ->
      Forall (G st) (lresult_rrs l) /\ Forall (G st) (opt_list (lresult_soa l)).
    Hypothesis H_local_panic : forall stack q st, Inv st -> rlocal_res cache cache_get zs stack q st = Panic -> Ab APanic.
    Hypothesis H_q : forall stack q st, Inv st ->
      at_recursion_limit stack = false -> is_duplicate_question stack q = false ->
      goes_upstream (rlocal_res cache cache_get zs stack q st) -> QOK q.
    (* the exchange with the forwarder, and caching a prefix of the answer section of its reply
       (all of it unless the answer leads into a locally authoritative name) *)
    Hypothesis H_fwd : forall q st r ts, Inv st -> QOK q ->
      query_nameserver o fa q true (snd st) = (r, ts) ->
      Inv (fst st, ts) /\ R st (fst st, ts) /\ (forall w, r = Abort w -> Ab w)
      /\ (forall resp, r = Val (Some resp) ->
            Forall (G (fst st, ts)) (m_answers resp)
            /\ Forall (G (fst st, ts)) (opt_list (get_nxdomain_nodata_soa q resp 0))
            /\ forall i, (forall x, In x (firstn i (m_answers resp)) -> owned_elsewhere zs q x = false) ->
                         Inv (cache_insert_all (fst st) (firstn i (m_answers resp)), ts)
                         /\ R (fst st, ts) (cache_insert_all (fst st) (firstn i (m_answers resp)), ts)).

    Notation fpost := (post cache Inv R Ab).

    Lemma post_fq rec stack combined q st :
      (forall stack' q' st', Inv st' -> fpost (good_rres cache G) st' (rec stack' q' st')) ->
      Inv st -> QOK q -> Forall (G st) combined -> fpost (good_rres cache G) st (fq rec stack combined q st).
    Proof.
      intros Hrec HI Hq Hc.
      destruct (query_nameserver o fa q true (snd st)) as [r0 ts0] eqn:Eq0.
      destruct (H_fwd q st r0 ts0 HI Hq Eq0) as (I1 & R1 & Hab & Hresp).
      destruct (fq_cases rec stack combined q st) as [(resp & ts & Eq & Hn & E)|[(resp & ts & i & r & Eq & Hn & Ho' & Hp & E)|[(ts & Eq & E)|(w & ts & Eq & E)]]];
        rewrite Eq in Eq0; inversion Eq0; subst r0 ts0; rewrite E.
      - destruct (Hresp resp eq_refl) as (Ga & Gs & Hins).
        destruct (Hins (length (m_answers resp))) as [I2 R2]. { intros x Hx. apply Hn. eapply firstn_incl, Hx. }
        rewrite firstn_all in I2, R2.
        unfold post. cbn [fst snd]. split; [exact I2|]. split; [eapply R_trans; eassumption|].
        split; cbn [resolved_rrs resolved_soa_rr].
        + apply Forall_merge.
          * eapply Forall_impl; [|exact Hc]. intros x Hx. eapply G_mono; [|exact Hx]. eapply R_trans; eassumption.
          * eapply Forall_impl; [|exact Ga]. intros x Hx. eapply G_mono; eassumption.
        + eapply Forall_impl; [|exact Gs]. intros x Hx. eapply G_mono; eassumption.
      - destruct (Hresp resp eq_refl) as (Ga & Gs & Hins).
        destruct (Hins i Hp) as [I2 R2].
        assert (R02 : R st (cache_insert_all (fst st) (firstn i (m_answers resp)), ts)) by (eapply R_trans; eassumption).
        assert (P2 : fpost (good_rres cache G) (cache_insert_all (fst st) (firstn i (m_answers resp)), ts)
                           (fq_nested rec stack combined q (firstn i (m_answers resp)) (rr_name r)
                                      (cache_insert_all (fst st) (firstn i (m_answers resp)), ts))).
        { apply (post_rcr cache Inv R G Ab R_refl R_trans G_mono rec Hrec); [exact I2|]. apply Forall_merge.
          - eapply Forall_impl; [|exact Hc]. intros x. apply G_mono, R02.
          - apply Forall_forall. intros x Hx. apply firstn_incl in Hx. eapply Forall_forall in Ga; [|exact Hx].
            eapply G_mono; [exact R2|exact Ga]. }
        destruct P2 as (I3 & R3 & V3). split; [exact I3|]. split; [eapply R_trans; eassumption|exact V3].
      - unfold post. cbn [fst snd]. split; [exact I1|]. split; [exact R1|exact I].
      - unfold post. cbn [fst snd]. split; [exact I1|]. split; [exact R1|]. apply Hab. reflexivity.
    Qed.

    Theorem fwd_generic : forall f stack q st, Inv st -> fpost (good_rres cache G) st (rfn f stack q st).
    Proof.
      induction f as [|f IH]; intros stack q st HI.
      - cbn. unfold post, stop. cbn [fst snd]. auto.
      - rewrite rfn_S.
        destruct (at_recursion_limit stack) eqn:El; [apply post_ret; [exact R_refl|exact HI|exact I]|].
        destruct (is_duplicate_question stack q) eqn:Ed; [apply post_ret; [exact R_refl|exact HI|exact I]|].
        eapply post_bind; [exact R_trans|apply post_local; assumption|].
        intros ol st1 I1 R1 [-> Hl].
        destruct ol as [[r|rrs|rrs s d|rrs cq]|].
        + apply post_ret; [exact R_refl|exact I1|]. apply (H_local _ _ _ _ I1 Hl).
        + apply post_fq; [exact IH|exact I1| |apply (H_local _ _ _ _ I1 Hl)].
          eapply H_q; try eassumption. left. eexists; exact Hl.
        + apply post_fq; [exact IH|exact I1| |constructor].
          eapply H_q; try eassumption. right; left. do 3 eexists; exact Hl.
        + apply (post_rcr cache Inv R G Ab R_refl R_trans G_mono (rfn f) IH); [exact I1|apply (H_local _ _ _ _ I1 Hl)].
        + apply post_fq; [exact IH|exact I1| |constructor].
          eapply H_q; try eassumption. right; right. exact Hl.
    Qed.
  End Generic.

  Theorem rfn_no_panic (Ho : oracle_bytes_ok o) (Hz : ~ zone_panics zs) f stack q st :
    fst (rfn f stack q st) <> Abort APanic.
  Proof.
    destruct (fwd_generic (fun _ => True) (fun _ _ => True) (fun _ _ => True) (fun w => w <> APanic) (fun _ => True))
      with (f := f) (stack := stack) (q := q) (st := st) as (_ & _ & Hp); auto.
    - discriminate.
    - intros. split; apply Forall_forall; auto.
    - intros stack0 q0 st0 _ H. exfalso. apply Hz. eapply resolve_local_panic, H.
    - intros q0 st0 r ts _ _ E. split; [exact I|]. split; [exact I|]. split.
      + intros w -> Hw. subst w.
        pose proof (query_nameserver_fine o fa q0 true (snd st0) Ho APanic) as Hq. rewrite E in Hq. discriminate (Hq eq_refl).
      + intros resp _. split; [apply Forall_forall; auto|]. split; [apply Forall_forall; auto|]. auto.
    - destruct (fst (rfn f stack q st)) as [x|w]; [discriminate|].
      intro E. inversion E; subst. apply Hp. reflexivity.
  Qed.

  (* what is cached (C01: the cut at a locally authoritative name):
     the cache is changed by nothing but insert_all of a prefix of the answer section of a reply
     of the forwarder in which no record is owned elsewhere (its owner is the question name of
     that exchange, or no authoritative local zone encloses it): every property of caches that
     such inserts preserve is preserved by a whole resolution *)
  Theorem rfn_cached_cut (P : cache -> Prop) :
    (forall c q ts resp ts' i, P c -> query_nameserver o fa q true ts = (Val (Some resp), ts') ->
        (forall r, In r (firstn i (m_answers resp)) -> owned_elsewhere zs q r = false) ->
        P (cache_insert_all c (firstn i (m_answers resp)))) ->
    forall f stack q st, P (fst st) -> P (fst (snd (rfn f stack q st))).
  Proof.
    intros HP f stack q st H0.
    assert (Hp : post cache (fun st => P (fst st)) (fun _ _ => True) (fun _ => True) (good_rres cache (fun _ _ => True)) st (rfn f stack q st)).
    { apply (fwd_generic (fun st => P (fst st)) (fun _ _ => True) (fun _ _ => True) (fun _ => True) (fun _ => True)); auto.
      - intros. split; apply Forall_forall; auto.
      - intros q0 st0 r ts H1 _ E. cbn [fst]. split; [exact H1|]. split; [exact I|]. split; [auto|].
        intros resp ->. split; [apply Forall_forall; auto|]. split; [apply Forall_forall; auto|].
        intros i Hi. split; [|exact I]. eapply HP; eassumption. }
    exact (proj1 Hp).
  Qed.

  Theorem rfn_log (PQ : question -> Prop) :
    (forall stack q c,
      at_recursion_limit stack = false -> is_duplicate_question stack q = false ->
      goes_upstream (resolve_local zs (cache_get c) LOCAL_FUEL stack q) -> PQ q) ->
    forall f stack q st,
    exists new, ts_rlog (snd (snd (rfn f stack q st))) = new ++ ts_rlog (snd st)
                /\ Forall (fun e => x_addr e = fa /\ x_rd e = true /\ PQ (x_question e)) new.
  Proof.
    intros HPQ f stack q st.
    set (LInv := fun st' : rstate => exists new, ts_rlog (snd st') = new ++ ts_rlog (snd st)
                              /\ Forall (fun e => x_addr e = fa /\ x_rd e = true /\ PQ (x_question e)) new).
    assert (Hp : post cache LInv (fun _ _ => True) (fun _ => True) (good_rres cache (fun _ _ => True)) st (rfn f stack q st)).
    { apply (fwd_generic LInv (fun _ _ => True) (fun _ _ => True) (fun _ => True) PQ); auto.
      - intros. split; apply Forall_forall; auto.
      - intros stack0 q0 st0 _ Hl Hd Hc. eapply HPQ; eassumption.
      - intros q0 st0 r ts [new0 [E0 F0]] Hq E.
        pose proof (query_nameserver_dest _ _ _ _ _ _ _ E) as [new [El F]].
        assert (HL : forall c : cache, LInv (c, ts)).
        { intro c. exists (new ++ new0). cbn [snd]. rewrite El, E0, app_assoc. split; [reflexivity|].
          apply Forall_app. split; [|exact F0].
          eapply Forall_impl; [|exact F]. intros x (h1 & h2 & h3). rewrite h2. auto. }
        split; [apply HL|]. split; [exact I|]. split; [auto|].
        intros resp _. split; [apply Forall_forall; auto|]. split; [apply Forall_forall; auto|].
        intros i _. split; [apply HL|exact I].
      - exists []. split; [reflexivity|constructor]. }
    exact (proj1 Hp).
  Qed.

  (* C18: in forwarding mode every exchange goes to the configured forwarder, with RD set *)
  Theorem rfn_forward_only_forwarder f stack q st :
    exists new, ts_rlog (snd (snd (rfn f stack q st))) = new ++ ts_rlog (snd st)
                /\ Forall (fun e => x_addr e = fa /\ x_rd e = true) new.
  Proof.
    destruct (rfn_log (fun _ => True)) with (f := f) (stack := stack) (q := q) (st := st) as [new [E F]]; [auto|].
    exists new. split; [exact E|]. eapply Forall_impl; [|exact F]. intros e (h1 & h2 & _). auto.
  Qed.

  (* C01 log_names_not_owned *)
  Theorem rfn_log_names_not_owned f stack q st :
    exists new, ts_rlog (snd (snd (rfn f stack q st))) = new ++ ts_rlog (snd st)
                /\ Forall (fun e => ~ owned_auth zs (q_name (x_question e))) new.
  Proof.
    destruct (rfn_log (fun q => ~ owned_auth zs (q_name q))) with (f := f) (stack := stack) (q := q) (st := st) as [new [E F]].
    - intros stack0 q0 c. apply owned_not_upstream.
    - exists new. split; [exact E|]. eapply Forall_impl; [|exact F]. intros e (_ & _ & h). exact h.
  Qed.

  (* C01 done_means_no_upstream *)
  Theorem rfn_done_no_upstream f stack q st r :
    at_recursion_limit stack = false -> is_duplicate_question stack q = false ->
    resolve_local zs (cache_get (fst st)) LOCAL_FUEL stack q = Ok (LDone r) ->
    rfn (S f) stack q st = (Val (ROk r), st).
  Proof.
    intros H1 H2 Hl. rewrite rfn_S, H1, H2. unfold RecursiveModel.rbind, local. rewrite Hl. reflexivity.
  Qed.

  (* C01 nxdomain_only_from_auth_zone *)
  Theorem rfn_nxdomain_only_local f stack q st s st' :
    rfn f stack q st = (Val (ROk (AuthoritativeNameError s)), st') ->
    resolve_local zs (cache_get (fst st)) LOCAL_FUEL stack q = Ok (LDone (AuthoritativeNameError s)) /\ st' = st.
  Proof.
    destruct f as [|f]; [discriminate|]. rewrite rfn_S.
    destruct (at_recursion_limit stack); [discriminate|]. destruct (is_duplicate_question stack q); [discriminate|].
    assert (Hfq : forall combined, fq (rfn f) stack combined q st <> (Val (ROk (AuthoritativeNameError s)), st')).
    { intros combined.
      destruct (fq_cases (rfn f) stack combined q st) as [(resp & ts & _ & _ & E)|[(resp & ts & i & r & _ & _ & _ & _ & E)|[(ts & _ & E)|(w & ts & _ & E)]]];
        rewrite E; try discriminate.
      unfold fq_nested, RecursiveModel.rbind, ret. destruct (rfn f _ _ _) as [[[res|e]|w] st1]; discriminate. }
    unfold RecursiveModel.rbind at 1. unfold local at 1.
    destruct (resolve_local zs (cache_get (fst st)) LOCAL_FUEL stack q) as [l|e| |]; try discriminate.
    - destruct l as [r|rrs|rrs so d|rrs cq]; cbn [fwd_cont].
      + unfold ret. intro H. inversion H; subst. auto.
      + intro H. exfalso. eapply Hfq, H.
      + intro H. exfalso. eapply Hfq, H.
      + unfold RecursiveModel.rbind, ret. destruct (rfn f (stack ++ [q]) cq st) as [[[res|e]|w] st1]; discriminate.
    - cbn [fwd_cont]. intro H. exfalso. eapply Hfq, H.
  Qed.

  Section Provenance.
    Variable cache_content : cache -> rr -> Prop.
    Hypothesis CL_get : forall c n t r, In r (cache_get c n t) -> exists r', cache_content c r' /\ rr_sim r r'.
    Hypothesis CL_insert : forall c rrs r, cache_content (cache_insert_all c rrs) r ->
                                           cache_content c r \/ exists r', In r' rrs /\ rr_sim r r'.
    Variable c0 : cache.

    (* a record of the answer section of a message the forwarder sent (a logged exchange delivered
       octets that decode to it) which passed the header gate, or the single SOA of its authority
       section when it denies the name or the type *)
    Definition forwarder_src (log : list exchange) (r : rr) : Prop :=
      exists e resp, In e log /\ reply_from o e /\ x_addr e = fa /\ exchange_message e = Some resp
        /\ response_matches_request (make_request (x_question e) (x_rd e)) resp = true
        /\ (In r (m_answers resp) \/ allowed_soa (x_question e) 0 resp r).
    Notation fprov := (prov cache zs cache_content c0 forwarder_src).

    Lemma forwarder_src_mono log new r : forwarder_src log r -> forwarder_src (new ++ log) r.
    Proof. intros (e & resp & Hin & H). exists e, resp. split; [apply in_or_app; right; exact Hin|exact H]. Qed.

    Definition fprov_inv (st : rstate) : Prop := forall r, cache_content (fst st) r -> fprov (ts_rlog (snd st)) r.

    Theorem rfn_provenance f stack q st :
      fprov_inv st ->
      fprov_inv (snd (rfn f stack q st))
      /\ (forall res, fst (rfn f stack q st) = Val (ROk res) ->
            Forall (fprov (ts_rlog (snd (snd (rfn f stack q st))))) (resolved_rrs res ++ opt_list (resolved_soa_rr res))).
    Proof.
      intro H0.
      destruct (fwd_generic fprov_inv (fun st st' => exists new, ts_rlog (snd st') = new ++ ts_rlog (snd st))
                    (fun st r => fprov (ts_rlog (snd st)) r) (fun _ => True) (fun _ => True))
        with (f := f) (stack := stack) (q := q) (st := st) as (H1 & _ & H3); auto.
        - intros st0. exists []. reflexivity.
        - intros a b c [n1 E1] [n2 E2]. exists (n2 ++ n1). rewrite E2, E1, app_assoc. reflexivity.
        - intros st0 st' r [new E]. rewrite E. apply prov_mono, forwarder_src_mono.
        - intros stack0 q0 st0 l Hc Hl. exact (prov_local _ _ _ _ CL_get _ _ _ _ _ _ _ Hc Hl).
        - intros q0 st0 r ts Hc _ Eq.
          pose proof (query_nameserver_dest _ _ _ _ _ _ _ Eq) as [new [El _]].
          assert (Hold : forall x, cache_content (fst st0) x -> fprov (ts_rlog ts) x).
          { intros x Hx. rewrite El. apply prov_mono, Hc, Hx. exact forwarder_src_mono. }
          split; [exact Hold|]. split; [exists new; exact El|]. split; [auto|].
          intros resp ->.
          destruct (query_nameserver_logged _ _ _ _ _ _ _ Eq) as [new' [e [El' [Hin [(h1 & h2 & h3 & h4 & h5) [Hm _]]]]]].
          assert (Hans : forall x, In x (m_answers resp) \/ allowed_soa q0 0 resp x -> fprov (ts_rlog ts) x).
          { intros x Hr. exists x. split; [apply rr_sim_refl|]. right; right. exists e, resp.
            split; [rewrite El'; apply in_or_app; left; exact Hin|]. split; [exact h5|]. split; [exact h1|]. split; [exact h4|].
            rewrite h2, h3. split; [exact Hm|exact Hr]. }
          split; [|split].
          + apply Forall_forall. intros x Hx. cbv beta. cbn [snd]. apply Hans. left. exact Hx.
          + destruct (get_nxdomain_nodata_soa q0 resp 0) as [s0|] eqn:Es; [|constructor].
            constructor; [|constructor]. cbv beta. cbn [snd]. apply Hans. right. apply soa_sound. exact Es.
          + intros i _. split; [|exists []; reflexivity]. unfold fprov_inv. cbn [fst snd].
            apply (prov_insert _ _ _ _ CL_insert); [exact Hold|]. intros x Hx. apply Hans. left. eapply firstn_incl, Hx.
        - split; [exact H1|]. intros res E. rewrite E in H3. apply Forall_app. exact H3.
    Qed.
  End Provenance.

  (* C10 forwarding_chain_ok (deviation D6: the forwarder's answer section is passed
     through as it is, so its order is an assumption) *)
  Section Chain.
    Hypothesis Hzones : zones_answers_ok zs.
    Hypothesis Hcache : forall c, cget_ok (cache_get c).
    (* what is assumed of the forwarder: the answer section of every reply that passes the gate is
       the alias chain from the question name followed by records of the asked type *)
    Hypothesis Hfw : forall q ts resp ts', query_nameserver o fa q true ts = (Val (Some resp), ts') ->
      chain_shape (q_name q) (q_type q) (m_answers resp).

    Theorem rfn_chain_shape : forall f stack q st r st',
      q_type q <> RT_CNAME -> q_type q <> QT_Wildcard ->
      rfn f stack q st = (Val r, st') -> chain_res q r.
    Proof.
      induction f as [|f IH]; intros stack q st r st' Hq1 Hq2; [discriminate|]. rewrite rfn_S.
      destruct (at_recursion_limit stack); [unfold ret; intro H; inversion H; exact I|].
      destruct (is_duplicate_question stack q); [unfold ret; intro H; inversion H; exact I|].
      assert (Hfq : fq (rfn f) stack [] q st = (Val r, st') -> chain_res q r).
      { destruct (fq_cases (rfn f) stack [] q st) as [(resp & ts & Eq & _ & E)|[(resp & ts & i & r0 & Eq & Hn & Ho' & Hp & E)|[(ts & Eq & E)|(w & ts & Eq & E)]]];
          rewrite E.
        3: intro H; inversion H; subst; exact I.
        3: discriminate.
        - intro H; inversion H; subst. cbn [chain_res resolved_rrs]. rewrite merge_nil_l. eapply Hfw, Eq.
        - (* the answer is cut: the prefix is the chain from the question name to the owner of the
             first record cut, the rest is a resolution starting there *)
          destruct (Hfw _ _ _ _ Eq) as (cn & fin & last & Ea & Hcf & Hfin).
          assert (Hch : chain_from (q_name q) (firstn i (m_answers resp)) = Some (rr_name r0)).
          { rewrite Ea in *. eapply cut_chain; try eassumption. eapply Forall_impl; [|exact Hfin]. cbn beta. tauto. }
          unfold fq_nested. rewrite merge_nil_l. intro H. eapply rcr_chain; [| | |exact H]; [|exact Hch|reflexivity].
          intros st1 r1 st2. apply IH; assumption. }
      unfold RecursiveModel.rbind at 1. unfold local at 1.
      destruct (resolve_local zs (cache_get (fst st)) LOCAL_FUEL stack q) as [l|e| |] eqn:El; try discriminate; [|exact Hfq].
      destruct l as [res|rrs|rrs so d|rrs cq]; cbn [fwd_cont].
      - unfold ret. intro H. inversion H; subst. cbn [chain_res]. apply chain_ok_shape.
        apply (local_chain_ok zs (cache_get (fst st')) Hzones (Hcache _) _ _ _ _ Hq1 Hq2 El). intros [].
      - exfalso. eapply no_partial; [exact Hq2|exact El].
      - exact Hfq.
      - destruct (local_alias zs (cache_get (fst st)) Hzones (Hcache _) _ _ _ _ _ Hq2 El) as [H1 H2].
        intro H. eapply rcr_chain; [| | |exact H]; [|exact H1|rewrite H2; reflexivity].
        intros st1 r1 st2. apply IH; rewrite H2; assumption.
    Qed.
  End Chain.

  Theorem forwarding_provenance (cache_content : cache -> rr -> Prop) :
    (forall c n t r, In r (cache_get c n t) -> exists r', cache_content c r' /\ rr_sim r r') ->
    (forall c rrs r, cache_content (cache_insert_all c rrs) r -> cache_content c r \/ exists r', In r' rrs /\ rr_sim r r') ->
    forall f q st res st', resolve_forwarding cache cache_get cache_insert_all zs o fa f q st = (Ok res, st') ->
    forall r, In r (resolved_rrs res ++ opt_list (resolved_soa_rr res)) ->
    exists r0, rr_sim r r0 /\
      (zone_src zs r0 \/ cache_content (fst st) r0 \/ forwarder_src (ts_rlog (snd st')) r0).
  Proof.
    intros CL_get CL_insert f q st res st' H r Hr. apply finish_ok in H.
    destruct (rfn_provenance cache_content CL_get CL_insert (fst st) f [] q st) as [_ Hres].
    { intros x Hx. exists x. split; [apply rr_sim_refl|]. right; left. exact Hx. }
    rewrite H in Hres. cbn [fst snd] in Hres. specialize (Hres res eq_refl).
    eapply Forall_forall in Hres; [|exact Hr]. exact Hres.
  Qed.
End FP.

(* SimpleCache meets the cache laws the resolver theorems assume *)

Definition sc_rr (k : dname * N) (e : rdata * N) : rr :=
  {| rr_name := fst k; rr_type := snd k; rr_class := RC_IN; rr_ttl := snd e; rr_data := fst e |}.

(* the records a SimpleCache holds *)
Definition sc_content (c : scache) (r : rr) : Prop :=
  exists k vals e, In (k, vals) c /\ In e vals /\ r = sc_rr k e.

Lemma sc_key_eqb_eq a b : sc_key_eqb a b = true <-> a = b.
Proof.
  unfold sc_key_eqb. rewrite andb_true_iff, N.eqb_eq. destruct a as [a1 a2], b as [b1 b2]. cbn [fst snd].
  split.
  - intros [H1 H2]. apply dname_eqb_eq in H1. congruence.
  - intro H. inversion H; subst. split; [apply dname_eqb_eq|]; reflexivity.
Qed.

Lemma sc_alookup_in {V} k (m : list ((dname * N) * V)) v : alookup sc_key_eqb k m = Some v -> In (k, v) m.
Proof.
  induction m as [|[k' v'] t IH]; cbn [alookup]; [discriminate|].
  destruct (sc_key_eqb k k') eqn:E.
  - intro H. inversion H; subst. apply sc_key_eqb_eq in E. subst. left. reflexivity.
  - intro H. right. apply IH, H.
Qed.

Lemma sc_areplace_in {V} k (v : V) : forall m k' v', In (k', v') (areplace sc_key_eqb k v m) ->
  In (k', v') m \/ (k' = k /\ v' = v).
Proof.
  induction m as [|[k0 v0] t IH]; intros k' v' H; cbn [areplace] in H; [destruct H|].
  destruct (sc_key_eqb k k0) eqn:E.
  - destruct H as [H|H]; [|left; right; exact H]. inversion H; subst. apply sc_key_eqb_eq in E. right. auto.
  - destruct H as [H|H]; [left; left; exact H|]. destruct (IH _ _ H) as [H1|H1]; [left; right; exact H1|right; exact H1].
Qed.

Lemma in_removelast {A} (x : A) : forall l, In x (removelast l) -> In x l.
Proof.
  induction l as [|y l IH]; cbn [removelast]; [intros []|]. destruct l as [|z l]; [intros []|].
  intros [H|H]; [left; exact H|right; apply IH, H].
Qed.

Lemma in_swap_remove_at {A} (x : A) : forall i l, In x (swap_remove_at i l) -> In x l.
Proof.
  induction i as [|i IH]; intros [|y l] H; cbn [swap_remove_at] in H; try destruct H.
  - destruct (rev l) as [|lst r] eqn:E; [destruct H|]. destruct H as [H|H].
    + subst. right. apply in_rev. rewrite E. left. reflexivity.
    + right. apply in_removelast, H.
  - left. exact H.
  - right. apply IH, H.
Qed.

Lemma in_sc_upsert vals d ttl e : In e (sc_upsert vals d ttl) -> In e vals \/ e = (d, ttl).
Proof.
  unfold sc_upsert. destruct (find_index _ vals) as [i|]; intro H; apply in_app_or in H; destruct H as [H|[H|[]]]; auto.
  left. eapply in_swap_remove_at, H.
Qed.

Lemma sc_insert_content c x r : sc_content (sc_insert c x) r -> sc_content c r \/ rr_sim r x.
Proof.
  unfold sc_insert. destruct (0 <? rr_ttl x); [|auto].
  intros (k & vals & e & Hin & He & ->).
  destruct (alookup sc_key_eqb (rr_name x, rr_type x) c) as [old|] eqn:El.
  - apply sc_areplace_in in Hin. destruct Hin as [Hin|[-> ->]].
    + left. exists k, vals, e. auto.
    + apply in_sc_upsert in He. destruct He as [He| ->].
      * left. exists (rr_name x, rr_type x), old, e. split; [apply sc_alookup_in, El|auto].
      * right. repeat split.
  - apply in_app_or in Hin. destruct Hin as [Hin|[Hin|[]]].
    + left. exists k, vals, e. auto.
    + inversion Hin; subst. destruct He as [<-|[]]. right. repeat split.
Qed.

Theorem sc_insert_all_content : forall rrs c r,
  sc_content (sc_insert_all c rrs) r -> sc_content c r \/ exists r', In r' rrs /\ rr_sim r r'.
Proof.
  unfold sc_insert_all. induction rrs as [|x rrs IH]; intros c r H; cbn [fold_left] in H; [left; exact H|].
  destruct (IH _ _ H) as [H1|[r' [H1 H2]]].
  - destruct (sc_insert_content _ _ _ H1) as [H2|H2]; [left; exact H2|]. right. exists x. split; [left; reflexivity|exact H2].
  - right. exists r'. split; [right; exact H1|exact H2].
Qed.

Theorem sc_get_content c n t r : In r (sc_get c n t) -> exists r', sc_content c r' /\ rr_sim r r'.
Proof.
  unfold sc_get. intro H. apply filter_In in H. destruct H as [H _].
  exists r. split; [|apply rr_sim_refl].
  destruct (t =? QT_Wildcard).
  - apply in_flat_map in H. destruct H as [[k vals] [Hin Hr]]. cbn [fst snd] in Hr.
    destruct (dname_eqb (fst k) n); [|destruct Hr].
    unfold sc_to_rrs in Hr. apply in_map_iff in Hr. destruct Hr as [e [<- He]]. exists k, vals, e. auto.
  - destruct (existsb _ qtype_table); [destruct H|].
    destruct (alookup sc_key_eqb (n, t) c) as [vals|] eqn:El; [|destruct H].
    unfold sc_to_rrs in H. apply in_map_iff in H. destruct H as [e [<- He]].
    exists (n, t), vals, e. split; [apply sc_alookup_in, El|auto].
Qed.

(* a read returns only records of the asked name and type (what C10's theorems assume of the cache) *)
Theorem sc_get_ok c : cget_ok (sc_get c).
Proof.
  intros name qt Hq. unfold sc_get. apply N.eqb_neq in Hq. rewrite Hq.
  apply Forall_forall. intros r H. apply filter_In in H. destruct H as [H _].
  destruct (existsb _ qtype_table); [destruct H|].
  destruct (alookup sc_key_eqb (name, qt) c) as [vals|]; [|destruct H].
  unfold sc_to_rrs in H. apply in_map_iff in H. destruct H as [e [<- _]]. cbn. auto.
Qed.

(* the empty cache holds nothing *)
Lemma sc_empty_content r : ~ sc_content sc_empty r.
Proof. intros (k & vals & e & [] & _). Qed.

(* the table oracle of Universe.v sends octets when its table holds octets (what C08's worked
   oracles need of [oracle_bytes_ok]) *)
From RV Require Import Resolver.Universe.

Lemma patch_id_bytes req msg bump : Forall (fun x => x < 256) msg -> Forall (fun x => x < 256) (patch_id req msg bump).
Proof.
  intro H. unfold patch_id. destruct req as [|r0 [|r1 rt]]; try exact H.
  destruct msg as [|m0 [|m1 mt]]; try exact H.
  constructor; [apply u16_hi_lt|]. constructor; [apply u16_lo_lt|].
  apply Forall_inv_tail in H. apply Forall_inv_tail in H. exact H.
Qed.

Lemma table_lookup_bytes t a q bs :
  Forall (fun e => Forall (fun b => b < 256) (snd e)) t -> table_lookup t a q = Some bs -> Forall (fun b => b < 256) bs.
Proof.
  induction t as [|[[a' q'] bs'] t IH]; cbn [table_lookup]; [discriminate|]. intros Ht.
  destruct (_ && _).
  - intro E. inversion E; subst. apply Forall_inv in Ht. exact Ht.
  - apply IH. apply Forall_inv_tail in Ht. exact Ht.
Qed.

(* without faults: the reply is the table's message with the request's id patched in (TCP: behind
   its length prefix) *)
Theorem table_oracle_bytes_ok t :
  Forall (fun e => Forall (fun b => b < 256) (snd e)) t -> oracle_bytes_ok (table_oracle t []).
Proof.
  intros Ht n p a req bs. unfold table_oracle. cbn [plan_lookup].
  set (base := match req with [] => None | _ :: _ => _ end).
  assert (Hb : forall b, base = Some b -> Forall (fun x => x < 256) b).
  { subst base. destruct req as [|r0 rt]; [discriminate|]. destruct (request_question _) as [q|]; [|discriminate].
    intros b0 E. eapply table_lookup_bytes; eassumption. }
  clearbody base.
  assert (Hm : forall m, option_map (header_fault FNone req) base = Some m -> Forall (fun x => x < 256) m).
  { destruct base as [b|]; cbn [option_map]; [|discriminate]. intros m E. inversion E; subst.
    cbn [header_fault]. apply patch_id_bytes, Hb. reflexivity. }
  unfold reply_of. destruct p.
  - destruct (option_map (header_fault FNone req) base) as [m|]; cbn [option_map mk_reply t_bytes frame]; [|discriminate].
    intro E. inversion E; subst. apply Hm. reflexivity.
  - destruct req as [|r0 rt]; [cbn [t_bytes]; discriminate|].
    destruct (option_map (header_fault FNone (r0 :: rt)) base) as [m|]; cbn [option_map mk_reply t_bytes frame]; [|discriminate].
    intro E. inversion E; subst. constructor; [apply u16_hi_lt|]. constructor; [apply u16_lo_lt|]. apply Hm; reflexivity.
Qed.
