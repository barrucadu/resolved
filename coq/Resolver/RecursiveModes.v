(* Resolver/RecursiveModes.v -- C07 for ALL FOUR protocol modes (only-v4, prefer-v4, prefer-v6,
   only-v6): the warm-cache chain theorem for every [mode] (for only-v4 the cache hypothesis is that of
   RecursiveWarm.v: consistentm_v4).

   What changes with the mode is resolve_hostname_to_ip: it tries the record types of
   [rtypes_of_mode mode] in order, and the first type for which the fast (local) pass finds an
   address -- in the root hints or in the cache -- wins.  So:
     - the root hints may hold AAAA records ([hint_okm]);
     - a nameserver host is READY when SOME type of the mode has a hint or a cached RRset for it;
     - a delegation is glue-complete FOR THE MODE when every nameserver host of the cut has glue of a
       family the mode can use ([mode_usable]);
     - EVERY address record (A or AAAA) the universe or the hints hold for a host of a zone must lead
       to a server of that zone (whichever family is found first is used), and a host owns no alias.

   The development is also parametric in two things the later files instantiate:
     [G]      a predicate on host names: hosts that need NOT be ready because the slow pass can
              resolve them (RecursiveGlueless.v); here, for the theorems of this file, G = nobody;
     [multi]  false: the address of a host of a zone leads to a server whose closest zone for the
              question name is THAT zone (as in RecursiveWarm.v); true: to a server whose closest
              zone is that zone or one BELOW it in the chain -- servers authoritative for several
              zones of one chain (RecursiveMultiZone.v): hops are skipped, the log gets shorter.

   The fast pass of resolve_hostname_to_ip over the record types of a mode is in RecursiveDepth1.v.
   The induction down the chain takes what happens at one zone as a hypothesis ([reaches]); here the
   first candidate popped resolves in the fast pass (reach_fast), in RecursiveGlueless.v the slow pass
   may run nested resolutions -- for which the model's fuel monotonicity is proved here first. *)
From Coq Require Import Permutation.
From RV Require Import Base.Prelude Name.NameModel Name.NameSpec Wire.WireTypes
     Wire.WireEncodeProofs Zone.ZoneModel Zone.ZoneFlat Resolver.LocalModel Resolver.ValidateModel
     Resolver.ValidateProofs Resolver.TransportModel Resolver.RecursiveModel
     Resolver.ForwardingModel Resolver.RecursiveProofs Resolver.Universe Resolver.ResolverFacts
     Resolver.RecursiveCorrect Resolver.RecursiveDepth1 Resolver.RecursiveChain
     Resolver.RecursiveWarm Resolver.ResolverCacheInstance Resolver.UniverseCheck.

(* a root hint: an NS record of the root, or an A or AAAA record of a host *)
Definition hint_okm (r : rr) : Prop :=
  wf_name (rr_name r) /\
  ((rr_type r = RT_NS /\ labels (rr_name r) = [[]] /\ exists h, rr_data r = RD_Name h)
   \/ (rr_type r = RT_A /\ exists a, rr_data r = RD_A a)
   \/ (rr_type r = RT_AAAA /\ exists a, rr_data r = RD_AAAA a)).

Lemma hint_ok_okm r : hint_ok r -> hint_okm r.
Proof. intros [Hwf [H|H]]; split; auto. Qed.

Lemma hint_okm_shape r : hint_okm r -> hint_shape r.
Proof.
  intros [Hwf [(Ht & Hl & h & Hd)|[(Ht & a & Hd)|(Ht & a & Hd)]]];
    (split; [split; [exact Hwf|cbn [hint_op op_data op_type]; rewrite Ht, Hd; reflexivity]|]);
    rewrite Ht; split; (discriminate || auto).
Qed.

Lemma hint_okms_shape hints : Forall hint_okm hints -> Forall hint_shape hints.
Proof. apply Forall_impl, hint_okm_shape. Qed.

(* the record types resolve_hostname_to_ip asks for in the mode, in order *)
Definition mode_usable (mode : protocol_mode) (t : N) : Prop := In t (rtypes_of_mode mode).

Definition addr_type (t : N) : Prop := t = RT_A \/ t = RT_AAAA.

Lemma mode_usable_addr mode t : mode_usable mode t -> addr_type t.
Proof. unfold mode_usable, addr_type. destruct mode; cbn; intuition. Qed.

(* [a] is the address the record [r] holds: an A record its v4 address, an AAAA record its v6 address *)
Definition addr_of (r : rr) (a : ip) : Prop :=
  (rr_type r = RT_A /\ exists x, rr_data r = RD_A x /\ a = inl x)
  \/ (rr_type r = RT_AAAA /\ exists s, rr_data r = RD_AAAA s /\ a = inr s).

(* one logged exchange: a UDP query about [q] to port [port] of the v4 or v6 address [a] *)
Definition query_toi (port : N) (q : question) (a : ip) (e : exchange) : Prop :=
  x_kind e = KUdp /\ x_addr e = (a, port) /\ x_question e = q /\ x_rd e = false.

(* one exchange per zone of [chain], each with a server whose closest zone for the name is that zone *)
Definition chain_logm (u : universe) (port : N) (q : question) (chain : list uzone) (es : list exchange) : Prop :=
  Forall2 (fun z e => exists a, query_toi port q a e /\ serves_owner u a z q) chain es.

Lemma chain_log_logm u port q chain es : chain_log u port q chain es -> chain_logm u port q chain es.
Proof.
  intro H. induction H as [|z e l l' (a & (H1 & H2 & H3 & H4) & Hs) _ IH]; constructor; [|exact IH].
  exists (inl a). unfold query_toi. auto.
Qed.

(* [l1] is [l2] with some elements left out *)
Inductive subseq {A : Type} : list A -> list A -> Prop :=
| ss_nil : subseq [] []
| ss_take x l1 l2 : subseq l1 l2 -> subseq (x :: l1) (x :: l2)
| ss_skip x l1 l2 : subseq l1 l2 -> subseq l1 (x :: l2).

Lemma subseq_refl {A} (l : list A) : subseq l l.
Proof. induction l; constructor; assumption. Qed.

Lemma subseq_length {A} (l1 l2 : list A) : subseq l1 l2 -> (length l1 <= length l2)%nat.
Proof. intro H. induction H; cbn [length]; lia. Qed.

Lemma subseq_app_skip {A} (pre l1 l2 : list A) : subseq l1 l2 -> subseq l1 (pre ++ l2).
Proof. intro H. induction pre; cbn [app]; [exact H|constructor; assumption]. Qed.

Section ModeDefs.
  Variable u : universe.
  Variable hints : list rr.
  Variable mode : protocol_mode.
  (* servers may be authoritative for several zones of one chain *)
  Variable multi : bool.
  (* hosts that need not be ready: the slow pass resolves them (nobody, in this file's theorems) *)
  Variable G : dname -> Prop.

  Section Cache.
    Variable cache : Type.
    Variable cache_get : cache -> dname -> N -> list rr.

    (* the fast pass finds an address for the host: for some record type of the mode, in the hints
       or in the cache *)
    Definition readym (c : cache) (h : dname) : Prop :=
      wf_name h /\ exists t, mode_usable mode t /\ ((exists x, hint_match hints h t x) \/ cache_get c h t <> []).

    (* cache_consistent of RecursiveWarm.v with the closed clause for the mode (and G) *)
    Definition consistentm (c : cache) : Prop :=
      (forall n t x, concrete t -> In x (cache_get c n t) ->
         exists r, u_record u r /\ rr_name r = n /\ rr_type r = t /\ rr_data r = rr_data x)
      /\ (forall n x h, In x (cache_get c n RT_NS) -> is_ns_rr x = Some h -> readym c h \/ G h)
      /\ (forall n t, concrete t -> t <> RT_NS -> cache_get c n t <> [] -> ~ ns_host_name u n ->
            forall z r, In z (u_zones u) -> In r (zone_data z) -> rr_name r = n -> rr_type r = t ->
              exists x, In x (cache_get c n t) /\ rr_data x = rr_data r).

    Lemma emptym_consistent c : (forall n t, cache_get c n t = []) -> consistentm c.
    Proof. exact (empty_consistent_with cache cache_get u (fun c h => readym c h \/ G h) c). Qed.
  End Cache.

  Section Question.
    Variable q : question.

    (* where the address of a host of [z] may lead: to a server whose closest zone for the question
       name is [z] -- or, with [multi], [z] or a zone of the chain below it *)
    Definition lands (a : ip) (z : uzone) (below : list uzone) : Prop :=
      if multi then exists z', In z' (z :: below) /\ serves_owner u a z' q
      else serves_owner u a z q.

    (* the host [h] of [z]: a well-formed name; EVERY address record (A or AAAA) the universe or the
       hints hold for it holds an address of its type that leads to a server of [z]; no alias at it *)
    Definition host_okm (z : uzone) (below : list uzone) (h : dname) : Prop :=
      wf_name h
      /\ (forall r, u_record u r -> rr_name r = h -> addr_type (rr_type r) -> exists a, addr_of r a /\ lands a z below)
      /\ (forall g, In g hints -> labels (rr_name g) = labels h -> addr_type (rr_type g) -> exists a, addr_of g a /\ lands a z below)
      /\ (forall r, u_record u r -> rr_name r = h -> rr_type r <> RT_CNAME).

    Definition hosts_okm (z : uzone) (below : list uzone) : Prop :=
      forall h, ns_host_any u (uz_apex z) h -> host_okm z below h.

    (* wlink of RecursiveWarm.v for the mode: every nameserver host of the cut has glue of a family
       the mode can use (or is in G) *)
    Definition wlinkm (zp zc : uzone) (below : list uzone) : Prop :=
      In zp (u_zones u)
      /\ cut_owner zp (q_name q) = Some (uz_apex zc)
      /\ llen (labels (uz_apex zp)) < llen (labels (uz_apex zc))
      /\ (forall r, In r (uz_glue zp ++ uz_rrs zp) -> rr_name r <> q_name q)
      /\ (forall h, ns_host_of zp (uz_apex zc) h ->
            (exists g, In g (uz_glue zp ++ uz_rrs zp) /\ rr_name g = h /\ mode_usable mode (rr_type g) /\ 0 < rr_ttl g)
            \/ G h)
      /\ hosts_okm zc below.

    Fixpoint wchainm (zk z : uzone) (rest : list uzone) : Prop :=
      match rest with
      | [] => z = zk
      | zc :: rest' => wlinkm z zc rest' /\ wchainm zk zc rest'
      end.

    (* the root hints: NS records of the root, A and AAAA records; at least one NS record; every
       nameserver they name is a nameserver the universe lists for the root and has a hint of a
       family the mode can use; the hints do not answer the question themselves *)
    Definition hints_form : Prop :=
      Forall hint_okm hints
      /\ (exists r, In r hints /\ rr_type r = RT_NS)
      /\ (forall r h, In r hints -> rr_type r = RT_NS -> rr_data r = RD_Name h ->
            ns_host_any u root_domain h
            /\ exists g, In g hints /\ labels (rr_name g) = labels h /\ mode_usable mode (rr_type g))
      /\ (forall r, In r hints -> labels (rr_name r) = labels (q_name q) -> rtype_matches (rr_type r) (q_type q) = false).

    (* walk_question of RecursiveWarm.v for the mode (without "the name is not a nameserver host") *)
    Record walkm (zroot : uzone) (rest : list uzone) (zk : uzone) : Prop := {
      wm_wf : wf_name (q_name q);
      wm_type : concrete (q_type q) /\ q_type q <> RT_NS /\ q_type q <> RT_CNAME;
      wm_root : uz_apex zroot = root_domain;
      wm_hints : hints_form;
      wm_roothosts : hosts_okm zroot rest;
      wm_chain : wchainm zk zroot rest;
      wm_nocname : forall r, u_record u r -> rr_type r = RT_CNAME -> In (labels (rr_name r)) (suffixes (labels (q_name q))) ->
        labels (rr_name r) = labels (q_name q);
      wm_onchain : forall r, u_record u r -> rr_type r = RT_NS -> In (labels (rr_name r)) (suffixes (labels (q_name q))) ->
        labels (rr_name r) = [[]] \/ exists zi, In zi rest /\ rr_name r = uz_apex zi }.

    (* a plain question of the universe *)
    Definition warm_questionm (zroot : uzone) (rest : list uzone) (zk : uzone) : Prop :=
      walkm zroot rest zk /\ plain_at u q zk /\ ~ ns_host_name u (q_name q).

    (* a nameserver host of a zone of the chain *)
    Definition chain_host (zroot : uzone) (rest : list uzone) (h : dname) : Prop :=
      exists zi, In zi (zroot :: rest) /\ ns_host_any u (uz_apex zi) h.

    (* a zone of the chain: the chain from there on, and what is asked of its nameserver hosts *)
    Lemma wchainm_at : forall pre zk z rest z' post,
      wchainm zk z rest -> hosts_okm z rest -> z :: rest = pre ++ z' :: post -> wchainm zk z' post /\ hosts_okm z' post.
    Proof.
      induction pre as [|x pre IH]; intros zk z rest z' post Hch Hh E; cbn [app] in E.
      - inversion E; subst. auto.
      - inversion E; subst x. destruct rest as [|zc rest']; [destruct pre; discriminate|].
        cbn [wchainm] in Hch. destruct Hch as (Hl & Hrest). exact (IH zk zc rest' z' post Hrest (proj2 (proj2 (proj2 (proj2 (proj2 Hl))))) H1).
    Qed.

    Lemma wchainm_last : forall rest zk z, wchainm zk z rest -> exists pre, z :: rest = pre ++ [zk].
    Proof.
      induction rest as [|zc rest IH]; intros zk z Hch; cbn [wchainm] in Hch.
      - subst. exists []. reflexivity.
      - destruct Hch as (_ & Hrest). destruct (IH zk zc Hrest) as [pre E]. exists (z :: pre). cbn [app]. rewrite E. reflexivity.
    Qed.

    (* the depths along the chain increase *)
    Lemma wchainm_depth : forall rest zk z z', wchainm zk z rest -> In z' (z :: rest) ->
      llen (labels (uz_apex z)) <= llen (labels (uz_apex z')).
    Proof.
      induction rest as [|zc rest IH]; intros zk z z' Hch Hin.
      - destruct Hin as [<-|[]]. lia.
      - cbn [wchainm] in Hch. destruct Hch as ((_ & _ & Hd & _) & Hrest). destruct Hin as [<-|Hin]; [lia|].
        pose proof (IH zk zc z' Hrest Hin). lia.
    Qed.

    Lemma lands_split a z below : lands a z below ->
      exists pre z' post, z :: below = pre ++ z' :: post /\ serves_owner u a z' q /\ (multi = false -> pre = []).
    Proof.
      unfold lands. destruct multi.
      - intros (z' & Hin & Hs). apply in_split in Hin as (pre & post & E). exists pre, z', post. split; [exact E|].
        split; [exact Hs|discriminate].
      - intro Hs. exists [], z, below. auto.
    Qed.
  End Question.
End ModeDefs.

(* for only-v4 and G = nobody, [consistentm] is cache_consistent of RecursiveWarm.v *)
Lemma consistentm_v4 u hints cache cache_get c :
  consistentm u hints OnlyV4 (fun _ => False) cache cache_get c <-> cache_consistent u hints cache cache_get c.
Proof.
  unfold consistentm, cache_consistent, readym, host_ready, mode_usable. cbn [rtypes_of_mode In].
  split; intros (S1 & S2 & S3); (split; [exact S1|split; [|exact S3]]); intros n x h Hx Hh.
  - destruct (S2 n x h Hx Hh) as [(Hwf & t & [<-|[]] & H)|[]]. split; assumption.
  - destruct (S2 n x h Hx Hh) as (Hwf & H). left. split; [exact Hwf|]. exists RT_A. auto.
Qed.


Section KeepM.
  Variable cache : Type.
  Variable cache_get : cache -> dname -> N -> list rr.
  Variable cache_insert_all : cache -> list rr -> cache.
  Hypothesis LAWS : cache_laws cache cache_get cache_insert_all.
  Variable u : universe.
  Variable hints : list rr.
  Variable mode : protocol_mode.
  Variable multi : bool.
  Variable G : dname -> Prop.
  Variable q : question.

  Notation consistent := (consistentm u hints mode G cache cache_get).
  Notation ready := (readym hints mode cache cache_get).

  Lemma readym_mono c rrs h : ready c h -> ready (cache_insert_all c rrs) h.
  Proof.
    intros (Hwf & t & Ht & [Hh|Hc]); split; try exact Hwf; exists t; (split; [exact Ht|]); [left; exact Hh|right].
    destruct (cache_get c h t) as [|x l] eqn:E; [congruence|].
    destruct (L_mono _ _ _ LAWS c rrs h t x (ip_type_concrete t (mode_usable_addr mode t Ht))) as (x' & Hx' & _); [rewrite E; left; reflexivity|].
    intro E'. rewrite E' in Hx'. destruct Hx'.
  Qed.

  (* [consistentm] is [consistent_with] for "ready for the mode, or in G" *)
  Lemma readyg_mono c rrs h : ready c h \/ G h -> ready (cache_insert_all c rrs) h \/ G h.
  Proof. intros [H|H]; [left; apply readym_mono; exact H|right; exact H]. Qed.

  (* the records of a referral: the NS set of the cut and the glue (both families) of its hosts;
     afterwards every host of the cut is a host of the child that is ready or in G *)
  Lemma consistentm_insert_referral c z zc below names :
    universe_ns_ok u -> consistent c -> wlinkm u hints mode multi G q z zc below ->
    (forall h, In h names <-> ns_host_of z (uz_apex zc) h) ->
    consistent (cache_insert_all c (referral_ins z zc names))
    /\ forall h, In h names ->
         ns_host_any u (uz_apex zc) h /\ (ready (cache_insert_all c (referral_ins z zc names)) h \/ G h).
  Proof.
    intros UNS HC (Hz & _ & _ & _ & Hglue & Hhosts) Hnames.
    apply (consistent_with_insert_referral cache cache_get cache_insert_all LAWS u (fun c h => ready c h \/ G h) readyg_mono
             c z zc names UNS HC Hz Hnames).
    intros h Hhost Hany. destruct (Hglue h Hhost) as [(g & Hg & Hgn & Hgt & Hgttl)|Hg]; [left|right; exact Hg].
    split; [exact (proj1 (Hhosts h Hany))|]. exists (rr_type g). split; [exact Hgt|]. right.
    apply (glue_cached cache cache_get cache_insert_all LAWS c z zc names g h); try assumption;
      [exact (mode_usable_addr _ _ Hgt)|exact (proj2 (Hnames h) Hhost)].
  Qed.
End KeepM.

Lemma rtypes_addr mode : Forall addr_type (rtypes_of_mode mode).
Proof. destruct mode; cbn [rtypes_of_mode]; repeat (apply Forall_cons; [unfold addr_type; auto|]); apply Forall_nil. Qed.

Section FuelMono.
  Variable cache : Type.
  Variable cache_get : cache -> dname -> N -> list rr.
  Variable cache_insert_all : cache -> list rr -> cache.
  Variable sort_names : list dname -> list dname.
  Variable zs : zones.
  Variable o : oracle.
  Variable pmode : protocol_mode.
  Variable port : N.

  (* [m'] finishes wherever [m] does, with the same value and state *)
  Definition le_rm {A} (m m' : RM cache A) : Prop := forall st v st', m st = (Val v, st') -> m' st = (Val v, st').

  Lemma le_rm_refl {A} (m : RM cache A) : le_rm m m.
  Proof. intros st v st' H. exact H. Qed.

  Lemma rbind_mono {A B} (m m' : RM cache A) (f f' : A -> RM cache B) :
    le_rm m m' -> (forall a, le_rm (f a) (f' a)) -> le_rm (rbind cache m f) (rbind cache m' f').
  Proof.
    intros Hm Hf st v st' H. unfold rbind in *. destruct (m st) as [[a|w] st1] eqn:E.
    - rewrite (Hm st a st1 E). exact (Hf a st1 v st' H).
    - discriminate H.
  Qed.

  Section Knot.
    Variables rec rec' : list question -> question -> RM cache rres.
    Hypothesis Hrec : forall stack q, le_rm (rec stack q) (rec' stack q).

    Lemma rcr_mono stack rrs q :
      le_rm (resolve_combined_recursive cache rec stack rrs q) (resolve_combined_recursive cache rec' stack rrs q).
    Proof. unfold resolve_combined_recursive. apply rbind_mono; [apply Hrec|intro a; apply le_rm_refl]. Qed.

    Lemma rwnr_mono stack combined nr q :
      le_rm (resolve_with_nameserver_response cache cache_insert_all zs rec stack combined nr q)
            (resolve_with_nameserver_response cache cache_insert_all zs rec' stack combined nr q).
    Proof.
      unfold resolve_with_nameserver_response. apply rbind_mono; [apply le_rm_refl|]. clear nr. intro nr.
      unfold resolve_with_response_match. destruct nr; try apply le_rm_refl.
      apply rbind_mono; [apply le_rm_refl|]. intros _. apply rbind_mono; [apply rcr_mono|intro; apply le_rm_refl].
    Qed.

    Lemma hloop_mono stack locally h : forall types,
      le_rm (hostname_loop cache cache_get zs rec stack locally h types) (hostname_loop cache cache_get zs rec' stack locally h types).
    Proof.
      induction types as [|t types IH]; cbn [hostname_loop]; [apply le_rm_refl|].
      apply rbind_mono; [|intros [a|]; [apply le_rm_refl|exact IH]]. unfold hostname_try. destruct locally; [apply le_rm_refl|].
      apply rbind_mono; [apply Hrec|intro; apply le_rm_refl].
    Qed.

    Lemma cstep_mono (loop loop' : N -> list dname -> list dname -> bool -> RM cache rres) stack q combined mc cands next locally :
      (forall mc cands next locally, le_rm (loop mc cands next locally) (loop' mc cands next locally)) ->
      le_rm (candidate_step cache cache_get cache_insert_all sort_names zs o pmode port rec loop stack q combined mc cands next locally)
            (candidate_step cache cache_get cache_insert_all sort_names zs o pmode port rec' loop' stack q combined mc cands next locally).
    Proof.
      intro Hloop. unfold candidate_step. destruct (pop_last cands) as [[cand rest]|]; [|apply le_rm_refl].
      apply rbind_mono; [apply hloop_mono|]. intros [a|].
      - apply rbind_mono; [apply le_rm_refl|]. intros [nr|]; [|apply le_rm_refl].
        apply rbind_mono; [apply rwnr_mono|]. intros [r|d]; [apply le_rm_refl|apply Hloop].
      - destruct locally; [destruct (is_nil rest); apply Hloop|apply Hloop].
    Qed.

    Lemma body_mono (loop loop' : list question -> question -> list rr -> N -> list dname -> list dname -> bool -> RM cache rres) stack q :
      (forall stack q combined mc cands next locally,
         le_rm (loop stack q combined mc cands next locally) (loop' stack q combined mc cands next locally)) ->
      le_rm (recursive_body cache cache_get sort_names zs rec loop stack q)
            (recursive_body cache cache_get sort_names zs rec' loop' stack q).
    Proof.
      intro Hloop. unfold recursive_body.
      destruct (at_recursion_limit stack); [apply le_rm_refl|].
      destruct (is_duplicate_question stack q); [apply le_rm_refl|].
      apply rbind_mono; [apply le_rm_refl|]. intros [[r|rrs|rrs soa d|rrs cq]|].
      - apply le_rm_refl.
      - apply rbind_mono; [apply le_rm_refl|]. intros [d|]; [apply Hloop|apply le_rm_refl].
      - apply rbind_mono; [apply le_rm_refl|]. intros [d'|]; [apply Hloop|apply le_rm_refl].
      - apply rcr_mono.
      - apply rbind_mono; [apply le_rm_refl|]. intros [d|]; [apply Hloop|apply le_rm_refl].
    Qed.
  End Knot.

  Notation rrn := (resolve_recursive_notimeout cache cache_get cache_insert_all sort_names zs o pmode port).
  Notation cloop := (candidate_loop cache cache_get cache_insert_all sort_names zs o pmode port).

  (* more fuel never changes a computation that finished *)
  Lemma fuel_mono : forall f f', (f <= f')%nat ->
    (forall stack q, le_rm (rrn f stack q) (rrn f' stack q))
    /\ (forall stack q combined mc cands next locally,
          le_rm (cloop f stack q combined mc cands next locally) (cloop f' stack q combined mc cands next locally)).
  Proof.
    induction f as [|f IH]; intros f' Hle; [split; intros; intros st v st' H; discriminate H|].
    destruct f' as [|f']; [lia|]. destruct (IH f' ltac:(lia)) as [IH1 IH2]. split.
    - intros stack q. rewrite !rrn_S. apply body_mono; assumption.
    - intros stack q combined mc cands next locally. rewrite !cloop_S. apply cstep_mono; [exact IH1|]. intros. apply IH2.
  Qed.

  Theorem rrn_fuel_mono f f' stack q st v st' : (f <= f')%nat ->
    rrn f stack q st = (Val v, st') -> rrn f' stack q st = (Val v, st').
  Proof. intro Hle. exact (proj1 (fuel_mono f f' Hle) stack q st v st'). Qed.

  Theorem cloop_fuel_mono f f' stack q combined mc cands next locally st v st' : (f <= f')%nat ->
    cloop f stack q combined mc cands next locally st = (Val v, st') ->
    cloop f' stack q combined mc cands next locally st = (Val v, st').
  Proof. intro Hle. exact (proj2 (fuel_mono f f' Hle) stack q combined mc cands next locally st v st'). Qed.
End FuelMono.



(* the log of a walk: the exchanges about the question, in order one per zone of [used] ([own]),
   interleaved with exchanges of nested resolutions ([Hx]) *)
Inductive seglog (Hx : exchange -> Prop) (own : uzone -> exchange -> Prop) : list uzone -> list exchange -> Prop :=
| sl_nil : seglog Hx own [] []
| sl_host e es used : Hx e -> seglog Hx own used es -> seglog Hx own used (e :: es)
| sl_own z e es used : own z e -> seglog Hx own used es -> seglog Hx own (z :: used) (e :: es).

Lemma seglog_app_host Hx own used es1 es2 : Forall Hx es1 -> seglog Hx own used es2 -> seglog Hx own used (es1 ++ es2).
Proof. intros H1 H2. induction H1 as [|e es1 He _ IH]; cbn [app]; [exact H2|]. apply sl_host; assumption. Qed.

Section WarmM.
  Variable cache : Type.
  Variable cache_get : cache -> dname -> N -> list rr.
  Variable cache_insert_all : cache -> list rr -> cache.
  Hypothesis LAWS : cache_laws cache cache_get cache_insert_all.

  Variable sort_names : list dname -> list dname.
  Hypothesis Hsort : forall l, Permutation (sort_names l) l.

  Variable zs : zones.
  Variable hints : list rr.
  Hypothesis Hz : hints_zones zs hints.
  Hypothesis Hh : Forall hint_okm hints.

  Variable o : oracle.
  Variable port : N.
  Variable u : universe.
  Hypothesis UNS : universe_ns_ok u.
  Variable mode : protocol_mode.
  Variable multi : bool.
  Variable G : dname -> Prop.

  Variable q : question.
  Variable zroot : uzone.
  Variable rest0 : list uzone.
  Variable zk : uzone.
  Hypothesis WK : walkm u hints mode multi G q zroot rest0 zk.
  Hypothesis Hdel : delivers_log o u port q.

  (* the questions under way when [q] is asked: none for NS; none about a nameserver host of a zone
     of the chain (nor is [q]) *)
  Variable stk : list question.
  Hypothesis Hstk_len : (length stk + 1 < 32)%nat.
  Hypothesis Hstk_q : is_duplicate_question stk q = false.
  Hypothesis Hstk : Forall (fun s => q_type s <> RT_NS) stk.
  Notation istk := (stk ++ [q]).
  Hypothesis Hfresh : forall s h, In s istk -> chain_host u zroot rest0 h -> q_name s <> h.

  Notation rrn := (resolve_recursive_notimeout cache cache_get cache_insert_all sort_names zs o mode port).
  Notation cloop := (candidate_loop cache cache_get cache_insert_all sort_names zs o mode port).
  Notation cstep := (candidate_step cache cache_get cache_insert_all sort_names zs o mode port).
  Notation rhi := (resolve_hostname_to_ip cache cache_get zs mode).
  Notation consistent := (consistentm u hints mode G cache cache_get).
  Notation ready := (readym hints mode cache cache_get).
  Notation A := (auth_answer u q).
  Notation landsq := (lands u multi q).
  Notation chost := (chain_host u zroot rest0).

  Lemma Hq_nohintm : forall x, ~ hint_match hints (q_name q) (q_type q) x.
  Proof.
    destruct (wm_hints _ _ _ _ _ _ _ _ _ WK) as (_ & _ & _ & Hno). intros x (r & Hr & Hl & Hm & _).
    rewrite (Hno r Hr Hl) in Hm. discriminate.
  Qed.
  Let Hq_wf : wf_name (q_name q) := wm_wf _ _ _ _ _ _ _ _ _ WK.
  Lemma Hq_anym : q_type q <> QT_Wildcard.
  Proof. exact (proj1 (proj1 (wm_type _ _ _ _ _ _ _ _ _ WK))). Qed.

  Lemma ns_not_dupm name : is_duplicate_question istk (mkq name RT_NS RC_IN) = false.
  Proof.
    apply not_dup_istk. intros s Hs _ Ht. cbn [mkq q_type] in Ht.
    apply in_app_or in Hs as [Hs|[<-|[]]].
    - apply (proj1 (Forall_forall _ _) Hstk s Hs). congruence.
    - destruct (wm_type _ _ _ _ _ _ _ _ _ WK) as (_ & Hns & _). congruence.
  Qed.

  (* the candidate [h] resolves in the fast pass, in the cache [c], to an address that leads to a
     server of [z] (or, with [multi], of a zone of [below]) *)
  Definition cand_okm (z : uzone) (below : list uzone) (c : cache) (h : dname) : Prop :=
    forall rec ts, exists a, rhi rec istk true h (c, ts) = (Val (Some a), (c, ts)) /\ landsq a z below.

  Lemma no_cached_cname c h : consistent c -> (forall r, u_record u r -> rr_name r = h -> rr_type r <> RT_CNAME) ->
    cache_get c h RT_CNAME = [].
  Proof. intros HC Hnc. exact (nothing_cached cache cache_get u (fun c h => ready c h \/ G h) c h RT_CNAME HC concrete_CNAME Hnc). Qed.

  (* what the cache holds for a host of a zone are address records that lead to its servers *)
  Lemma cached_addr_ok z below c h t x :
    consistent c -> host_okm u hints multi q z below h -> addr_type t -> In x (cache_get c h t) ->
    addr_rrm h t x /\ forall a, addr_of x a -> landsq a z below.
  Proof.
    intros (S1 & _) (_ & Hu & _) Ht Hx.
    destruct (L_shape _ _ _ LAWS c h t x (ip_type_concrete t Ht) Hx) as (H1 & H2 & H3).
    destruct (S1 h t x (ip_type_concrete t Ht) Hx) as (r & Hr & Hrn & Hrt & Hrd).
    destruct (Hu r Hr Hrn ltac:(rewrite Hrt; exact Ht)) as (a & Ha & Hl).
    assert (Hxa : addr_of x a) by (apply (rr_ip_same r x a); [congruence|congruence|exact Ha]).
    split.
    - unfold addr_rrm. repeat (split; [assumption|]). exists a. exact Hxa.
    - intros a' Ha'. rewrite (rr_ip_fun x a' a Ha' Hxa). exact Hl.
  Qed.

  Lemma host_cand_okm z below c h :
    consistent c -> host_okm u hints multi q z below h -> chost h -> ready c h -> cand_okm z below c h.
  Proof.
    intros HC Hok Hch (_ & t0 & Ht0 & Hr) rec ts. pose proof Hok as (Hwf & Hu & Hhi & Hnc).
    unfold resolve_hostname_to_ip.
    apply (hloop_fast cache cache_get zs hints Hz (hint_okms_shape _ Hh) rec istk h (c, ts) (fun a => landsq a z below) (Hlim_in q stk Hstk_len) Hwf).
    - intros t _. apply not_dup_istk. intros s Hs Hn _. exact (Hfresh s h Hs Hch (eq_sym Hn)).
    - cbn [fst]. exact (no_cached_cname c h HC Hnc).
    - intros t x Ht Hx. cbn [fst] in Hx. exact (cached_addr_ok z below c h t x HC Hok Ht Hx).
    - intros g a Hg Hl Hgt Ha. destruct (Hhi g Hg Hl Hgt) as (a' & Ha' & Hl'). rewrite (rr_ip_fun g a a' Ha Ha'). exact Hl'.
    - apply rtypes_addr.
    - exists t0. split; [exact Ht0|exact Hr].
  Qed.

  (* a server whose closest zone [z'] has the delegation to [zc] on the way: the referral is followed,
     its NS set and glue are cached, the hosts of [zc] are the new candidates -- in whatever state of
     the loop the popped candidate's address was found (the witnesses do not depend on it) *)
  Lemma hop_referral z' zc below mc a c2 ts2 :
    wlinkm u hints mode multi G q z' zc below -> consistent c2 -> serves_owner u a z' q ->
    mc < llen (labels (uz_apex zc)) -> ts_elapsed ts2 <= BUDGET_MS ->
    exists names ts3 e,
      ts_elapsed ts3 <= BUDGET_MS /\ ts_rlog ts3 = e :: ts_rlog ts2 /\ query_toi port q a e
      /\ consistent (cache_insert_all c2 (referral_ins z' zc names)) /\ sort_names names <> []
      /\ (forall h, In h (sort_names names) ->
            ns_host_any u (uz_apex zc) h /\ (ready (cache_insert_all c2 (referral_ins z' zc names)) h \/ G h))
      /\ forall rec loop cands next locally st cand rest1, pop_last cands = Some (cand, rest1) ->
           rhi rec istk locally cand st = (Val (Some a), (c2, ts2)) ->
           cstep rec loop istk q [] mc cands next locally st
           = loop (llen (labels (uz_apex zc))) (sort_names names) [] true (cache_insert_all c2 (referral_ins z' zc names), ts3).
  Proof.
    intros Hlink HC Hsrv Hmc Hbud.
    pose proof Hlink as (Hzin & Hcut & Hdeep & Hnoglue & Hglue & Hhosts).
    destruct (referral_hop cache cache_get cache_insert_all sort_names zs o mode port one_udp u a z' (uz_apex zc) q mc (c2, ts2)
                Hdel Hsrv Hcut (cuts_ns u UNS z' Hzin) Hmc Hnoglue Hbud)
      as (names & ts3 & Hnames & Hnn & Hbud3 & (e & Hlog & Hk & Ha & Hqe & Hrd) & Huni).
    cbn [fst snd] in Huni, Hlog. fold (referral_ins z' zc names) in Huni.
    destruct (consistentm_insert_referral cache cache_get cache_insert_all LAWS u hints mode multi G q c2 z' zc below names
                UNS HC Hlink Hnames) as (HC3 & Hready).
    exists names, ts3, e. split; [exact Hbud3|]. split; [exact Hlog|]. split; [unfold query_toi; auto|]. split; [exact HC3|]. split; [|split].
    - exact (perm_ne _ _ (Hsort names) Hnn).
    - intros h Hin. apply (Permutation_in _ (Hsort _)) in Hin. exact (Hready h Hin).
    - intros rec loop cands next locally st cand rest1 Ep Eh. exact (Huni rec loop istk cands next locally st cand rest1 Ep Eh).
  Qed.

  (* a server whose closest zone is the zone [zk] that owns the name: exactly the authoritative
     answer; its RRset is cached *)
  Lemma hop_last rec loop mc cands next locally st cand rest1 a c2 ts2 :
    answering_zone u zk q -> (~ ns_host_name u (q_name q) -> plain_at u q zk) ->
    consistent c2 -> pop_last cands = Some (cand, rest1) ->
    rhi rec istk locally cand st = (Val (Some a), (c2, ts2)) -> serves_owner u a zk q ->
    mc <= llen (labels (uz_apex zk)) -> ts_elapsed ts2 <= BUDGET_MS ->
    exists ts' e,
      cstep rec loop istk q [] mc cands next locally st
      = (Val (ROk (NonAuthoritative (aa_rrs A) (aa_soa A))), (cache_insert_all c2 (aa_rrs A), ts'))
      /\ ts_elapsed ts' <= BUDGET_MS /\ ts_rlog ts' = e :: ts_rlog ts2 /\ query_toi port q a e
      /\ consistent (cache_insert_all c2 (aa_rrs A)).
  Proof.
    intros AZ HS3 HC Ep Eh Hs Hmc Hbud.
    destruct (wm_type _ _ _ _ _ _ _ _ _ WK) as (Hqc & Hqns & Hqcn).
    pose proof AZ as (Ho & Hknown & Hsoat & Hsoan).
    pose proof (consistent_with_insert_answer cache cache_get cache_insert_all LAWS u (fun c h => ready c h \/ G h)
                  (readyg_mono cache cache_get cache_insert_all LAWS hints mode G) q zk Hqc Hqns AZ c2 HS3 HC) as HC'.
    destruct (last_hop cache cache_get cache_insert_all sort_names zs o mode port one_udp u zk q
                rec loop istk mc cands next locally st cand rest1 a (c2, ts2)
                Hdel Ho Hs Hqcn Hq_anym Hknown Hsoat Hsoan Hmc Ep Eh Hbud)
      as (ts' & E & Hbud' & (e & Hlog & Hk & Ha & Hqe & Hrd)).
    exists ts', e. split; [exact E|]. split; [exact Hbud'|]. split; [exact Hlog|]. split; [unfold query_toi; auto|exact HC'].
  Qed.

  (* the root nameservers of the hints are nameservers of the universe's root, ready from the hints *)
  Lemma root_hosts_ready c rrs h :
    (forall x, In x rrs <-> hint_match hints root_domain RT_NS x) -> In h (ns_hostnames_of rrs) ->
    ns_host_any u (uz_apex zroot) h /\ ready c h.
  Proof.
    pose proof (wm_hints _ _ _ _ _ _ _ _ _ WK) as (_ & _ & Hroot & _).
    intros Hin Hcand. apply ns_hostnames_of_in in Hcand. destruct Hcand as (x & Hx & Hxh).
    apply Hin in Hx. destruct Hx as (r & Hr & _ & _ & Ex). subst x.
    apply is_ns_rr_spec in Hxh. destruct Hxh as [Hm Hd]. cbn [rr_type rr_data] in Hm, Hd.
    destruct (Hroot r h Hr Hm Hd) as (Hany & g & Hg & Hgl & Hgt).
    rewrite (wm_root _ _ _ _ _ _ _ _ _ WK). split; [exact Hany|].
    split.
    - rewrite <- (wm_root _ _ _ _ _ _ _ _ _ WK) in Hany. exact (proj1 (wm_roothosts _ _ _ _ _ _ _ _ _ WK h Hany)).
    - exists (rr_type g). split; [exact Hgt|]. left.
      exists {| rr_name := h; rr_type := rr_type g; rr_class := RC_IN; rr_ttl := rr_ttl g; rr_data := rr_data g |}.
      exists g. split; [exact Hg|]. split; [exact Hgl|]. split; [|reflexivity].
      apply concrete_matches_refl, ip_type_concrete, (mode_usable_addr mode), Hgt.
  Qed.

  (* candidate_nameservers from a consistent cache that holds no alias for the name itself: the root
     nameservers of the hints, or the cached NS set of a zone of the chain; the hosts are nameserver
     hosts of that zone, each ready or in G *)
  Lemma cand_nsm c ts : consistent c -> cache_get c (q_name q) RT_CNAME = [] ->
    exists d, candidate_nameservers cache cache_get zs istk (q_name q) (c, ts) = (Val (Some d), (c, ts))
      /\ ns_hostnames d <> []
      /\ exists zi pre' post, zroot :: rest0 = pre' ++ zi :: post /\ ns_name d = uz_apex zi
           /\ (pre' = [] \/ cache_get c (uz_apex zi) RT_NS <> [])
           /\ forall h, In h (ns_hostnames d) -> ns_host_any u (uz_apex zi) h /\ (ready c h \/ G h).
  Proof.
    intros HC Hown. pose proof (wm_hints _ _ _ _ _ _ _ _ _ WK) as (_ & (rns & Hrns & Hrnst) & _).
    assert (Hx0 : exists x0, hint_match hints root_domain RT_NS x0).
    { destruct (hint_shape_ns rns (hint_okm_shape _ (proj1 (Forall_forall _ _) Hh rns Hrns)) Hrnst) as (Hl & _).
      eexists. exists rns. split; [exact Hrns|]. split; [exact Hl|]. split; [rewrite Hrnst; reflexivity|reflexivity]. }
    destruct (cand_ns_cached cache cache_get cache_insert_all LAWS zs hints Hz (hint_okms_shape _ Hh) u UNS
                (fun c h => ready c h \/ G h) istk q c ts (Hlim_in q stk Hstk_len) ns_not_dupm Hx0 Hq_wf (wm_nocname _ _ _ _ _ _ _ _ _ WK) HC Hown)
      as (d & E & Hne & [(Hdn & rrs & Eh & Hin)|(Hnr & Hns & (r & Hr & Hrn & Hrt & Hsuf) & Hhosts)]);
      exists d; (split; [exact E|split; [exact Hne|]]).
    - exists zroot, [], rest0. split; [reflexivity|]. split; [rewrite Hdn; symmetry; exact (wm_root _ _ _ _ _ _ _ _ _ WK)|].
      split; [left; reflexivity|]. rewrite Eh. intros h Hh'. destruct (root_hosts_ready c rrs h Hin Hh') as [H1 H2]. auto.
    - destruct (wm_onchain _ _ _ _ _ _ _ _ _ WK r Hr Hrt Hsuf) as [Hroot|(zi & Hzi & Hapex)]; [rewrite Hrn in Hroot; contradiction|].
      destruct (in_split zi rest0 Hzi) as (p1 & p2 & Esp).
      exists zi, (zroot :: p1), p2. rewrite <- Hapex, Hrn. split; [cbn [app]; rewrite Esp; reflexivity|]. auto.
  Qed.
  (* one exchange about [q] with a server whose closest zone for the name is [z] *)
  Definition own_exchange (z : uzone) (e : exchange) : Prop := exists a, query_toi port q a e /\ serves_owner u a z q.

  (* AT ONE ZONE.  From the fresh state of the loop the loop comes, without changing the state, to an
     iteration in which the popped candidate's address is found -- with a state (c2, ts2) that differs
     from (c, ts) by nested resolutions only, whose exchanges satisfy [Hx].  With [fast] nothing is
     nested: the first candidate popped resolves in the fast pass, in the state as it is. *)
  Definition reaches (Hx : exchange -> Prop) (fast : Prop) (z : uzone) (below : list uzone) (c : cache) (mc : N)
             (cands : list dname) (ts : tstate) : Prop :=
    exists k cands1 next1 locally1 cand rest1 f0 a c2 ts2 es,
      pop_last cands1 = Some (cand, rest1)
      /\ (forall f, cloop (k + f) istk q [] mc cands [] true (c, ts) = cloop f istk q [] mc cands1 next1 locally1 (c, ts))
      /\ rhi (rrn f0) istk locally1 cand (c, ts) = (Val (Some a), (c2, ts2))
      /\ landsq a z below /\ consistent c2 /\ ts_elapsed ts2 <= BUDGET_MS /\ ts_rlog ts2 = rev es ++ ts_rlog ts /\ Forall Hx es
      /\ (fast -> k = 0%nat /\ f0 = 0%nat /\ es = []).

  Section Plain.
    Hypothesis AZ : answering_zone u zk q.
    Hypothesis HS3 : ~ ns_host_name u (q_name q) -> plain_at u q zk.
    Hypothesis Hnocn : forall r, u_record u r -> rr_type r = RT_CNAME -> rr_name r <> q_name q.
    Variable Hx : exchange -> Prop.
    Variable fast : Prop.
    Hypothesis REACH : forall z below c mc cands ts,
      In z (zroot :: rest0) -> hosts_okm u hints multi q z below -> consistent c -> ts_elapsed ts <= BUDGET_MS ->
      cands <> [] -> (forall h, In h cands -> ns_host_any u (uz_apex z) h /\ (ready c h \/ G h)) ->
      reaches Hx fast z below c mc cands ts.

    (* THE INDUCTION down the chain.  The loop stands at the zone [z] with candidates that are hosts of
       [z], each ready or in G, in a consistent cache.  Then for some fuel it returns exactly the
       authoritative answer and leaves a consistent cache; the exchanges about [q] are one per zone of
       [used], a subsequence of [z :: rest] that ends with [zk] (all of it without [multi]).  With [fast]
       the fuel is the number of those zones and there are no other exchanges. *)
    Lemma descend : forall n rest z c mc cands ts, (length rest < n)%nat ->
      wchainm u hints mode multi G q zk z rest -> incl (z :: rest) (zroot :: rest0) -> hosts_okm u hints multi q z rest ->
      consistent c -> cands <> [] -> (forall h, In h cands -> ns_host_any u (uz_apex z) h /\ (ready c h \/ G h)) ->
      mc <= llen (labels (uz_apex z)) -> ts_elapsed ts <= BUDGET_MS ->
      exists f c' ts' es used,
        cloop f istk q [] mc cands [] true (c, ts) = (Val (ROk (NonAuthoritative (aa_rrs A) (aa_soa A))), (c', ts'))
        /\ ts_rlog ts' = rev es ++ ts_rlog ts /\ ts_elapsed ts' <= BUDGET_MS
        /\ subseq used (z :: rest) /\ (exists used0, used = used0 ++ [zk]) /\ (multi = false -> used = z :: rest)
        /\ seglog Hx own_exchange used es /\ consistent c'
        /\ (fast -> f = length used /\ chain_logm u port q used es).
    Proof.
      induction n as [|n IH]; intros rest z c mc cands ts Hn Hch Hincl Hhosts HC Hne Hcands Hmc Hbud; [lia|].
      destruct (REACH z rest c mc cands ts (Hincl z (or_introl eq_refl)) Hhosts HC Hbud Hne Hcands)
        as (k & cands1 & next1 & locally1 & cand & rest1 & f0 & a & c2 & ts2 & esn & Ep & Ek & Eh & Hland & HC2 & Hbud2 & Hlog2 & Hhostn & Hfast).
      destruct (lands_split u multi q a z rest Hland) as (pre & z' & post & E & Hs & Hpre).
      destruct (wchainm_at u hints mode multi G q pre zk z rest z' post Hch Hhosts E) as (Hch' & _).
      assert (Hz'in : In z' (z :: rest)) by (rewrite E; apply in_or_app; right; left; reflexivity).
      pose proof (wchainm_depth u hints mode multi G q rest zk z z' Hch Hz'in) as Hdep.
      assert (Hlen : length (z :: rest) = (length pre + S (length post))%nat) by (rewrite E, app_length; reflexivity).
      cbn [length] in Hlen.
      destruct post as [|zc post].
      - (* the server's closest zone is the last zone: the answer *)
        cbn [wchainm] in Hch'. subst z'.
        destruct (hop_last (rrn f0) (cloop f0 istk q []) mc cands1 next1 locally1 (c, ts) cand rest1 a c2 ts2 AZ HS3 HC2 Ep Eh Hs ltac:(lia) Hbud2)
          as (ts' & e & E' & Hbud' & Hlog & Hq' & HC').
        exists (k + S f0)%nat, (cache_insert_all c2 (aa_rrs A)), ts', (esn ++ [e]), [zk].
        split; [rewrite Ek, cloop_S; exact E'|].
        split; [rewrite Hlog, Hlog2, rev_app_distr; reflexivity|]. split; [exact Hbud'|].
        split; [rewrite E; apply subseq_app_skip, subseq_refl|].
        split; [exists []; reflexivity|]. split; [intro Hm; rewrite E, (Hpre Hm); reflexivity|].
        split; [apply seglog_app_host; [exact Hhostn|]; apply sl_own; [exists a; auto|constructor]|]. split; [exact HC'|].
        intro Hf. destruct (Hfast Hf) as (-> & -> & ->). split; [reflexivity|]. constructor; [exists a; auto|constructor].
      - (* a delegation on the way: the referral, then the rest of the chain *)
        cbn [wchainm] in Hch'. destruct Hch' as (Hlink & Hrest). cbn [length] in Hlen, Hn.
        pose proof Hlink as (_ & _ & Hdeep & _ & _ & Hhosts').
        destruct (hop_referral z' zc post mc a c2 ts2 Hlink HC2 Hs ltac:(lia) Hbud2)
          as (names & ts3 & e & Hbud3 & Hlog3 & Hq3 & HC3 & Hnn & Hnames & Huni).
        assert (Hincl' : incl (zc :: post) (zroot :: rest0)).
        { intros x Hx0. apply Hincl. rewrite E. apply in_or_app. right. right. exact Hx0. }
        destruct (IH post zc (cache_insert_all c2 (referral_ins z' zc names)) (llen (labels (uz_apex zc))) (sort_names names) ts3
                    ltac:(lia) Hrest Hincl' Hhosts' HC3 Hnn Hnames ltac:(lia) Hbud3)
          as (f' & c' & ts' & es & used & E' & Hlog' & Hbud' & Hsub & (used0 & Hused0) & Hall & Hes & HC' & Hfast').
        exists (k + S (Nat.max f0 f'))%nat, c', ts', (esn ++ e :: es), (z' :: used).
        split.
        { rewrite Ek, cloop_S.
          rewrite (Huni (rrn (Nat.max f0 f')) (cloop (Nat.max f0 f') istk q []) cands1 next1 locally1 (c, ts) cand rest1 Ep
                     (hloop_mono cache cache_get zs (rrn f0) (rrn (Nat.max f0 f')) (proj1 (fuel_mono cache cache_get cache_insert_all sort_names zs o mode port f0 _ (PeanoNat.Nat.le_max_l _ _))) istk locally1 cand _ _ _ _ Eh)).
          exact (cloop_fuel_mono cache cache_get cache_insert_all sort_names zs o mode port f' (Nat.max f0 f') istk q [] _ _ _ _ _ _ _
                   (PeanoNat.Nat.le_max_r _ _) E'). }
        split; [rewrite Hlog', Hlog3, Hlog2, rev_app_distr; cbn [rev]; rewrite <- !app_assoc; reflexivity|].
        split; [exact Hbud'|]. split; [rewrite E; apply subseq_app_skip; constructor; exact Hsub|].
        split; [exists (z' :: used0); rewrite Hused0; reflexivity|].
        split; [intro Hm; rewrite E, (Hpre Hm), (Hall Hm); reflexivity|].
        split; [apply seglog_app_host; [exact Hhostn|]; apply sl_own; [exists a; auto|exact Hes]|]. split; [exact HC'|].
        intro Hf. destruct (Hfast Hf) as (-> & -> & ->). destruct (Hfast' Hf) as (-> & Hl). cbn [Nat.add Nat.max length app].
        split; [reflexivity|]. constructor; [exists a; auto|exact Hl].
    Qed.

    (* the whole resolution when the cache holds no RRset for the question: over the network, from
       the deepest zone of the chain whose NS set is cached (the root hints if none) *)
    Theorem resolve_net c ts :
      consistent c -> ts_elapsed ts <= BUDGET_MS -> cache_get c (q_name q) (q_type q) = [] ->
      exists f c' ts' es used,
        rrn (S f) stk q (c, ts) = (Val (ROk (NonAuthoritative (aa_rrs A) (aa_soa A))), (c', ts'))
        /\ ts_rlog ts' = rev es ++ ts_rlog ts /\ ts_elapsed ts' <= BUDGET_MS
        /\ subseq used (zroot :: rest0) /\ (exists used0, used = used0 ++ [zk])
        /\ (multi = false -> exists pre, zroot :: rest0 = pre ++ used
               /\ (pre = [] \/ exists zi used', used = zi :: used' /\ cache_get c (uz_apex zi) RT_NS <> []))
        /\ seglog Hx own_exchange used es /\ consistent c'
        /\ (fast -> f = length used /\ chain_logm u port q used es).
    Proof.
      intros HC Hbud Eget.
      assert (Hcn : cache_get c (q_name q) RT_CNAME = []).
      { apply no_cached_cname; [exact HC|]. intros r Hr Hn Ht. exact (Hnocn r Hr Ht Hn). }
      destruct (cand_nsm c ts HC Hcn) as (d & Hd & Hdne & zi & pre & post & Esplit & Hdn & Hstart & Hhosts).
      pose proof (perm_ne _ _ (Hsort _) Hdne) as Hs.
      destruct (wchainm_at u hints mode multi G q pre zk zroot rest0 zi post (wm_chain _ _ _ _ _ _ _ _ _ WK) (wm_roothosts _ _ _ _ _ _ _ _ _ WK) Esplit)
        as (Hpost & Hzi_hosts).
      assert (Hincl : incl (zi :: post) (zroot :: rest0)) by (intros x Hx0; rewrite Esplit; apply in_or_app; right; exact Hx0).
      destruct (descend (S (length post)) post zi c (ns_match_count d) (sort_names (ns_hostnames d)) ts (le_n _) Hpost Hincl Hzi_hosts HC Hs)
        as (f & c' & ts' & es & used & E & Hlog & Hbud' & Hsub & Hused0 & Hall & Hes & HC' & Hfast).
      { intros h Hc0. apply (Permutation_in _ (Hsort _)) in Hc0. exact (Hhosts h Hc0). }
      { unfold ns_match_count. rewrite Hdn. lia. }
      { exact Hbud. }
      exists f, c', ts', es, used. split.
      { rewrite (rrn_uncached cache cache_get zs hints Hz cache_insert_all sort_names o mode port f stk q c ts
                   (Hlim_out stk Hstk_len) Hstk_q Hq_wf Hq_anym Hq_nohintm d Eget Hcn Hd). exact E. }
      split; [exact Hlog|]. split; [exact Hbud'|]. split; [rewrite Esplit; apply subseq_app_skip; exact Hsub|]. split; [exact Hused0|].
      split; [|auto]. intro Hm. exists pre. rewrite (Hall Hm). split; [exact Esplit|].
      destruct Hstart as [Hp|Hns]; [left; exact Hp|right; exists zi, post; auto].
    Qed.
  End Plain.

  (* the plain question (not about a nameserver host): from the cache or over the network *)
  Section PlainTop.
    Hypothesis PA : plain_at u q zk.
    Hypothesis Hnothost : ~ ns_host_name u (q_name q).
    Hypothesis HG : forall h, ~ G h.

    (* nobody is in G: every candidate is ready, the first one popped resolves in the fast pass *)
    Lemma reach_fast z below c mc cands ts :
      In z (zroot :: rest0) -> hosts_okm u hints multi q z below -> consistent c -> ts_elapsed ts <= BUDGET_MS ->
      cands <> [] -> (forall h, In h cands -> ns_host_any u (uz_apex z) h /\ (ready c h \/ G h)) ->
      reaches (fun _ => False) True z below c mc cands ts.
    Proof.
      intros Hzin Hhosts HC Hbud Hne Hcands. destruct (pop_last_some _ Hne) as (cand & rest1 & Ep & Hc).
      destruct (Hcands cand Hc) as (Hany & [Hr|Hg]); [|destruct (HG cand Hg)].
      destruct (host_cand_okm z below c cand HC (Hhosts cand Hany) (ex_intro _ z (conj Hzin Hany)) Hr (rrn 0) ts) as (a & Eh & Hl).
      exists 0%nat, cands, [], true, cand, rest1, 0%nat, a, c, ts, []. auto 12.
    Qed.

    Lemma cached_same_datam c : consistent c -> cache_get c (q_name q) (q_type q) <> [] ->
      same_data (cache_get c (q_name q) (q_type q)) (aa_rrs A) /\ aa_soa A = None.
    Proof.
      destruct (wm_type _ _ _ _ _ _ _ _ _ WK) as (Hqc & Hqns & _).
      exact (cached_same_data cache cache_get cache_insert_all LAWS u (fun c h => ready c h \/ G h) q zk Hqc Hqns (pa_owner _ _ _ PA) c UNS PA Hnothost).
    Qed.

    Theorem warm_resolvem c f ts :
      consistent c -> ts_elapsed ts <= BUDGET_MS -> (length rest0 < f)%nat ->
      exists rrs c' ts' es,
        rrn (S f) stk q (c, ts) = (Val (ROk (NonAuthoritative rrs (aa_soa A))), (c', ts'))
        /\ ts_rlog ts' = rev es ++ ts_rlog ts /\ ts_elapsed ts' <= BUDGET_MS
        /\ consistent c'
        /\ ((es = [] /\ c' = c /\ rrs = cache_get c (q_name q) (q_type q) /\ rrs <> [] /\ same_data rrs (aa_rrs A))
            \/ (rrs = aa_rrs A /\ cache_get c (q_name q) (q_type q) = []
                /\ exists used, subseq used (zroot :: rest0) /\ (exists used0, used = used0 ++ [zk])
                     /\ (multi = false -> exists pre, zroot :: rest0 = pre ++ used
                            /\ (pre = [] \/ exists zi used', used = zi :: used' /\ cache_get c (uz_apex zi) RT_NS <> []))
                     /\ chain_logm u port q used es)).
    Proof.
      intros HC Hbud Hf.
      destruct (cache_get c (q_name q) (q_type q)) as [|y0 l0] eqn:Eget.
      - destruct (resolve_net (pa_owner _ _ _ PA) (fun _ => PA) (pa_nocname _ _ _ PA) (fun _ => False) True reach_fast c ts HC Hbud Eget)
          as (f1 & c' & ts' & es & used & E & Hlog & Hbud' & Hsub & Hused0 & Hall & _ & HC' & Hfast).
        destruct (Hfast I) as (-> & Hes). pose proof (subseq_length _ _ Hsub) as Hle. cbn [length] in Hle.
        assert (Hfl : (S (length used) <= S f)%nat) by lia.
        exists (aa_rrs A), c', ts', es. split; [exact (rrn_fuel_mono _ _ _ _ _ _ _ _ _ _ _ _ _ _ _ Hfl E)|].
        split; [exact Hlog|]. split; [exact Hbud'|]. split; [exact HC'|].
        right. split; [reflexivity|]. split; [reflexivity|]. exists used. auto.
      - assert (Hne : cache_get c (q_name q) (q_type q) <> []) by (rewrite Eget; discriminate).
        rewrite <- Eget.
        rewrite (rrn_cached cache cache_get zs hints Hz cache_insert_all sort_names o mode port f stk q c ts
                   (Hlim_out stk Hstk_len) Hstk_q Hq_wf Hq_anym Hq_nohintm Hne).
        destruct (cached_same_datam c HC Hne) as (Hsame & Hsoa).
        exists (cache_get c (q_name q) (q_type q)), c, ts, []. rewrite Hsoa.
        split; [reflexivity|]. split; [reflexivity|]. split; [exact Hbud|]. split; [exact HC|]. left. auto.
    Qed.
  End PlainTop.
End WarmM.

Lemma chain_host_name u zroot rest h : chain_host u zroot rest h -> ns_host_name u h.
Proof. intros (zi & _ & r & Hr & _ & Hh). exists r. auto. Qed.

Section FinalM.
  Variable cache : Type.
  Variable cache_get : cache -> dname -> N -> list rr.
  Variable cache_insert_all : cache -> list rr -> cache.
  Hypothesis LAWS : cache_laws cache cache_get cache_insert_all.
  Variable sort_names : list dname -> list dname.
  Hypothesis Hsort : forall l, Permutation (sort_names l) l.
  Variable port : N.
  Variable u : universe.
  Hypothesis UNS : universe_ns_ok u.
  Variable hints : list rr.
  Variable hz : zone.
  Hypothesis Hbuilt : zone_build root_domain None (hint_ops hints) = Ok hz.
  Variable mode : protocol_mode.

  Notation nobody := (fun _ : dname => False).
  Notation consistent := (consistentm u hints mode nobody cache cache_get).

  (* what a resolution of [q] from the cache [c] must look like; [multi]: servers may hold several
     zones of the chain, the zones [used] are then a subsequence of the chain, else a suffix of it
     that begins at the root or at a zone whose NS set is cached *)
  Definition outcomem (multi : bool) (q : question) (zroot : uzone) (rest : list uzone) (zk : uzone) (c : cache)
             (r : res rerror resolved * rstate cache) : Prop :=
    exists rrs c' ts',
      r = (Ok (NonAuthoritative rrs (aa_soa (auth_answer u q))), (c', ts'))
      /\ consistent c'
      /\ ((ts_log ts' = [] /\ c' = c /\ rrs = cache_get c (q_name q) (q_type q) /\ rrs <> []
           /\ same_data rrs (aa_rrs (auth_answer u q)))
          \/ (rrs = aa_rrs (auth_answer u q) /\ cache_get c (q_name q) (q_type q) = []
              /\ exists used, subseq used (zroot :: rest) /\ (exists used0, used = used0 ++ [zk])
                   /\ (multi = false -> exists pre, zroot :: rest = pre ++ used
                          /\ (pre = [] \/ exists zi used', used = zi :: used' /\ cache_get c (uz_apex zi) RT_NS <> []))
                   /\ chain_logm u port q used (ts_log ts'))).

  Theorem modes_correct multi q zroot rest zk c fuel :
    warm_questionm u hints mode multi nobody q zroot rest zk -> plain_question u q ->
    consistent c -> (length rest + 2 <= fuel)%nat ->
    outcomem multi q zroot rest zk c
      (resolve cache cache_get cache_insert_all sort_names (ModeRecursive mode) port (zones_insert [] hz)
               (universe_oracle u []) fuel q (c, tstate_init)).
  Proof.
    intros (WK & PA & Hnot) Hq HC Hfuel.
    pose proof (wm_hints _ _ _ _ _ _ _ _ _ WK) as (Hok & _).
    destruct Hq as (Hwf & Hq1 & Hq2 & Hreq & Hfits).
    destruct fuel as [|f]; [lia|].
    destruct (warm_resolvem cache cache_get cache_insert_all LAWS sort_names Hsort (zones_insert [] hz) hints
                (shaped_zones_built hints hz (hint_okms_shape _ Hok) Hbuilt) Hok (universe_oracle u []) port u UNS mode multi nobody q zroot rest zk WK
                (universe_oracle_delivers_log u port q Hwf Hreq Hfits) [] ltac:(cbn; lia) eq_refl (Forall_nil _))
      with (c := c) (f := f) (ts := tstate_init) as (rrs & c' & ts' & es & E & Hlog & _ & HC' & Hcases); try assumption.
    { intros s h [<-|[]] Hch Hn. apply Hnot. rewrite Hn. exact (chain_host_name _ _ _ _ Hch). }
    { intros h []. }
    { cbn. lia. }
    { lia. }
    destruct (resolve_of_rrn _ _ _ _ _ _ _ _ _ _ _ _ _ _ es E Hlog) as [Er Hl].
    exists rrs, c', ts'. split; [exact Er|]. split; [exact HC'|].
    rewrite Hl. destruct Hcases as [(H1 & H2)|(H1 & H2 & H3)]; [left; auto|right; auto].
  Qed.

  (* from the empty cache the walk starts at the root hints: with [multi] = false the log is one
     exchange per zone of the whole chain (C07_correct_chain for the mode) *)
  Corollary modes_chain_abstract q zroot rest zk c fuel :
    (forall n t, cache_get c n t = []) ->
    warm_questionm u hints mode false nobody q zroot rest zk -> plain_question u q ->
    (length rest + 2 <= fuel)%nat ->
    exists c' ts',
      resolve cache cache_get cache_insert_all sort_names (ModeRecursive mode) port (zones_insert [] hz)
              (universe_oracle u []) fuel q (c, tstate_init)
      = (Ok (NonAuthoritative (aa_rrs (auth_answer u q)) (aa_soa (auth_answer u q))), (c', ts'))
      /\ chain_logm u port q (zroot :: rest) (ts_log ts') /\ consistent c'.
  Proof.
    intros Hempty Hw Hq Hfuel.
    destruct (modes_correct false q zroot rest zk c fuel Hw Hq (emptym_consistent _ _ _ _ _ _ c Hempty) Hfuel)
      as (rrs & c' & ts' & E & HC' & [(_ & _ & -> & Hne & _)|(-> & _ & used & _ & _ & Hpre & Hes)]).
    - rewrite Hempty in Hne. congruence.
    - destruct (Hpre eq_refl) as (pre & Epre & [-> |(zi & used' & _ & Hns)]).
      + exists c', ts'. split; [exact E|]. split; [|exact HC']. cbn [app] in Epre. rewrite Epre. exact Hes.
      + rewrite Hempty in Hns. congruence.
  Qed.
End FinalM.

(* the hypotheses of this file as boolean functions (Resolver/UniverseCheck.v, RecursiveWarm.v) *)

Definition hint_okmb (r : rr) : bool :=
  hint_okb r || (wf_name_b (rr_name r) && (rr_type r =? RT_AAAA) && match rr_data r with RD_AAAA _ => true | _ => false end).

Lemma hint_okmb_sound r : hint_okmb r = true -> hint_okm r.
Proof.
  unfold hint_okmb. rewrite orb_true_iff, !andb_true_iff, N.eqb_eq. intros [H|((H1 & H2) & H3)]; [apply hint_ok_okm, hint_okb_sound, H|].
  split; [apply wf_name_b_sound, H1|]. right. right. split; [exact H2|].
  destruct (rr_data r) as [| | | | | |s|]; try discriminate. exists s. reflexivity.
Qed.

(* the address the record holds, when its data are of the family of its type *)
Definition rr_addr (r : rr) : option ip :=
  match rr_data r with
  | RD_A x => if rr_type r =? RT_A then Some (inl x) else None
  | RD_AAAA s => if rr_type r =? RT_AAAA then Some (inr s) else None
  | _ => None
  end.

Lemma rr_addr_of r a : rr_addr r = Some a -> addr_of r a.
Proof.
  unfold rr_addr, addr_of. destruct (rr_data r) as [x| | | | | |s|]; try discriminate;
    [destruct (N.eqb_spec (rr_type r) RT_A) as [E|]|destruct (N.eqb_spec (rr_type r) RT_AAAA) as [E|]]; try discriminate;
    intro H; inversion H; [left|right]; eauto.
Qed.

Section ModeChecks.
  Variable u : universe.
  Variable hints : list rr.
  Variable mode : protocol_mode.
  Variable multi : bool.
  Variable G : dname -> Prop.
  Variable Gb : dname -> bool.
  Hypothesis HG : forall h, Gb h = true -> G h.
  Variable q : question.

  Definition landsb (a : ip) (z : uzone) (below : list uzone) : bool :=
    if multi then existsb (fun z' => servesb u a z' (q_name q)) (z :: below) else servesb u a z (q_name q).

  Lemma landsb_sound a z below : landsb a z below = true -> lands u multi q a z below.
  Proof.
    unfold landsb, lands. destruct multi; [|apply servesb_sound]. rewrite existsb_exists.
    intros (z' & Hz' & H). exists z'. split; [exact Hz'|apply servesb_sound, H].
  Qed.

  (* the address records of [l] that [same] selects hold addresses that lead to [z] *)
  Definition leadb (z : uzone) (below : list uzone) (same : rr -> bool) (l : list rr) : bool :=
    forallb (fun g => implb (same g && is_addr_rr g)
                            match rr_addr g with Some a => landsb a z below | None => false end) l.

  Lemma leadb_sound z below same l : leadb z below same l = true ->
    forall g, In g l -> same g = true -> addr_type (rr_type g) -> exists a, addr_of g a /\ lands u multi q a z below.
  Proof.
    unfold leadb. rewrite forallb_forall. intros H g Hg Hs Ht. specialize (H g Hg).
    assert (Ha : is_addr_rr g = true) by (unfold is_addr_rr; destruct Ht as [-> | ->]; reflexivity).
    rewrite Hs, Ha in H. cbn in H. destruct (rr_addr g) as [a|] eqn:E; [|discriminate].
    exists a. split; [apply rr_addr_of, E|apply landsb_sound, H].
  Qed.

  Definition host_okmb (z : uzone) (below : list uzone) (h : dname) : bool :=
    wf_name_b h && leadb z below (owned_by_name h) (u_all u) && leadb z below (same_labels h) hints && no_cname_atb u h.

  Definition hosts_okmb (z : uzone) (below : list uzone) : bool :=
    ns_hosts_allb (u_all u) (uz_apex z) (host_okmb z below).

  Lemma hosts_okmb_sound z below : hosts_okmb z below = true -> hosts_okm u hints multi q z below.
  Proof.
    intros H h (r & Hr & Hh). apply u_record_all in Hr.
    pose proof (ns_hosts_allb_sound _ _ _ H h (ex_intro _ r (conj Hr Hh))) as K. unfold host_okmb in K.
    rewrite !andb_true_iff in K. destruct K as (((K1 & K2) & K3) & K4).
    split; [apply wf_name_b_sound, K1|]. split; [|split].
    - intros g Hg Hn. apply u_record_all in Hg. exact (leadb_sound _ _ _ _ K2 g Hg (owned_by_name_eq _ _ Hn)).
    - intros g Hg Hl. exact (leadb_sound _ _ _ _ K3 g Hg (same_labels_eq _ _ Hl)).
    - exact (no_cname_atb_sound u h K4).
  Qed.

  Definition wlinkmb (zp zc : uzone) (below : list uzone) : bool :=
    zone_inb zp (u_zones u)
    && is_name (cut_owner zp (q_name q)) (uz_apex zc)
    && (llen (labels (uz_apex zp)) <? llen (labels (uz_apex zc)))
    && owns_nothingb zp (q_name q)
    && ns_hosts_allb (uz_cuts zp) (uz_apex zc) (fun h => has_glueb zp (rtypes_of_mode mode) h || Gb h)
    && hosts_okmb zc below.

  Lemma wlinkmb_sound zp zc below : wlinkmb zp zc below = true -> wlinkm u hints mode multi G q zp zc below.
  Proof.
    unfold wlinkmb. rewrite !andb_true_iff, N.ltb_lt. intros (((((H1 & H2) & H3) & H4) & H5) & H6).
    split; [apply zone_inb_in, H1|]. split; [apply is_name_eq, H2|]. split; [exact H3|].
    split; [apply owns_nothingb_sound, H4|]. split; [|apply hosts_okmb_sound, H6].
    intros h Hh. pose proof (ns_hosts_allb_sound _ _ _ H5 h Hh) as K. apply orb_true_iff in K as [K|K]; [left|right; apply HG, K].
    destruct (has_glueb_sound _ _ _ K) as (g & Hg & Hn & Ht & Hpos). exists g. auto.
  Qed.

  Fixpoint wchainmb (zk z : uzone) (rest : list uzone) : bool :=
    match rest with
    | [] => uzone_eqb z zk
    | zc :: rest' => wlinkmb z zc rest' && wchainmb zk zc rest'
    end.

  Lemma wchainmb_sound zk : forall rest z, wchainmb zk z rest = true -> wchainm u hints mode multi G q zk z rest.
  Proof.
    induction rest as [|zc rest IH]; intros z H; cbn [wchainmb wchainm] in *; [apply uzone_eqb_eq, H|].
    apply andb_true_iff in H as [H1 H2]. split; [apply wlinkmb_sound, H1|apply IH, H2].
  Qed.

  Definition hints_formb : bool :=
    forallb hint_okmb hints
    && forallb (fun r => match is_ns_rr r with
                         | Some h => existsb (fun x => owned_by_name root_domain x && is_name (is_ns_rr x) h) (u_all u)
                                     && has_hintb hints (rtypes_of_mode mode) h
                         | None => true
                         end) hints
    && hints_silentb hints q.

  Lemma hints_formb_sound : hints_formb = true -> hints_form u hints mode q.
  Proof.
    unfold hints_formb. rewrite !andb_true_iff, !forallb_forall. intros ((H1 & H2) & H3).
    destruct (hints_silentb_sound _ _ H3) as [S1 S2].
    split; [apply Forall_forall; intros r Hr; apply hint_okmb_sound, H1, Hr|]. split; [exact S1|]. split; [|exact S2].
    intros r h Hr Ht Hd. specialize (H2 r Hr). rewrite (is_ns_rr_some r h Ht Hd) in H2. apply andb_true_iff in H2 as [K1 K2]. split.
    - apply existsb_exists in K1 as (x & Hx & K). apply andb_true_iff in K as [Kn Kh].
      exists x. split; [apply u_record_all, Hx|]. split; [apply dname_eqb_eq, Kn|apply is_name_eq, Kh].
    - exact (has_hintb_sound _ _ _ K2).
  Qed.

  Definition walkmb (zroot : uzone) (rest : list uzone) (zk : uzone) : bool :=
    walk_baseb u q zroot rest && hints_formb && hosts_okmb zroot rest && wchainmb zk zroot rest.

  Lemma walkmb_sound zroot rest zk : walkmb zroot rest zk = true -> walkm u hints mode multi G q zroot rest zk.
  Proof.
    unfold walkmb. rewrite !andb_true_iff. intros (((H1 & H2) & H3) & H4).
    destruct (walk_baseb_sound _ _ _ _ H1) as (B1 & B2 & B3 & B4 & B5).
    constructor; try assumption; [apply hints_formb_sound, H2|apply hosts_okmb_sound, H3|apply wchainmb_sound, H4].
  Qed.

  Definition warm_questionmb (zroot : uzone) (rest : list uzone) (zk : uzone) : bool :=
    walkmb zroot rest zk && plain_atb u q zk && not_ns_hostb u (q_name q).

  Lemma warm_questionmb_sound zroot rest zk :
    warm_questionmb zroot rest zk = true -> warm_questionm u hints mode multi G q zroot rest zk.
  Proof.
    unfold warm_questionmb. rewrite !andb_true_iff. intros ((H1 & H2) & H3).
    split; [apply walkmb_sound, H1|]. split; [apply plain_atb_sound, H2|apply not_ns_hostb_sound, H3].
  Qed.
End ModeChecks.

(* a worked universe: the depth-3 chain with v6 in it
        .                 a.                    10.0.0.1 and fd00::1 (hints: both)
        com.              ns.com.               fd00::2 ONLY (a v6-only nameserver)
        example.com.      ns.example.com.       10.0.0.3 and fd00::3
        sub.example.com.  ns.sub.example.com.   10.0.0.4 and fd00::4 *)

Definition m3_v6 (n : N) : list N := [64768; 0; 0; 0; 0; 0; 0; n].
Definition m3_root : uzone :=
  {| uz_apex := root_domain; uz_soa := c3_soa root_domain c3_n_a;
     uz_rrs := [c3_rr root_domain RT_NS 3600 (RD_Name c3_n_a); c3_rr c3_n_a RT_A 3600 (RD_A c3_ip0);
                c3_rr c3_n_a RT_AAAA 3600 (RD_AAAA (m3_v6 1))];
     uz_cuts := [c3_rr c3_n_com RT_NS 3600 (RD_Name c3_n_ns_com)];
     uz_glue := [c3_rr c3_n_ns_com RT_AAAA 3600 (RD_AAAA (m3_v6 2))] |}.
Definition m3_com : uzone :=
  {| uz_apex := c3_n_com; uz_soa := c3_soa c3_n_com c3_n_ns_com;
     uz_rrs := [c3_rr c3_n_com RT_NS 3600 (RD_Name c3_n_ns_com); c3_rr c3_n_ns_com RT_AAAA 3600 (RD_AAAA (m3_v6 2))];
     uz_cuts := [c3_rr c3_n_ex RT_NS 3600 (RD_Name c3_n_ns_ex)];
     uz_glue := [c3_rr c3_n_ns_ex RT_A 3600 (RD_A c3_ip2); c3_rr c3_n_ns_ex RT_AAAA 3600 (RD_AAAA (m3_v6 3))] |}.
Definition m3_ex : uzone :=
  {| uz_apex := c3_n_ex; uz_soa := c3_soa c3_n_ex c3_n_ns_ex;
     uz_rrs := [c3_rr c3_n_ex RT_NS 3600 (RD_Name c3_n_ns_ex); c3_rr c3_n_ns_ex RT_A 3600 (RD_A c3_ip2);
                c3_rr c3_n_ns_ex RT_AAAA 3600 (RD_AAAA (m3_v6 3))];
     uz_cuts := [c3_rr c3_n_sub RT_NS 3600 (RD_Name c3_n_ns_sub)];
     uz_glue := [c3_rr c3_n_ns_sub RT_A 3600 (RD_A c3_ip3); c3_rr c3_n_ns_sub RT_AAAA 3600 (RD_AAAA (m3_v6 4))] |}.
Definition m3_sub : uzone :=
  {| uz_apex := c3_n_sub; uz_soa := c3_soa c3_n_sub c3_n_ns_sub;
     uz_rrs := [c3_rr c3_n_sub RT_NS 3600 (RD_Name c3_n_ns_sub); c3_rr c3_n_ns_sub RT_A 3600 (RD_A c3_ip3);
                c3_rr c3_n_ns_sub RT_AAAA 3600 (RD_AAAA (m3_v6 4)); c3_rr c3_n_www RT_A 300 (RD_A 3221225985)];
     uz_cuts := []; uz_glue := [] |}.

Definition m3_universe : universe :=
  {| u_zones := [m3_root; m3_com; m3_ex; m3_sub];
     u_servers := [(inl c3_ip0, [root_domain]); (inr (m3_v6 1), [root_domain]); (inr (m3_v6 2), [c3_n_com]);
                   (inl c3_ip2, [c3_n_ex]); (inr (m3_v6 3), [c3_n_ex]); (inl c3_ip3, [c3_n_sub]); (inr (m3_v6 4), [c3_n_sub])] |}.

Definition m3_hints : list rr :=
  [c3_rr root_domain RT_NS 3600 (RD_Name c3_n_a); c3_rr c3_n_a RT_A 3600 (RD_A c3_ip0); c3_rr c3_n_a RT_AAAA 3600 (RD_AAAA (m3_v6 1))].
Definition m3_hz : zone :=
  match zone_build root_domain None (hint_ops m3_hints) with Ok z => z | _ => zone_new root_domain None end.

Lemma m3_hz_built : zone_build root_domain None (hint_ops m3_hints) = Ok m3_hz.
Proof. vm_compute. reflexivity. Qed.

Lemma m3_consistent : consistentb m3_universe = true.
Proof. vm_compute. reflexivity. Qed.

Lemma m3_universe_ns_ok : universe_ns_ok m3_universe.
Proof. apply universe_ns_okb_sound. vm_compute. reflexivity. Qed.

Lemma m3_plain_question q : (q = c3_q \/ q = c3_q_mx) -> plain_question m3_universe q.
Proof. intros [-> | ->]; apply plain_questionb_sound; vm_compute; reflexivity. Qed.

(* in the modes that can use v6: prefer-v4, prefer-v6, only-v6 *)
Lemma m3_warm_question mode (Hv6 : mode_usable mode RT_AAAA) q (Hq : q = c3_q \/ q = c3_q_mx) :
  warm_questionm m3_universe m3_hints mode false (fun _ => False) q m3_root [m3_com; m3_ex; m3_sub] m3_sub.
Proof.
  apply warm_questionmb_sound with (Gb := fun _ => false); [discriminate|].
  destruct mode; [destruct Hv6 as [E|[]]; discriminate E| | |]; destruct Hq as [-> | ->]; vm_compute; reflexivity.
Qed.

Notation m3_run mode q c :=
  (resolve scache sc_get sc_insert_all sort_names_ord (ModeRecursive mode) 53 (zones_insert [] m3_hz)
           (universe_oracle m3_universe []) 5%nat q (c, tstate_init)).

(* the hypotheses are satisfiable in every mode that can use v6 (prefer-v4, prefer-v6, only-v6), and
   what the theorem then says: www.sub.example.com. A from the empty cache is answered over the whole
   chain; the cache left is consistent for the mode; asked from it, MX is denied after one exchange *)
Example modes_example mode : mode_usable mode RT_AAAA ->
  outcomem scache sc_get 53 m3_universe m3_hints mode false c3_q m3_root [m3_com; m3_ex; m3_sub] m3_sub sc_empty (m3_run mode c3_q sc_empty)
  /\ (let c1 := fst (snd (m3_run mode c3_q sc_empty)) in
      consistentm m3_universe m3_hints mode (fun _ => False) scache sc_get c1
      /\ outcomem scache sc_get 53 m3_universe m3_hints mode false c3_q_mx m3_root [m3_com; m3_ex; m3_sub] m3_sub c1 (m3_run mode c3_q_mx c1)).
Proof.
  intro Hv6.
  pose proof (fun q Hq c HC => modes_correct scache sc_get sc_insert_all sc_cache_laws sort_names_ord sort_names_ord_perm 53 m3_universe
                m3_universe_ns_ok m3_hints m3_hz m3_hz_built mode false q m3_root [m3_com; m3_ex; m3_sub] m3_sub c 5%nat (m3_warm_question mode Hv6 q Hq)
                (m3_plain_question q Hq) HC (le_n 5)) as W.
  pose proof (W c3_q (or_introl eq_refl) sc_empty (emptym_consistent _ _ _ _ _ _ sc_empty sc_empty_get)) as H1.
  split; [exact H1|]. cbv zeta.
  assert (HC : consistentm m3_universe m3_hints mode (fun _ => False) scache sc_get (fst (snd (m3_run mode c3_q sc_empty)))).
  { destruct H1 as (rrs & c' & ts' & E & HC & _). rewrite E. exact HC. }
  exact (conj HC (W c3_q_mx (or_intror eq_refl) _ HC)).
Qed.

(* the same runs evaluated inside Coq: prefer-v4 asks the v4 addresses except for com., whose
   nameserver has only a v6 address; prefer-v6 and only-v6 ask the v6 addresses; from the cache left by
   the prefer-v6 run, MX is denied by the server of sub.example.com. alone.  (In only-v4 the
   hypothesis fails at com. and so does the resolution.) *)
Example modes_example_eval :
  let ans := Ok (NonAuthoritative [c3_rr c3_n_www RT_A 300 (RD_A 3221225985)] None) in
  let r4 := m3_run PreferV4 c3_q sc_empty in
  let r6 := m3_run PreferV6 c3_q sc_empty in
  let o6 := m3_run OnlyV6 c3_q sc_empty in
  let w6 := m3_run PreferV6 c3_q_mx (fst (snd r6)) in
  fst r4 = ans /\ map x_addr (ts_log (snd (snd r4))) = [(inl c3_ip0, 53); (inr (m3_v6 2), 53); (inl c3_ip2, 53); (inl c3_ip3, 53)]
  /\ fst r6 = ans /\ map x_addr (ts_log (snd (snd r6))) = [(inr (m3_v6 1), 53); (inr (m3_v6 2), 53); (inr (m3_v6 3), 53); (inr (m3_v6 4), 53)]
  /\ fst o6 = ans /\ map x_addr (ts_log (snd (snd o6))) = map x_addr (ts_log (snd (snd r6)))
  /\ fst w6 = Ok (NonAuthoritative [] (Some (uz_soa m3_sub))) /\ map x_addr (ts_log (snd (snd w6))) = [(inr (m3_v6 4), 53)]
  /\ consistentb m3_universe = true
  /\ (forall mode, mode_usable mode RT_AAAA <-> mode <> OnlyV4).
Proof.
  vm_compute. repeat (split; [reflexivity|]).
  intro mode. destruct mode; split; intro H; try congruence; try (intros E; discriminate E);
    try (destruct H as [H|[]]; discriminate H); auto.
Qed.

(* [outcomem] without [multi], spelt out: the zones used are a suffix of the chain *)
Lemma outcomem_strict cache cache_get port u hints mode q zroot rest zk c r :
  outcomem cache cache_get port u hints mode false q zroot rest zk c r ->
  exists rrs c' ts',
    r = (Ok (NonAuthoritative rrs (aa_soa (auth_answer u q))), (c', ts'))
    /\ consistentm u hints mode (fun _ => False) cache cache_get c'
    /\ ((ts_log ts' = [] /\ c' = c /\ rrs = cache_get c (q_name q) (q_type q) /\ rrs <> []
         /\ same_data rrs (aa_rrs (auth_answer u q)))
        \/ (rrs = aa_rrs (auth_answer u q) /\ cache_get c (q_name q) (q_type q) = []
            /\ exists pre used, zroot :: rest = pre ++ used /\ used <> []
                 /\ (pre = [] \/ exists zi used', used = zi :: used' /\ cache_get c (uz_apex zi) RT_NS <> [])
                 /\ Forall2 (fun z e => exists a, query_toi port q a e /\ serves_owner u a z q) used (ts_log ts'))).
Proof.
  intros (rrs & c' & ts' & E & HC & Hcases). exists rrs, c', ts'. split; [exact E|]. split; [exact HC|].
  destruct Hcases as [H|(H1 & H2 & used & _ & (used0 & Hu0) & Hpre & Hes)]; [left; exact H|right].
  split; [exact H1|]. split; [exact H2|]. destruct (Hpre eq_refl) as (pre & Epre & Hstart).
  exists pre, used. split; [exact Epre|]. split; [rewrite Hu0; destruct used0; discriminate|]. split; [exact Hstart|exact Hes].
Qed.
