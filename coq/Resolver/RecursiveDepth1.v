(* The walk of the recursive resolver model down a glue-complete chain of delegations -- root hints
   as the only local zone, a cache that starts empty, protocol mode only-v4, the fault-free universe
   oracle through the wire codec -- returns EXACTLY [auth_answer]: the records of the asked type at
   the name, or no records and the SOA of the owning zone, after one exchange per zone of the chain,
   root server first.  Depth 0 (the root zone owns the name) and depth 1 (a zone delegated from the
   root does) are stated on their own.  On the way: the zone Zone::insert builds from root hints
   answers a lookup with exactly the hints that match (through C02's flat specification); what
   resolve_local, candidate_nameservers and the fast pass of resolve_hostname_to_ip (for the record
   types of any mode) make of such hints and a cache; SimpleCache's "get after insert_all". *)
From Coq Require Import Permutation.
From RV Require Import Base.Prelude Name.NameModel Name.NameSpec Name.NameProofs Wire.WireTypes
     Wire.WireModel Wire.WireGrammar Zone.ZoneModel Zone.ZoneFlat Zone.ZoneProofs
     Resolver.LocalModel Resolver.LocalProofs Resolver.ValidateModel Resolver.ValidateProofs
     Resolver.TransportModel Resolver.RecursiveModel Resolver.ForwardingModel
     Resolver.RecursiveProofs Resolver.ForwardingProofs Resolver.Universe Resolver.ResolverFacts
     Resolver.RecursiveCorrect.

(* a root hint: an NS record of the root, or an A record of a host *)
Definition hint_ok (r : rr) : Prop :=
  wf_name (rr_name r) /\
  ((rr_type r = RT_NS /\ labels (rr_name r) = [[]] /\ exists h, rr_data r = RD_Name h)
   \/ (rr_type r = RT_A /\ exists a, rr_data r = RD_A a)).

Definition hint_op (r : rr) : zop :=
  {| op_wild := false; op_name := rr_name r; op_type := rr_type r; op_data := rr_data r; op_ttl := rr_ttl r |}.
Definition hint_ops (hints : list rr) : list zop := map hint_op hints.

(* the record a lookup of (name, qt) makes of a hint: owner = the query name *)
Definition hint_match (hints : list rr) (name : dname) (qt : N) (x : rr) : Prop :=
  exists r, In r hints /\ labels (rr_name r) = labels name /\ rtype_matches (rr_type r) qt = true
            /\ x = {| rr_name := name; rr_type := rr_type r; rr_class := RC_IN; rr_ttl := rr_ttl r; rr_data := rr_data r |}.

(* what the lookup lemmas below need of a root hint: a well-formed owner, data of the shape of its
   type; NS records only at the root; no alias *)
Definition hint_shape (r : rr) : Prop :=
  op_ok (hint_op r) /\ (rr_type r = RT_NS -> labels (rr_name r) = [[]]) /\ rr_type r <> RT_CNAME.

Lemma hint_ok_shape r : hint_ok r -> hint_shape r.
Proof.
  intros [Hwf [(Ht & Hl & h & Hd)|(Ht & a & Hd)]]; (split; [split; [exact Hwf|cbn [hint_op op_data op_type]; rewrite Ht, Hd; reflexivity]|]);
    rewrite Ht; split; (discriminate || auto).
Qed.

Lemma hint_oks_shape hints : Forall hint_ok hints -> Forall hint_shape hints.
Proof. apply Forall_impl, hint_ok_shape. Qed.

Section Hints.
  Variable hints : list rr.
  Hypothesis Hhints : Forall hint_shape hints.
  Let fz := flat_of_ops root_domain None (hint_ops hints).

  Lemma hint_ops_ok : Forall op_ok (hint_ops hints).
  Proof. unfold hint_ops. apply Forall_map. eapply Forall_impl; [|exact Hhints]. intros r H. exact (proj1 H). Qed.

  Lemma hint_norm p rec :
    In (p, rec) (f_norm fz) <->
    exists r, In r hints /\ rel_path [[]] (rr_name r) = Some p
              /\ rec = {| zr_type := rr_type r; zr_data := rr_data r; zr_ttl := rr_ttl r |}.
  Proof.
    split.
    - intro H. apply (flat_of_ops_sound root_domain None (hint_ops hints) false) in H.
      destruct H as [(_ & _ & so & Hso & _)|(o & Ho & _ & Hp & Hr)]; [discriminate|].
      unfold hint_ops in Ho. apply in_map_iff in Ho as (r & <- & Hr0). exists r. split; [exact Hr0|]. split; [exact Hp|].
      rewrite Hr. reflexivity.
    - intros (r & Hr & Hp & ->).
      apply (flat_of_ops_complete root_domain None (hint_ops hints) (hint_op r) p).
      + unfold hint_ops. apply in_map, Hr.
      + exact Hp.
  Qed.

  Lemma hint_wild p rec : ~ In (p, rec) (f_wild fz).
  Proof.
    intro H. apply (flat_of_ops_sound root_domain None (hint_ops hints) true) in H.
    destruct H as [(Hw & _)|(o & Ho & Hw & _)]; [discriminate|].
    unfold hint_ops in Ho. apply in_map_iff in Ho as (r & <- & _). discriminate.
  Qed.

  Lemma hint_rel_path name front : labels name = front ++ [[]] ->
    forall r, rel_path [[]] (rr_name r) = Some front <-> labels (rr_name r) = labels name.
  Proof.
    intros Hl r. rewrite Hl. split; [apply rel_path_some|apply rel_path_intro].
  Qed.

  (* a node has no records of a type that no hint at it has *)
  Lemma hint_recs_none c t :
    (forall r, hint_shape r -> rel_path [[]] (rr_name r) = Some c -> rr_type r <> t) -> recs_at (f_norm fz) c t = [].
  Proof.
    intro H. destruct (recs_at (f_norm fz) c t) as [|x l] eqn:E; [reflexivity|]. exfalso.
    assert (Hx : In x (recs_at (f_norm fz) c t)) by (rewrite E; left; reflexivity).
    apply In_recs_at in Hx as [Hin Ht]. apply hint_norm in Hin as (r & Hr & Hp & ->).
    exact (H r (proj1 (Forall_forall _ _) Hhints r Hr) Hp Ht).
  Qed.

  Lemma hint_no_ns c : c <> [] -> recs_at (f_norm fz) c RT_NS = [].
  Proof.
    intro Hc. apply hint_recs_none. intros r (_ & Hl & _) Hp Ht.
    apply rel_path_some in Hp. rewrite (Hl Ht) in Hp. destruct c as [|a c]; [contradiction|].
    cbn [app] in Hp. inversion Hp. destruct c; discriminate.
  Qed.

  Lemma hint_no_cname p : recs_at (f_norm fz) p RT_CNAME = [].
  Proof. apply hint_recs_none. intros r (_ & _ & Hn) _. exact Hn. Qed.

  Lemma hint_no_occlusion : no_occlusion fz.
  Proof.
    intros c rns Hc Hin Ht. exfalso.
    assert (Hx : In rns (recs_at (f_norm fz) c RT_NS)) by (apply In_recs_at; auto).
    rewrite (hint_no_ns c Hc) in Hx. destruct Hx.
  Qed.

  (* a lookup in the hints zone: no record of the zone matches, or exactly the matching hints *)
  Lemma shaped_hints_resolve hz name qt :
    zone_build root_domain None (hint_ops hints) = Ok hz -> wf_name name -> qt <> QT_Wildcard ->
    exists zr, zone_resolve hz name qt = Some (Ok zr) /\
      ((zr = ZNameError /\ forall x, ~ hint_match hints name qt x) \/
       (exists rrs, zr = ZAnswer rrs /\ forall x, In x rrs <-> hint_match hints name qt x)).
  Proof.
    intros Hb Hname Hqt.
    destruct (resolve_refines_flat root_domain None (hint_ops hints) name qt root_wf hint_ops_ok Hname)
      as (z & Hb' & H).
    rewrite Hb in Hb'. inversion Hb'; subst z. clear Hb'.
    destruct (proj1 Hname) as (front & Hl & Hfront & Hsum).
    change (labels root_domain) with ([[]] : list label) in H.
    rewrite (rel_path_intro [[]] name front Hl) in H. destruct H as (zr & Hzr & H).
    destruct (H hint_no_occlusion) as [_ Heq]. specialize (Heq Hqt). fold fz in Heq.
    exists zr. split; [exact Hzr|]. subst zr. unfold flat_resolve.
    rewrite find_none_all.
    2:{ intros c Hc. apply In_ancestors in Hc as [Hc _]. apply is_cut_no_ns, hint_no_ns, Hc. }
    destruct (exists_nodeb fz front) eqn:Eex.
    - right. rewrite classify_answer by (right; rewrite of_type_all_at; apply hint_no_cname).
      eexists. split; [reflexivity|]. intro x. rewrite in_map_iff. split.
      + intros (rec & <- & Hrec). apply filter_In in Hrec as [Hrec Hm]. apply In_all_at, hint_norm in Hrec as (r & Hr & Hp & ->).
        exists r. split; [exact Hr|]. split; [apply (hint_rel_path name front Hl), Hp|]. split; [exact Hm|reflexivity].
      + intros (r & Hr & Hlr & Hm & ->).
        exists {| zr_type := rr_type r; zr_data := rr_data r; zr_ttl := rr_ttl r |}. split; [reflexivity|].
        apply filter_In. split; [|exact Hm]. apply In_all_at, hint_norm. exists r. split; [exact Hr|].
        split; [apply (hint_rel_path name front Hl), Hlr|reflexivity].
    - left. split.
      + destruct (wild_source fz front) as [[l e]|]; [|reflexivity].
        destruct (has_wild fz e) eqn:Ew; [|reflexivity]. apply has_wild_spec in Ew as [r Hr]. destruct (hint_wild _ _ Hr).
      + intros x (r & Hr & Hlr & _). apply exists_nodeb_false in Eex. apply Eex. right.
        exists front, {| zr_type := rr_type r; zr_data := rr_data r; zr_ttl := rr_ttl r |}. split; [|apply is_suffix_refl].
        unfold entries. apply in_or_app. left. apply hint_norm. exists r. split; [exact Hr|].
        split; [apply (hint_rel_path name front Hl), Hlr|reflexivity].
  Qed.
End Hints.

(* what the local zones are to the resolver: every lookup ends in a zone without SOA and finds
   nothing, or exactly the hints that match *)
Definition hints_zones (zs : zones) (hints : list rr) : Prop :=
  no_authoritative_zone zs /\                     (* so cut_at_local_authority never cuts: cut_no_auth *)
  forall name qt, wf_name name -> qt <> QT_Wildcard ->
    exists hz zr, zones_resolve zs name qt = Some (hz, Ok zr) /\ zone_soa_rr hz = None /\
      ((zr = ZNameError /\ forall x, ~ hint_match hints name qt x) \/
       (exists rrs, zr = ZAnswer rrs /\ forall x, In x rrs <-> hint_match hints name qt x)).

Lemma from_labels_root : from_labels [[]] = Some root_domain.
Proof. reflexivity. Qed.

Lemma zones_get_root {Z} (z : Z) : forall front,
  zones_get_loop [(root_domain, z)] (suffixes (front ++ [[]])) = Some z.
Proof.
  induction front as [|l front IH]; cbn [app suffixes zones_get_loop].
  - rewrite from_labels_root. cbn [alookup]. reflexivity.
  - destruct (from_labels (l :: front ++ [[]])) as [nm|] eqn:E; [|exact IH].
    cbn [alookup]. destruct (dname_eqb nm root_domain) eqn:En; [|exact IH].
    apply dname_eqb_eq in En. subst nm. apply from_labels_inv in E. destruct E as [E _]. cbn [labels root_domain] in E.
    inversion E. destruct front; discriminate.
Qed.

Lemma shaped_zones_built hints hz :
  Forall hint_shape hints -> zone_build root_domain None (hint_ops hints) = Ok hz ->
  hints_zones (zones_insert [] hz) hints.
Proof.
  intros Hh Hb.
  destruct (zone_build_R root_domain None (hint_ops hints) root_wf (Forall_op_names _ (hint_ops_ok _ Hh)))
    as (z & Hb' & Ha & Hs & _).
  rewrite Hb in Hb'. inversion Hb'; subst z. clear Hb'.
  split.
  { apply no_auth_of_all. unfold zones_insert, ainsert. cbn [alookup app]. intros n z [E|[]]. inversion E; subst.
    unfold zone_is_authoritative. rewrite Hs. reflexivity. }
  intros name qt Hname Hqt.
  destruct (shaped_hints_resolve hints Hh hz name qt Hb Hname Hqt) as (zr & Hzr & Hcases).
  exists hz, zr. split; [|split; [|exact Hcases]].
  - unfold zones_resolve, zones_insert, ainsert. cbn [alookup app]. rewrite Ha. unfold zones_get.
    destruct (proj1 Hname) as (front & Hl & _). rewrite Hl, zones_get_root, Hzr. reflexivity.
  - unfold zone_soa_rr. rewrite Hs. reflexivity.
Qed.

Lemma local_fuel_S : exists f, LOCAL_FUEL = S f.
Proof. exists 33%nat. exact local_fuel_value. Qed.

Section LocalHints.
  Variable zs : zones.
  Variable hints : list rr.
  Hypothesis Hz : hints_zones zs hints.
  Variable cget : dname -> N -> list rr.

  Lemma zone_phase_miss q sub : wf_name (q_name q) -> q_type q <> QT_Wildcard ->
    (forall x, ~ hint_match hints (q_name q) (q_type q) x) -> zone_phase zs q sub = ZContinue [].
  Proof.
    intros Hn Hq Hno. unfold zone_phase.
    destruct (proj2 Hz (q_name q) (q_type q) Hn Hq) as (hz & zr & -> & -> & [[-> _]|(rrs & -> & Hin)]); [reflexivity|].
    assert (rrs = []) as ->.
    { destruct rrs as [|x l]; [reflexivity|]. exfalso. apply (Hno x), Hin. left. reflexivity. }
    cbn [is_nil negb]. rewrite andb_false_r. reflexivity.
  Qed.

  (* nothing in the hints, nothing in the cache *)
  Lemma rl_miss f stack q :
    at_recursion_limit stack = false -> is_duplicate_question stack q = false ->
    wf_name (q_name q) -> q_type q <> QT_Wildcard ->
    (forall x, ~ hint_match hints (q_name q) (q_type q) x) ->
    cget (q_name q) (q_type q) = [] -> cget (q_name q) RT_CNAME = [] ->
    resolve_local zs cget (S f) stack q = Err (EDeadEnd q).
  Proof.
    intros H1 H2 Hn Hq Hno Hc1 Hc2. rewrite resolve_local_eq, H1, H2. unfold local_step. rewrite (zone_phase_miss q _ Hn Hq Hno).
    unfold cache_phase, cache_part. rewrite Hc1, Hc2. cbn [is_nil andb]. destruct (negb (q_type q =? RT_CNAME)); reflexivity.
  Qed.

  (* the hints answer *)
  Lemma rl_hit f stack q x0 :
    at_recursion_limit stack = false -> is_duplicate_question stack q = false ->
    wf_name (q_name q) -> q_type q <> QT_Wildcard ->
    hint_match hints (q_name q) (q_type q) x0 ->
    exists rrs, resolve_local zs cget (S f) stack q = Ok (LDone (NonAuthoritative rrs None))
                /\ rrs <> [] /\ forall x, In x rrs <-> hint_match hints (q_name q) (q_type q) x.
  Proof.
    intros H1 H2 Hn Hq Hm. rewrite resolve_local_eq, H1, H2. unfold local_step, zone_phase.
    destruct (proj2 Hz (q_name q) (q_type q) Hn Hq) as (hz & zr & -> & -> & [[_ Hno]|(rrs & -> & Hin)]).
    - destruct (Hno x0 Hm).
    - assert (Hne : rrs <> []).
      { intros ->. apply (Hin x0) in Hm. destruct Hm. }
      exists rrs. apply N.eqb_neq in Hq. rewrite Hq. destruct rrs as [|r l]; [congruence|]. cbn [is_nil negb andb].
      split; [reflexivity|]. split; [exact Hne|exact Hin].
  Qed.

  (* nothing in the hints, something in the cache *)
  Lemma rl_cache f stack q :
    at_recursion_limit stack = false -> is_duplicate_question stack q = false ->
    wf_name (q_name q) -> q_type q <> QT_Wildcard ->
    (forall x, ~ hint_match hints (q_name q) (q_type q) x) ->
    cget (q_name q) (q_type q) <> [] ->
    resolve_local zs cget (S f) stack q = Ok (LDone (NonAuthoritative (cget (q_name q) (q_type q)) None)).
  Proof.
    intros H1 H2 Hn Hq Hno Hc1. rewrite resolve_local_eq, H1, H2. unfold local_step. rewrite (zone_phase_miss q _ Hn Hq Hno).
    unfold cache_phase, cache_part. destruct (cget (q_name q) (q_type q)) as [|r l] eqn:E; [congruence|].
    cbn [is_nil andb]. rewrite merge_nil_l. cbn [is_nil]. apply N.eqb_neq in Hq. rewrite Hq. reflexivity.
  Qed.
End LocalHints.

(* the address a record holds: an A record its v4 address, an AAAA record its v6 address *)
Definition rr_ip (r : rr) (a : ip) : Prop :=
  (rr_type r = RT_A /\ exists x, rr_data r = RD_A x /\ a = inl x)
  \/ (rr_type r = RT_AAAA /\ exists s, rr_data r = RD_AAAA s /\ a = inr s).
Definition ip_type (t : N) : Prop := t = RT_A \/ t = RT_AAAA.

Lemma ip_type_not_any t : ip_type t -> t <> QT_Wildcard.
Proof. intros [-> | ->]; discriminate. Qed.

Lemma rr_ip_fun r a b : rr_ip r a -> rr_ip r b -> a = b.
Proof.
  intros [(T1 & x & D1 & ->)|(T1 & x & D1 & ->)] [(T2 & y & D2 & ->)|(T2 & y & D2 & ->)]; congruence.
Qed.

Lemma rr_ip_same r r' a : rr_type r = rr_type r' -> rr_data r = rr_data r' -> rr_ip r a -> rr_ip r' a.
Proof. unfold rr_ip. intros <- <-. auto. Qed.

(* address records of the host [h], of type [t] *)
Definition addr_rrm (h : dname) (t : N) (r : rr) : Prop :=
  rr_name r = h /\ rr_type r = t /\ rr_class r = RC_IN /\ exists a, rr_ip r a.

Lemma get_ip_addrm h t rrs : ip_type t -> rrs <> [] -> Forall (addr_rrm h t) rrs ->
  exists r a, In r rrs /\ rr_ip r a /\ get_ip rrs h t = Ok (Some a).
Proof.
  intros Ht Hne Hall. unfold get_ip.
  assert (Hplain : Forall (plain_rr (mkq h QT_Wildcard RC_IN)) rrs).
  { eapply Forall_impl; [|exact Hall]. intros r (Hn & Hty & Hc & _). unfold plain_rr. cbn [mkq q_name q_type].
    unfold rr_is_unknown. rewrite Hty, Hc. destruct Ht as [-> | ->]; repeat split; try exact Hn; discriminate. }
  pose proof (follow_plain _ rrs Hplain Hne) as Hf. cbn [mkq q_name q_type] in Hf. rewrite Hf.
  destruct rrs as [|r l]; [congruence|]. inversion Hall as [|? ? (Hn & Hty & Hc & a & Ha) _]; subst.
  unfold get_record. cbn [find]. rewrite N.eqb_refl, dname_eqb_refl. cbn [andb].
  exists r, a. split; [left; reflexivity|]. split; [exact Ha|].
  destruct Ha as [(_ & x & -> & ->)|(_ & x & -> & ->)]; reflexivity.
Qed.

(* the data of a hint has the shape of its type *)
Lemma hint_shape_ns r : hint_shape r -> rr_type r = RT_NS -> labels (rr_name r) = [[]] /\ exists h, rr_data r = RD_Name h.
Proof.
  intros ((_ & Hsh) & Hl & _) Ht. split; [exact (Hl Ht)|]. cbn [hint_op op_data op_type] in Hsh. rewrite Ht in Hsh.
  destruct (rr_data r); try discriminate Hsh. eauto.
Qed.

Lemma hint_shape_ip r t : hint_shape r -> rr_type r = t -> ip_type t -> exists a, rr_ip r a.
Proof.
  intros ((_ & Hsh) & _) Ht Hip. cbn [hint_op op_data op_type] in Hsh. rewrite Ht in Hsh. unfold rr_ip. rewrite Ht.
  destruct Hip as [-> | ->]; destruct (rr_data r); try discriminate Hsh; eauto 6.
Qed.

Section RMLocal.
  Variable cache : Type.
  Variable cache_get : cache -> dname -> N -> list rr.
  Variable zs : zones.
  Variable hints : list rr.
  Hypothesis Hz : hints_zones zs hints.
  Hypothesis Hh : Forall hint_shape hints.

  Notation local := (local cache cache_get zs).
  Notation htry := (hostname_try cache cache_get zs).
  Notation hloop := (hostname_loop cache cache_get zs).

  Lemma local_dup stack q st :
    at_recursion_limit stack = false -> is_duplicate_question stack q = true -> local stack q st = (Val None, st).
  Proof.
    intros H1 H2. destruct local_fuel_S as [f Ef]. unfold RecursiveModel.local. rewrite Ef, resolve_local_eq, H1, H2. reflexivity.
  Qed.

  Lemma local_miss stack q st :
    at_recursion_limit stack = false -> is_duplicate_question stack q = false ->
    wf_name (q_name q) -> q_type q <> QT_Wildcard ->
    (forall x, ~ hint_match hints (q_name q) (q_type q) x) ->
    cache_get (fst st) (q_name q) (q_type q) = [] -> cache_get (fst st) (q_name q) RT_CNAME = [] ->
    local stack q st = (Val None, st).
  Proof.
    intros. destruct local_fuel_S as [f Ef]. unfold RecursiveModel.local.
    rewrite Ef, (rl_miss zs hints Hz) by assumption. reflexivity.
  Qed.

  Lemma local_cache_hit stack q' st :
    at_recursion_limit stack = false -> is_duplicate_question stack q' = false ->
    wf_name (q_name q') -> q_type q' <> QT_Wildcard ->
    (forall x, ~ hint_match hints (q_name q') (q_type q') x) ->
    cache_get (fst st) (q_name q') (q_type q') <> [] ->
    local stack q' st
    = (Val (Some (LDone (NonAuthoritative (cache_get (fst st) (q_name q') (q_type q')) None))), st).
  Proof.
    intros. destruct local_fuel_S as [f Ef]. unfold RecursiveModel.local.
    rewrite Ef, (rl_cache zs hints Hz) by assumption. reflexivity.
  Qed.

  Lemma hint_match_dec name qt : wf_name name -> qt <> QT_Wildcard ->
    (exists x, hint_match hints name qt x) \/ (forall x, ~ hint_match hints name qt x).
  Proof.
    intros Hn Hq. destruct (proj2 Hz name qt Hn Hq) as (hz & zr & _ & _ & [[_ Hno]|(rrs & _ & Hin)]); [right; exact Hno|].
    destruct rrs as [|x l].
    - right. intros x Hx. apply Hin in Hx. destruct Hx.
    - left. exists x. apply Hin. left. reflexivity.
  Qed.

  (* the NS hosts a hints answer names *)
  Lemma hint_ns_hosts rrs : rrs <> [] -> (forall x, In x rrs -> hint_match hints root_domain RT_NS x) ->
    ns_hostnames_of rrs <> [].
  Proof.
    intros Hne Hin. destruct rrs as [|x l]; [congruence|].
    destruct (Hin x (or_introl eq_refl)) as (r & Hr & _ & Hm & ->). apply (rtype_matches_concrete _ RT_NS ltac:(discriminate)) in Hm.
    destruct (hint_shape_ns r (proj1 (Forall_forall _ _) Hh r Hr) Hm) as (_ & h & Hd).
    unfold ns_hostnames_of. cbn [flat_map rr_type rr_data]. rewrite Hm, Hd, N.eqb_refl. discriminate.
  Qed.

  (* the hints hold NS records for the root only *)
  Lemma no_ns_hint_below l front x : ~ hint_match hints (mkname (l :: front ++ [[]])) RT_NS x.
  Proof.
    intros (r & Hr & Hl & Hm & _). apply (rtype_matches_concrete _ RT_NS ltac:(discriminate)) in Hm.
    destruct (hint_shape_ns r (proj1 (Forall_forall _ _) Hh r Hr) Hm) as (Hl' & _).
    rewrite Hl' in Hl. cbn [mkname labels] in Hl. inversion Hl. destruct front; discriminate.
  Qed.

  (* candidate_nameservers walks up from the name: at a name below the root it passes on when the
     question is under way or nothing is cached there, and stops at a cached NS set; at the root it
     finds the nameservers of the hints *)
  Lemma cand_ns_walk stack c ts x0 :
    at_recursion_limit stack = false ->
    is_duplicate_question stack (mkq root_domain RT_NS RC_IN) = false ->
    hint_match hints root_domain RT_NS x0 ->
    forall front, wf_labels (front ++ [[]]) ->
    (forall pre l front', front = pre ++ l :: front' -> let n := mkname (l :: front' ++ [[]]) in
       is_duplicate_question stack (mkq n RT_NS RC_IN) = false ->
       (cache_get c n RT_NS = [] -> cache_get c n RT_CNAME = [])
       /\ (cache_get c n RT_NS <> [] -> ns_hostnames_of (cache_get c n RT_NS) <> [])) ->
    exists d, candidate_ns_loop cache cache_get zs stack (@suffixes label (front ++ [[]])) (c, ts) = (Val (Some d), (c, ts))
      /\ ns_hostnames d <> []
      /\ ((ns_name d = root_domain /\ exists rrs, ns_hostnames d = ns_hostnames_of rrs
                                       /\ forall x, In x rrs <-> hint_match hints root_domain RT_NS x)
          \/ (exists pre l front', front = pre ++ l :: front' /\ ns_name d = mkname (l :: front' ++ [[]])
                /\ cache_get c (ns_name d) RT_NS <> [] /\ ns_hostnames d = ns_hostnames_of (cache_get c (ns_name d) RT_NS))).
  Proof.
    intros Hlim Hdup Hx0. induction front as [|l front IH]; intros Hwf Hat; cbn [app suffixes candidate_ns_loop].
    - rewrite from_labels_root. destruct local_fuel_S as [f Ef].
      destruct (rl_hit zs hints Hz (cache_get c) f stack (mkq root_domain RT_NS RC_IN) x0 Hlim Hdup root_wf
                  ltac:(discriminate) Hx0) as (rrs & Hrl & Hne & Hin).
      pose proof (hint_ns_hosts rrs Hne (fun x Hx => proj1 (Hin x) Hx)) as Hhosts.
      eexists. split; [|split; [|left; split; [|exists rrs; split; [|exact Hin]]]].
      + unfold rbind, RecursiveModel.local. cbn [fst]. rewrite Ef, Hrl. cbn [resolved_rrs].
        destruct (ns_hostnames_of rrs) eqn:E; [congruence|]. cbn [is_nil]. rewrite <- E. reflexivity.
      + exact Hhosts.
      + reflexivity.
      + reflexivity.
    - cbn [app] in Hwf. rewrite (from_labels_mkname _ Hwf).
      set (n := mkname (l :: front ++ [[]])).
      assert (Hwfn : wf_name n) by (split; [exact Hwf|reflexivity]).
      assert (Hd : local stack (mkq n RT_NS RC_IN) (c, ts) = (Val None, (c, ts))
                   \/ (is_duplicate_question stack (mkq n RT_NS RC_IN) = false /\ cache_get c n RT_NS <> [])).
      { destruct (is_duplicate_question stack (mkq n RT_NS RC_IN)) eqn:Ed; [left; exact (local_dup stack _ (c, ts) Hlim Ed)|].
        destruct (cache_get c n RT_NS) eqn:Ens; [left|right; split; [reflexivity|discriminate]].
        exact (local_miss stack (mkq n RT_NS RC_IN) (c, ts) Hlim Ed Hwfn ltac:(discriminate) (no_ns_hint_below l front) Ens
                 (proj1 (Hat [] l front eq_refl Ed) Ens)). }
      destruct Hd as [E0|[Ed Hne]]; unfold rbind at 1.
      + rewrite E0. destruct IH as (d & E & Hne & Hcases).
        * apply (wf_labels_suffix [l] (front ++ [[]])); [exact Hwf|]. destruct front; discriminate.
        * intros pre l0 front' ->. exact (Hat (l :: pre) l0 front' eq_refl).
        * exists d. split; [exact E|]. split; [exact Hne|]. destruct Hcases as [H|(pre & l0 & front' & -> & H)]; [left; exact H|].
          right. exists (l :: pre), l0, front'. split; [reflexivity|exact H].
      + rewrite (local_cache_hit stack (mkq n RT_NS RC_IN) (c, ts) Hlim Ed Hwfn ltac:(discriminate) (no_ns_hint_below l front) Hne).
        cbn [resolved_rrs mkq q_name q_type fst]. pose proof (proj2 (Hat [] l front eq_refl Ed) Hne) as Hhosts. fold n in Hhosts.
        destruct (ns_hostnames_of (cache_get c n RT_NS)) eqn:E; [congruence|]. cbn [is_nil]. rewrite <- E.
        eexists. split; [reflexivity|]. cbn [ns_hostnames ns_name]. split; [rewrite E; discriminate|].
        right. exists [], l, front. auto.
  Qed.

  Lemma htry_miss rec stack h t st :
    at_recursion_limit stack = false -> wf_name h -> ip_type t ->
    (forall x, ~ hint_match hints h t x) -> cache_get (fst st) h t = [] -> cache_get (fst st) h RT_CNAME = [] ->
    htry rec stack true h t st = (Val None, st).
  Proof.
    intros Hlim Hwf Ht Hno Hc Hcn. unfold hostname_try, rbind.
    destruct (is_duplicate_question stack (mkq h t RC_IN)) eqn:Ed.
    - rewrite (local_dup stack _ st Hlim Ed). reflexivity.
    - rewrite (local_miss stack (mkq h t RC_IN) st Hlim Ed Hwf (ip_type_not_any t Ht) Hno Hc Hcn).
      reflexivity.
  Qed.

  Lemma htry_hit rec stack h t st rrs a :
    resolve_local zs (cache_get (fst st)) LOCAL_FUEL stack (mkq h t RC_IN) = Ok (LDone (NonAuthoritative rrs None)) ->
    get_ip rrs h t = Ok (Some a) ->
    htry rec stack true h t st = (Val (Some a), st).
  Proof.
    intros Hrl Hip. unfold hostname_try, rbind, RecursiveModel.local. rewrite Hrl. cbn [resolved_rrs]. rewrite Hip. reflexivity.
  Qed.

  (* the hints answer for (h, t): the address of one of the matching hints *)
  Lemma htry_hint rec stack h t st x0 :
    at_recursion_limit stack = false -> is_duplicate_question stack (mkq h t RC_IN) = false ->
    wf_name h -> ip_type t -> hint_match hints h t x0 ->
    exists g a, In g hints /\ labels (rr_name g) = labels h /\ rr_type g = t /\ rr_ip g a /\
      htry rec stack true h t st = (Val (Some a), st).
  Proof.
    intros Hlim Hdup Hwf Ht Hm0. destruct local_fuel_S as [f Ef].
    destruct (rl_hit zs hints Hz (cache_get (fst st)) f stack (mkq h t RC_IN) x0 Hlim Hdup Hwf (ip_type_not_any t Ht) Hm0)
      as (rrs & Hrl & Hne & Hin). cbn [mkq q_name q_type] in Hin.
    assert (Hfrom : forall x, In x rrs -> addr_rrm h t x /\ exists g, In g hints /\ labels (rr_name g) = labels h /\ rr_type g = t
                                /\ rr_type x = rr_type g /\ rr_data x = rr_data g).
    { intros x Hx. apply Hin in Hx as (g & Hg & Hl & Hm & ->). apply (rtype_matches_concrete _ _ (ip_type_not_any t Ht)) in Hm.
      destruct (hint_shape_ip g t (proj1 (Forall_forall _ _) Hh g Hg) Hm Ht) as [a Ha].
      split; [|exists g; auto]. repeat (split; [reflexivity || exact Hm|]). exists a. exact (rr_ip_same g _ a eq_refl eq_refl Ha). }
    destruct (get_ip_addrm h t rrs Ht Hne (proj2 (Forall_forall _ _) (fun x Hx => proj1 (Hfrom x Hx)))) as (x & a & Hx & Ha & Hip).
    destruct (Hfrom x Hx) as (_ & g & Hg & Hl & Hgt & E1 & E2).
    exists g, a. repeat (split; [assumption|]). split; [exact (rr_ip_same x g a E1 E2 Ha)|].
    rewrite <- Ef in Hrl. eapply htry_hit; eassumption.
  Qed.

  (* the hints do not know (h, t), the cache has address records for it *)
  Lemma htry_cached rec stack h t st :
    at_recursion_limit stack = false -> is_duplicate_question stack (mkq h t RC_IN) = false ->
    wf_name h -> ip_type t -> (forall x, ~ hint_match hints h t x) ->
    cache_get (fst st) h t <> [] -> Forall (addr_rrm h t) (cache_get (fst st) h t) ->
    exists r a, In r (cache_get (fst st) h t) /\ rr_ip r a /\ htry rec stack true h t st = (Val (Some a), st).
  Proof.
    intros Hlim Hdup Hwf Ht Hno Hne Hall. destruct local_fuel_S as [f Ef].
    pose proof (rl_cache zs hints Hz (cache_get (fst st)) f stack (mkq h t RC_IN) Hlim Hdup Hwf (ip_type_not_any t Ht) Hno Hne) as Hrl.
    cbn [mkq q_name q_type] in Hrl.
    destruct (get_ip_addrm h t _ Ht Hne Hall) as (x & a & Hx & Ha & Hip).
    exists x, a. split; [exact Hx|]. split; [exact Ha|]. rewrite <- Ef in Hrl. eapply htry_hit; eassumption.
  Qed.

  (* THE FAST PASS over the record types of a mode: the first type with a hint or a cached RRset
     gives the address; [P] holds of every address the hints or the cache hold for the host *)
  Lemma hloop_fast rec stack h st (P : ip -> Prop) :
    at_recursion_limit stack = false -> wf_name h ->
    (forall t, ip_type t -> is_duplicate_question stack (mkq h t RC_IN) = false) ->
    cache_get (fst st) h RT_CNAME = [] ->
    (forall t x, ip_type t -> In x (cache_get (fst st) h t) -> addr_rrm h t x /\ forall a, rr_ip x a -> P a) ->
    (forall g a, In g hints -> labels (rr_name g) = labels h -> ip_type (rr_type g) -> rr_ip g a -> P a) ->
    forall types, Forall ip_type types ->
      (exists t, In t types /\ ((exists x, hint_match hints h t x) \/ cache_get (fst st) h t <> [])) ->
      exists a, hloop rec stack true h types st = (Val (Some a), st) /\ P a.
  Proof.
    intros Hlim Hwf Hdup Hcn Hcache Hhint. induction types as [|t types IH]; intros Hty (t0 & Hin & Hr); [destruct Hin|].
    inversion Hty as [|? ? Ht Hty']; subst. cbn [hostname_loop]. unfold rbind at 1.
    destruct (hint_match_dec h t Hwf (ip_type_not_any t Ht)) as [[x0 Hx0]|Hno].
    - destruct (htry_hint rec stack h t st x0 Hlim (Hdup t Ht) Hwf Ht Hx0) as (g & a & Hg & Hl & Hgt & Ha & E).
      rewrite E. exists a. split; [reflexivity|]. apply (Hhint g a Hg Hl); [rewrite Hgt; exact Ht|exact Ha].
    - destruct (cache_get (fst st) h t) as [|y l] eqn:Ec.
      + rewrite (htry_miss rec stack h t st Hlim Hwf Ht Hno Ec Hcn).
        apply IH; [exact Hty'|]. destruct Hin as [<-|Hin].
        * exfalso. destruct Hr as [[x Hx]|Hne]; [exact (Hno x Hx)|congruence].
        * exists t0. auto.
      + assert (Hne : cache_get (fst st) h t <> []) by (rewrite Ec; discriminate).
        assert (Hall : Forall (addr_rrm h t) (cache_get (fst st) h t)).
        { apply Forall_forall. intros x Hx. exact (proj1 (Hcache t x Ht Hx)). }
        destruct (htry_cached rec stack h t st Hlim (Hdup t Ht) Hwf Ht Hno Hne Hall) as (x & a & Hx & Ha & E).
        rewrite E. exists a. split; [reflexivity|]. exact (proj2 (Hcache t x Ht Hx) a Ha).
  Qed.

  (* ... and when no type of the mode has a hint or a cached RRset the fast pass finds nothing *)
  Lemma hloop_fast_none rec stack h st :
    at_recursion_limit stack = false -> wf_name h -> cache_get (fst st) h RT_CNAME = [] ->
    forall types, Forall ip_type types ->
      (forall t, In t types -> (forall x, ~ hint_match hints h t x) /\ cache_get (fst st) h t = []) ->
      hloop rec stack true h types st = (Val None, st).
  Proof.
    intros Hlim Hwf Hcn. induction types as [|t types IH]; intros Hty Hnone; [reflexivity|].
    inversion Hty as [|? ? Ht Hty']; subst. cbn [hostname_loop]. unfold rbind at 1.
    destruct (Hnone t (or_introl eq_refl)) as [Hno Hc].
    rewrite (htry_miss rec stack h t st Hlim Hwf Ht Hno Hc Hcn). apply IH; [exact Hty'|].
    intros t' Hin. apply Hnone. right. exact Hin.
  Qed.

  (* only-v4: the host's address comes from an A hint, or else from the cached A RRset; [S] holds of
     every address the hints or the cache hold for the host *)
  Lemma rhi_v4 rec stack h st (S : N -> Prop) :
    at_recursion_limit stack = false -> is_duplicate_question stack (mkq h RT_A RC_IN) = false -> wf_name h ->
    (forall g a, In g hints -> labels (rr_name g) = labels h -> rr_type g = RT_A -> rr_data g = RD_A a -> S a) ->
    (exists x, hint_match hints h RT_A x)
    \/ (cache_get (fst st) h RT_A <> []
        /\ forall x, In x (cache_get (fst st) h RT_A) ->
             rr_name x = h /\ rr_type x = RT_A /\ rr_class x = RC_IN /\ exists a, rr_data x = RD_A a /\ S a) ->
    exists a, resolve_hostname_to_ip cache cache_get zs OnlyV4 rec stack true h st = (Val (Some (inl a)), st) /\ S a.
  Proof.
    intros Hlim Hdup Hwf Hhint Hready.
    assert (Hv4 : forall r a, rr_ip r a -> rr_type r = RT_A -> exists x, rr_data r = RD_A x /\ a = inl x).
    { intros r a [(_ & H)|(T & _)] Ht; [exact H|rewrite Ht in T; discriminate T]. }
    unfold resolve_hostname_to_ip. cbn [rtypes_of_mode hostname_loop]. unfold rbind at 1.
    destruct (hint_match_dec h RT_A Hwf ltac:(discriminate)) as [[x0 Hx0]|Hno].
    - destruct (htry_hint rec stack h RT_A st x0 Hlim Hdup Hwf (or_introl eq_refl) Hx0) as (g & a & Hg & Hl & Hgt & Ha & E).
      destruct (Hv4 g a Ha Hgt) as (x & Hd & ->). rewrite E. exists x. split; [reflexivity|exact (Hhint g x Hg Hl Hgt Hd)].
    - destruct Hready as [[x Hx]|[Hne Hcache]]; [destruct (Hno x Hx)|].
      assert (Hall : Forall (addr_rrm h RT_A) (cache_get (fst st) h RT_A)).
      { apply Forall_forall. intros x Hx. destruct (Hcache x Hx) as (H1 & H2 & H3 & a & Hd & _).
        unfold addr_rrm. repeat (split; [assumption|]). exists (inl a). left. eauto. }
      destruct (htry_cached rec stack h RT_A st Hlim Hdup Hwf (or_introl eq_refl) Hno Hne Hall) as (x & a & Hx & Ha & E).
      destruct (Hcache x Hx) as (_ & Ht & _ & a' & Hd & HS). destruct (Hv4 x a Ha Ht) as (y & Hd' & ->).
      rewrite E. exists y. split; [reflexivity|]. congruence.
  Qed.

  (* a nameserver the hints name for the root: its address comes from the hints *)
  Lemma hint_host_v4 rec stack st rrs cand (S : N -> Prop) :
    at_recursion_limit stack = false ->
    (forall x, hint_match hints cand RT_A x -> is_duplicate_question stack (mkq cand RT_A RC_IN) = false) ->
    (forall r h, In r hints -> rr_type r = RT_NS -> rr_data r = RD_Name h ->
       wf_name h /\ exists g, In g hints /\ labels (rr_name g) = labels h /\ rr_type g = RT_A) ->
    (forall g a, In g hints -> rr_type g = RT_A -> rr_data g = RD_A a -> S a) ->
    (forall x, In x rrs <-> hint_match hints root_domain RT_NS x) -> In cand (ns_hostnames_of rrs) ->
    exists a, resolve_hostname_to_ip cache cache_get zs OnlyV4 rec stack true cand st = (Val (Some (inl a)), st) /\ S a.
  Proof.
    intros Hlim Hdup Hroot_addr Hroot_srv Hin Hc. unfold ns_hostnames_of in Hc. apply in_flat_map in Hc as (x & Hx & Hc).
    apply Hin in Hx as (r & Hr & _ & Hm & ->). apply (rtype_matches_concrete _ RT_NS ltac:(discriminate)) in Hm. cbn [rr_type rr_data] in Hc.
    rewrite Hm, N.eqb_refl in Hc. destruct (rr_data r) as [|h| | | | | |] eqn:Hd; try (destruct Hc; fail). destruct Hc as [->|[]].
    destruct (Hroot_addr r cand Hr Hm Hd) as (Hwf & g & Hg & Hgl & Hgt).
    assert (Hm0 : hint_match hints cand RT_A
                    {| rr_name := cand; rr_type := rr_type g; rr_class := RC_IN; rr_ttl := rr_ttl g; rr_data := rr_data g |}).
    { exists g. split; [exact Hg|]. split; [exact Hgl|]. split; [rewrite Hgt; reflexivity|reflexivity]. }
    apply (rhi_v4 rec stack cand st S Hlim (Hdup _ Hm0) Hwf); [intros g' a Hg' _; exact (Hroot_srv g' a Hg')|left; eauto].
  Qed.

  (* the two ways a resolution begins when no local zone answers: the cache holds the RRset and it is
     returned without any exchange; or it holds neither the RRset nor an alias and the candidate loop
     starts at the nameservers candidate_nameservers finds *)
  Section Begin.
    Variable cache_insert_all : cache -> list rr -> cache.
    Variable sort_names : list dname -> list dname.
    Variable o : oracle.
    Variable mode : protocol_mode.
    Variable port : N.
    Notation rrn := (resolve_recursive_notimeout cache cache_get cache_insert_all sort_names zs o mode port).
    Notation cloop := (candidate_loop cache cache_get cache_insert_all sort_names zs o mode port).

    Variables (f : nat) (stk : list question) (q : question) (c : cache) (ts : tstate).
    Hypothesis Hlim : at_recursion_limit stk = false.
    Hypothesis Hdup : is_duplicate_question stk q = false.
    Hypothesis Hwf : wf_name (q_name q).
    Hypothesis Hany : q_type q <> QT_Wildcard.
    Hypothesis Hnohint : forall x, ~ hint_match hints (q_name q) (q_type q) x.

    Lemma rrn_cached : cache_get c (q_name q) (q_type q) <> [] ->
      rrn (S f) stk q (c, ts) = (Val (ROk (NonAuthoritative (cache_get c (q_name q) (q_type q)) None)), (c, ts)).
    Proof.
      intro Hne. cbn [resolve_recursive_notimeout]. unfold recursive_body. rewrite Hlim, Hdup. unfold rbind at 1.
      rewrite (local_cache_hit stk q (c, ts) Hlim Hdup Hwf Hany Hnohint Hne). reflexivity.
    Qed.

    Lemma rrn_uncached d : cache_get c (q_name q) (q_type q) = [] -> cache_get c (q_name q) RT_CNAME = [] ->
      candidate_nameservers cache cache_get zs (stk ++ [q]) (q_name q) (c, ts) = (Val (Some d), (c, ts)) ->
      rrn (S f) stk q (c, ts) = cloop f (stk ++ [q]) q [] (ns_match_count d) (sort_names (ns_hostnames d)) [] true (c, ts).
    Proof.
      intros Eget Hcn Hd. cbn [resolve_recursive_notimeout]. unfold recursive_body. rewrite Hlim, Hdup. unfold rbind at 1.
      rewrite (local_miss stk q (c, ts) Hlim Hdup Hwf Hany Hnohint Eget Hcn). unfold rbind at 1. rewrite Hd. reflexivity.
    Qed.
  End Begin.
End RMLocal.

(* the entries (data, TTL) SimpleCache holds under a key *)
Lemma sc_upsert_last vals d ttl : In (d, ttl) (sc_upsert vals d ttl).
Proof. unfold sc_upsert. destruct (find_index _ vals); apply in_or_app; right; left; reflexivity. Qed.

Definition sc_vals (c : scache) (k : dname * N) : list (rdata * N) :=
  match alookup sc_key_eqb k c with Some v => v | None => [] end.

Lemma sc_get_vals c n t : t <> QT_Wildcard -> existsb (fun p : N * list N => fst p =? t) qtype_table = false ->
  sc_get c n t = filter (fun r => 0 <? rr_ttl r) (sc_to_rrs (n, t) (sc_vals c (n, t))).
Proof.
  intros H1 H2. unfold sc_get, sc_vals. apply N.eqb_neq in H1. rewrite H1, H2.
  destruct (alookup sc_key_eqb (n, t) c); reflexivity.
Qed.

Lemma sc_get_in c n t x : t <> QT_Wildcard -> existsb (fun p : N * list N => fst p =? t) qtype_table = false ->
  (In x (sc_get c n t) <->
   exists e, In e (sc_vals c (n, t)) /\ 0 < snd e /\
             x = {| rr_name := n; rr_type := t; rr_class := RC_IN; rr_ttl := snd e; rr_data := fst e |}).
Proof.
  intros H1 H2. rewrite (sc_get_vals c n t H1 H2), filter_In. unfold sc_to_rrs. rewrite in_map_iff. split.
  - intros [(e & <- & He) Hpos]. apply N.ltb_lt in Hpos. exists e. auto.
  - intros (e & He & Hpos & ->). split; [exists e; auto|apply N.ltb_lt; exact Hpos].
Qed.

Lemma nth_error_swap_remove {A} (e : A) : forall i l, In e l -> In e (swap_remove_at i l) \/ nth_error l i = Some e.
Proof.
  induction i as [|i IH]; intros [|y l] H; try destruct H; cbn [swap_remove_at nth_error].
  - right. subst. reflexivity.
  - left. destruct (exists_last (l := l)) as (l' & z & ->); [intro E; subst; destruct H|].
    rewrite rev_app_distr. cbn [rev app]. rewrite removelast_last.
    apply in_app_or in H as [H|[H|[]]]; [right; exact H|left; exact H].
  - subst. left. left. reflexivity.
  - destruct (IH l H) as [H1|H1]; [left; right; exact H1|right; exact H1].
Qed.

Lemma find_index_nth {A} (p : A -> bool) : forall l i y, find_index p l = Some i -> nth_error l i = Some y -> p y = true.
Proof.
  induction l as [|x l IH]; intros i y H Hn; cbn [find_index] in H; [discriminate|].
  destruct (p x) eqn:E.
  - inversion H; subst. cbn in Hn. inversion Hn; subst. exact E.
  - destruct (find_index p l) as [j|] eqn:Ej; [|discriminate]. cbn in H. inversion H; subst.
    cbn in Hn. exact (IH j y eq_refl Hn).
Qed.

(* an entry survives an upsert, or is replaced by the new entry of the same data *)
Lemma sc_upsert_keep vals d ttl e : In e vals -> In e (sc_upsert vals d ttl) \/ fst e = d.
Proof.
  intro H. unfold sc_upsert. destruct (find_index _ vals) as [i|] eqn:Ei.
  - destruct (nth_error_swap_remove e i vals H) as [H1|H1].
    + left. apply in_or_app. left. exact H1.
    + right. pose proof (find_index_nth _ _ _ _ Ei H1) as Hp. cbv beta in Hp. apply rdata_eqb_eq in Hp. exact Hp.
  - left. apply in_or_app. left. exact H.
Qed.

Lemma sc_vals_insert c r k :
  sc_vals (sc_insert c r) k =
  if (0 <? rr_ttl r) && sc_key_eqb k (rr_name r, rr_type r)
  then sc_upsert (sc_vals c k) (rr_data r) (rr_ttl r)
  else sc_vals c k.
Proof.
  unfold sc_insert. destruct (0 <? rr_ttl r); [|reflexivity]. cbn [andb].
  destruct (sc_key_eqb k (rr_name r, rr_type r)) eqn:Ek.
  - apply sc_key_eqb_eq in Ek. subst k. unfold sc_vals at 2.
    destruct (alookup sc_key_eqb (rr_name r, rr_type r) c) as [old|] eqn:El.
    + unfold sc_vals. rewrite (alookup_areplace_same sc_key_eqb _ old _ _ El). reflexivity.
    + unfold sc_vals. rewrite (alookup_app_new sc_key_eqb sc_key_eqb_eq _ _ _ El). reflexivity.
  - assert (Hne : k <> (rr_name r, rr_type r)).
    { intro E. apply sc_key_eqb_eq in E. congruence. }
    unfold sc_vals. destruct (alookup sc_key_eqb (rr_name r, rr_type r) c) as [old|].
    + rewrite (alookup_areplace_other sc_key_eqb sc_key_eqb_eq) by exact Hne. reflexivity.
    + rewrite (alookup_app_other sc_key_eqb sc_key_eqb_eq) by exact Hne. reflexivity.
Qed.

(* a positive entry read after one insert was there before, or is the inserted record *)
Lemma sc_insert_sound c r k e : In e (sc_vals (sc_insert c r) k) ->
  In e (sc_vals c k) \/ (k = (rr_name r, rr_type r) /\ e = (rr_data r, rr_ttl r) /\ 0 < rr_ttl r).
Proof.
  rewrite sc_vals_insert. destruct (0 <? rr_ttl r) eqn:Ht; [|left; assumption]. cbn [andb].
  destruct (sc_key_eqb k (rr_name r, rr_type r)) eqn:Ek; [|left; assumption].
  intro H. apply in_sc_upsert in H as [H| ->]; [left; exact H|].
  right. apply sc_key_eqb_eq in Ek. apply N.ltb_lt in Ht. auto.
Qed.

Lemma sc_insert_mono c r k e : In e (sc_vals c k) -> 0 < snd e ->
  exists e', In e' (sc_vals (sc_insert c r) k) /\ fst e' = fst e /\ 0 < snd e'.
Proof.
  intros H Hpos. rewrite sc_vals_insert. destruct (0 <? rr_ttl r) eqn:Ht; [|exists e; auto]. cbn [andb].
  destruct (sc_key_eqb k (rr_name r, rr_type r)); [|exists e; auto].
  destruct (sc_upsert_keep _ (rr_data r) (rr_ttl r) e H) as [H1|H1]; [exists e; auto|].
  exists (rr_data r, rr_ttl r). split; [apply sc_upsert_last|]. split; [symmetry; exact H1|apply N.ltb_lt; exact Ht].
Qed.

Lemma sc_insert_all_sound : forall rrs c k e, In e (sc_vals (sc_insert_all c rrs) k) ->
  In e (sc_vals c k) \/ exists r, In r rrs /\ k = (rr_name r, rr_type r) /\ e = (rr_data r, rr_ttl r) /\ 0 < rr_ttl r.
Proof.
  unfold sc_insert_all. induction rrs as [|r rrs IH]; intros c k e H; cbn [fold_left] in H; [left; exact H|].
  destruct (IH _ _ _ H) as [H1|(r' & Hr' & H1)].
  - destruct (sc_insert_sound _ _ _ _ H1) as [H2|H2]; [left; exact H2|]. right. exists r. split; [left; reflexivity|exact H2].
  - right. exists r'. split; [right; exact Hr'|exact H1].
Qed.

Lemma sc_insert_all_mono : forall rrs c k e, In e (sc_vals c k) -> 0 < snd e ->
  exists e', In e' (sc_vals (sc_insert_all c rrs) k) /\ fst e' = fst e /\ 0 < snd e'.
Proof.
  unfold sc_insert_all. induction rrs as [|r rrs IH]; intros c k e H Hpos; cbn [fold_left]; [exists e; auto|].
  destruct (sc_insert_mono c r k e H Hpos) as (e1 & H1 & E1 & P1).
  destruct (IH _ _ _ H1 P1) as (e2 & H2 & E2 & P2). exists e2. split; [exact H2|]. split; [congruence|exact P2].
Qed.

Lemma sc_insert_all_complete : forall rrs c r, In r rrs -> 0 < rr_ttl r ->
  exists e, In e (sc_vals (sc_insert_all c rrs) (rr_name r, rr_type r)) /\ fst e = rr_data r /\ 0 < snd e.
Proof.
  induction rrs as [|x rrs IH]; intros c r Hin Hpos; [destruct Hin|].
  change (sc_insert_all c (x :: rrs)) with (sc_insert_all (sc_insert c x) rrs).
  destruct Hin as [->|Hin]; [|apply IH; assumption].
  assert (H0 : In (rr_data r, rr_ttl r) (sc_vals (sc_insert c r) (rr_name r, rr_type r))).
  { rewrite sc_vals_insert. apply N.ltb_lt in Hpos. rewrite Hpos.
    replace (sc_key_eqb (rr_name r, rr_type r) (rr_name r, rr_type r)) with true by (symmetry; apply sc_key_eqb_eq; reflexivity).
    cbn [andb]. apply sc_upsert_last. }
  destruct (sc_insert_all_mono rrs _ _ _ H0 Hpos) as (e' & H1 & E1 & P1). exists e'. auto.
Qed.

Lemma sc_empty_get n t : sc_get sc_empty n t = [].
Proof.
  unfold sc_get, sc_empty. destruct (t =? QT_Wildcard); [reflexivity|]. destruct (existsb _ qtype_table); reflexivity.
Qed.

Lemma sc_get_a_sound rrs n x :
  In x (sc_get (sc_insert_all sc_empty rrs) n RT_A) ->
  rr_name x = n /\ rr_type x = RT_A /\ rr_class x = RC_IN /\
  exists r, In r rrs /\ rr_name r = n /\ rr_type r = RT_A /\ rr_data r = rr_data x.
Proof.
  intro H. apply sc_get_in in H as (e & He & _ & ->); [|discriminate|reflexivity]. repeat (split; [reflexivity|]).
  destruct (sc_insert_all_sound _ _ _ _ He) as [[]|(r & Hr & Hk & -> & _)]. inversion Hk. exists r. auto.
Qed.

Lemma sc_get_a_complete rrs r :
  In r rrs -> rr_type r = RT_A -> 0 < rr_ttl r -> sc_get (sc_insert_all sc_empty rrs) (rr_name r) RT_A <> [].
Proof.
  intros Hin Ht Hpos E. destruct (sc_insert_all_complete rrs sc_empty r Hin Hpos) as (e & He & _ & P). rewrite Ht in He.
  eapply in_nil. rewrite <- E. apply sc_get_in; [discriminate|reflexivity|]. exists e. auto.
Qed.

(* [ts'] is [ts] after one UDP exchange with [a] about [q], and nothing else *)
Definition one_udp (a : addr) (q : question) (ts ts' : tstate) : Prop :=
  exists e, ts_rlog ts' = e :: ts_rlog ts /\ x_kind e = KUdp /\ x_addr e = a /\ x_question e = q /\ x_rd e = false.

(* [delivers] of RecursiveCorrect.v, saying also what is logged *)
Definition delivers_log (o : oracle) (u : universe) (port : N) (q : question) : Prop :=
  forall a m ts, ts_elapsed ts <= BUDGET_MS -> serve u a q = Some m ->
    response_matches_request (make_request q false) m = true ->
    exists ts', query_nameserver o (a, port) q false ts = (Val (Some m), ts') /\ ts_elapsed ts' <= BUDGET_MS
                /\ one_udp (a, port) q ts ts'.

Lemma delivers_log_delivers o u port q : delivers_log o u port q -> delivers o u port q.
Proof. intros H a m ts H1 H2 H3. destruct (H a m ts H1 H2 H3) as (ts' & E & Hb & _). eauto. Qed.

Theorem universe_oracle_delivers_log u port q :
  wf_question q ->
  (forall req, encode (make_request q false) = Ok req -> llen req <= 512) ->
  serve_fits u q ->
  delivers_log (universe_oracle u []) u port q.
Proof.
  intros Hq Hreq Hfits a m ts Hbud Hs Hm.
  destruct (universe_oracle_exchange u port q Hq Hreq Hfits a m ts Hbud Hs Hm) as (r & E).
  eexists. split; [exact E|]. split; [exact Hbud|]. eexists. split; [reflexivity|]. cbn. auto.
Qed.

Lemma perm_ne {A} (s : list A -> list A) l : Permutation (s l) l -> l <> [] -> s l <> [].
Proof. intros P Hne E. rewrite E in P. apply Permutation_nil in P. exact (Hne P). Qed.

Lemma pop_last_some {A} (l : list A) : l <> [] -> exists x rest, pop_last l = Some (x, rest) /\ In x l.
Proof.
  induction l as [|y t IH]; [congruence|]. intros _. cbn [pop_last].
  destruct t as [|z t'].
  - exists y, []. split; [reflexivity|left; reflexivity].
  - destruct IH as (x & rest & E & Hin); [discriminate|]. rewrite E. exists x, (y :: rest). split; [reflexivity|right; exact Hin].
Qed.

Lemma question_eqb_true a b : question_eqb a b = true -> q_name a = q_name b /\ q_type a = q_type b.
Proof.
  unfold question_eqb. intro H. apply andb_prop in H as [H _]. apply andb_prop in H as [H1 H2].
  apply dname_eqb_eq in H1. apply N.eqb_eq in H2. auto.
Qed.

Lemma limit_false (l : list question) : (length l < 32)%nat -> at_recursion_limit l = false.
Proof. intro H. unfold at_recursion_limit, llen, RECURSION_LIMIT. apply N.eqb_neq. lia. Qed.

(* a question about a name that no question under way is about is not a duplicate *)
Lemma not_dup_names stk q : (forall s, In s stk -> q_name s <> q_name q) -> is_duplicate_question stk q = false.
Proof.
  intro H. unfold is_duplicate_question. destruct (existsb (question_eqb q) stk) eqn:E; [|reflexivity]. exfalso.
  apply existsb_exists in E as (s & Hs & Hq). apply question_eqb_true in Hq as [H1 _]. exact (H s Hs (eq_sym H1)).
Qed.

(* from a finished resolve_recursive_notimeout on a fresh transport state to [resolve] and its log *)
Lemma resolve_of_rrn cache cache_get cache_insert_all sort_names mode port zs o fuel q (c : cache) x c' ts' es :
  resolve_recursive_notimeout cache cache_get cache_insert_all sort_names zs o mode port fuel [] q (c, tstate_init)
  = (Val (ROk x), (c', ts')) ->
  ts_rlog ts' = rev es ++ ts_rlog tstate_init ->
  resolve cache cache_get cache_insert_all sort_names (ModeRecursive mode) port zs o fuel q (c, tstate_init) = (Ok x, (c', ts'))
  /\ ts_log ts' = es.
Proof.
  intros E Hlog. split; [unfold resolve, resolve_recursive; rewrite E; reflexivity|].
  unfold ts_log. rewrite Hlog. cbn [tstate_init ts_rlog]. rewrite app_nil_r. apply rev_involutive.
Qed.

(* the address records (of either family) a referral holds for the host [h] of the cut *)
Lemma referral_addr_in z c names g h :
  In g (uz_glue z ++ uz_rrs z) -> rr_name g = h -> ip_type (rr_type g) -> In h names ->
  (exists r, In r (uz_cuts z) /\ rr_name r = c /\ is_ns_rr r = Some h) -> In g (referral_rrs z c names).
Proof.
  intros Hg Hn Ht Hnames (r & Hr & Hrc & Hrh). unfold referral_rrs. apply in_or_app. right. apply filter_In. split.
  - unfold referral. cbn [sr_additional]. apply filter_In. split; [exact Hg|].
    apply andb_true_intro. split.
    + unfold is_addr_rr. destruct Ht as [E|E]; rewrite E; reflexivity.
    + apply existsb_exists. exists h. split; [|apply dname_eqb_eq; exact Hn].
      apply in_flat_map. exists r. split.
      * apply filter_In. split; [exact Hr|apply dname_eqb_eq; exact Hrc].
      * change (ns_target r) with (is_ns_rr r). rewrite Hrh. left. reflexivity.
  - unfold ns_glue_filter, is_ns_rr. destruct Ht as [E|E]; rewrite E; cbn [N.eqb orb andb]; rewrite Hn; apply set_mem_in; exact Hnames.
Qed.

Lemma referral_addr_from z c names x : In x (referral_rrs z c names) -> rr_type x = RT_A -> In x (uz_glue z ++ uz_rrs z).
Proof.
  intros Hin Ht. apply in_app_or in Hin as [Hin|Hin]; apply filter_In in Hin as [Hin Hf].
  - apply ns_glue_filter_true in Hf. destruct Hf as [(h & [Hnst _] & _)|(_ & Hfalse & _)]; [|discriminate].
    rewrite Hnst in Ht. discriminate.
  - unfold referral in Hin. cbn [sr_additional] in Hin. apply filter_In in Hin. exact (proj1 Hin).
Qed.

Section Depth1.
  Variable cache : Type.
  Variable cache_get : cache -> dname -> N -> list rr.
  Variable cache_insert_all : cache -> list rr -> cache.
  Variable c0 : cache.
  Hypothesis K_empty : forall n t, cache_get c0 n t = [].

  Variable sort_names : list dname -> list dname.

  Variable zs : zones.
  Variable hints : list rr.
  Hypothesis Hz : hints_zones zs hints.
  Hypothesis Hh : Forall hint_ok hints.

  Variable o : oracle.
  Variable port : N.
  Variable q : question.

  Hypothesis Hq_wf : wf_name (q_name q).
  Hypothesis Hq_any : q_type q <> QT_Wildcard.
  (* the hints do not answer the question themselves *)
  Hypothesis Hq_nohint : forall x, ~ hint_match hints (q_name q) (q_type q) x.
  Hypothesis Hroot_ns : exists x, hint_match hints root_domain RT_NS x.

  Notation rrn := (resolve_recursive_notimeout cache cache_get cache_insert_all sort_names zs o OnlyV4 port).
  Notation cloop := (candidate_loop cache cache_get cache_insert_all sort_names zs o OnlyV4 port).

  Lemma q_not_dup name t x : hint_match hints name t x \/ (name <> q_name q) ->
    is_duplicate_question [q] (mkq name t RC_IN) = false.
  Proof.
    intro H. unfold is_duplicate_question. cbn [existsb]. rewrite orb_false_r.
    destruct (question_eqb (mkq name t RC_IN) q) eqn:E; [|reflexivity]. exfalso.
    apply question_eqb_true in E as [E1 E2]. cbn [mkq q_name q_type] in E1, E2. subst name t.
    destruct H as [H|H]; [exact (Hq_nohint x H)|congruence].
  Qed.

  (* the resolution begins at the root nameservers of the hints *)
  Lemma start f ts :
    exists rrs, rrs <> [] /\ (forall x, In x rrs <-> hint_match hints root_domain RT_NS x) /\
      rrn (S f) [] q (c0, ts) = cloop f [q] q [] 1 (sort_names (ns_hostnames_of rrs)) [] true (c0, ts).
  Proof.
    destruct Hroot_ns as [x0 Hx0]. destruct (proj1 Hq_wf) as (front & Hl & _).
    destruct (cand_ns_walk cache cache_get zs hints Hz (hint_oks_shape _ Hh) [q] c0 ts x0 eq_refl
                (q_not_dup root_domain RT_NS x0 (or_introl Hx0)) Hx0 front)
      as (d & Hc & Hne & [(Hdn & rrs & Eh & Hin)|(_ & _ & _ & _ & _ & Hns & _)]).
    { rewrite <- Hl. exact (proj1 Hq_wf). }
    { intros pre l front' _ n _. split; [intros _; apply K_empty|intro H; destruct (H (K_empty _ _))]. }
    2:{ destruct (Hns (K_empty _ _)). }
    exists rrs. split; [intros ->; exact (Hne Eh)|]. split; [exact Hin|].
    rewrite (rrn_uncached cache cache_get zs hints Hz cache_insert_all sort_names o OnlyV4 port f [] q c0 ts
               eq_refl eq_refl Hq_wf Hq_any Hq_nohint d (K_empty _ _) (K_empty _ _)).
    - unfold ns_match_count. rewrite Hdn, Eh. reflexivity.
    - unfold candidate_nameservers. rewrite Hl. exact Hc.
  Qed.

End Depth1.

(* the root hints: NS records of the root and A records; at least one NS record; every nameserver
   they name has an A record among them; at each of those addresses a server listens whose closest
   zone for the question name is the root zone [zroot]; and the hints themselves hold no record that
   answers the question (the resolver would return it, non-authoritatively, without asking anybody) *)
Definition hints_for (u : universe) (zroot : uzone) (hints : list rr) (q : question) : Prop :=
  Forall hint_ok hints
  /\ (exists r, In r hints /\ rr_type r = RT_NS)
  /\ (forall r h, In r hints -> rr_type r = RT_NS -> rr_data r = RD_Name h ->
        wf_name h /\ exists g, In g hints /\ labels (rr_name g) = labels h /\ rr_type g = RT_A)
  /\ (forall g a, In g hints -> rr_type g = RT_A -> rr_data g = RD_A a -> serves_owner u (inl a) zroot q)
  /\ (forall r, In r hints -> labels (rr_name r) = labels (q_name q) -> rtype_matches (rr_type r) (q_type q) = false).

(* the question: well formed, neither for CNAME nor for ANY; its request fits a datagram and the
   replies of the universe's servers to it are well-formed messages of at most 512 octets *)
Definition plain_question (u : universe) (q : question) : Prop :=
  wf_question q /\ q_type q <> RT_CNAME /\ q_type q <> QT_Wildcard
  /\ (forall req, encode (make_request q false) = Ok req -> llen req <= 512)
  /\ serve_fits u q.

(* the zone [z] of the universe owns the question name -- longest apex, no delegation point on the
   way -- and holds no alias for it; its records are of known types and its SOA is an SOA at its apex *)
Definition answering_zone (u : universe) (z : uzone) (q : question) : Prop :=
  owns_plainly u z q
  /\ Forall (fun r => rr_is_unknown r = false) (zone_data z)
  /\ rr_type (uz_soa z) = RT_SOA /\ rr_name (uz_soa z) = uz_apex z.

(* [zc] is delegated from the root zone on the way to the question name, glue-complete for v4:
   the root zone's delegation point on the way to the name is the apex of [zc]; the cut records are
   NS records; the question name owns nothing in the root zone's glue or data (else: the glue
   shortcut, finding F11); every nameserver of the delegation has a well-formed name and an A record
   with a positive TTL in the root zone's glue or data; at every address of such a record, and at
   every address the hints hold for such a host, a server listens whose closest zone for the
   question name is [zc] *)
Definition delegated_from_root (u : universe) (zroot zc : uzone) (hints : list rr) (q : question) : Prop :=
  cut_owner zroot (q_name q) = Some (uz_apex zc)
  /\ Forall (fun r => exists h, is_ns_rr r = Some h) (uz_cuts zroot)
  /\ 1 < llen (labels (uz_apex zc))
  /\ (forall r, In r (uz_glue zroot ++ uz_rrs zroot) -> rr_name r <> q_name q)
  /\ (forall h, (exists r, In r (uz_cuts zroot) /\ rr_name r = uz_apex zc /\ is_ns_rr r = Some h) ->
        wf_name h /\
        (exists g, In g (uz_glue zroot ++ uz_rrs zroot) /\ rr_name g = h /\ rr_type g = RT_A /\ 0 < rr_ttl g) /\
        (forall g, In g (uz_glue zroot ++ uz_rrs zroot) -> rr_name g = h -> rr_type g = RT_A ->
           exists a, rr_data g = RD_A a /\ serves_owner u (inl a) zc q) /\
        (forall g a, In g hints -> labels (rr_name g) = labels h -> rr_type g = RT_A -> rr_data g = RD_A a ->
           serves_owner u (inl a) zc q)).

(* one logged exchange: a UDP query about [q] to port [port] of [a] *)
Definition query_to (port : N) (q : question) (a : N) (e : exchange) : Prop :=
  x_kind e = KUdp /\ x_addr e = (inl a, port) /\ x_question e = q /\ x_rd e = false.


(* the records a referral from [z] to [zc] puts into the cache *)
Definition referral_ins (z zc : uzone) (names : list dname) : list rr := referral_rrs z (uz_apex zc) names.

(* The induction is over the state of the candidate loop:
     match_count   below the depth of the next zone of the chain (at the last zone: not above its depth);
     candidates    non-empty, each resolving LOCALLY (the fast pass: hints or cache) to the address
                   of a server of the zone -- so the first candidate popped is always used, the slow
                   pass and next_candidate_hostnames are never entered;
     cache         the start cache after the insert_all of every referral so far;
     stack         [q] throughout.
   The cache is abstract, with three laws stated over HISTORIES of insert_all (fold_left):
     K_empty      the start cache answers nothing;
     K_sound      an A record read at a name after a history agrees in name, type and data with a
                  record some insert_all of the history was given (nothing stale, nothing foreign);
     K_complete   an A record with TTL > 0 given to the LAST insert_all of a history makes the read
                  at its name non-empty.
   No monotonicity law is needed: the glue of the next zone's hosts is inserted by the hop immediately
   before the one that reads it. *)
Definition hist_laws (cache : Type) (cache_get : cache -> dname -> N -> list rr)
           (cache_insert_all : cache -> list rr -> cache) (c0 : cache) : Prop :=
  (forall n t, cache_get c0 n t = [])
  /\ (forall ls n x, In x (cache_get (fold_left cache_insert_all ls c0) n RT_A) ->
        rr_name x = n /\ rr_type x = RT_A /\ rr_class x = RC_IN /\
        exists r, In r (concat ls) /\ rr_name r = n /\ rr_type r = RT_A /\ rr_data r = rr_data x)
  /\ (forall ls rrs r, In r rrs -> rr_type r = RT_A -> 0 < rr_ttl r ->
        cache_get (fold_left cache_insert_all (ls ++ [rrs]) c0) (rr_name r) RT_A <> []).

Section Walk.
  Variable cache : Type.
  Variable cache_get : cache -> dname -> N -> list rr.
  Variable cache_insert_all : cache -> list rr -> cache.
  Variable c0 : cache.

  Definition hist (ls : list (list rr)) : cache := fold_left cache_insert_all ls c0.

  Hypothesis K : hist_laws cache cache_get cache_insert_all c0.
  Let K_empty := proj1 K.
  Let K_sound := proj1 (proj2 K).
  Let K_complete := proj2 (proj2 K).

  Variable sort_names : list dname -> list dname.
  Hypothesis Hsort : forall l, Permutation (sort_names l) l.

  Variable zs : zones.
  Variable hints : list rr.
  Hypothesis Hz : hints_zones zs hints.
  Hypothesis Hh : Forall hint_ok hints.

  Variable o : oracle.
  Variable port : N.
  Variable u : universe.
  Variable q : question.

  Hypothesis Hdel : delivers_log o u port q.
  Hypothesis Hq_wf : wf_name (q_name q).
  Hypothesis Hq_cname : q_type q <> RT_CNAME.
  Hypothesis Hq_any : q_type q <> QT_Wildcard.
  Hypothesis Hq_nohint : forall x, ~ hint_match hints (q_name q) (q_type q) x.

  Notation rrn := (resolve_recursive_notimeout cache cache_get cache_insert_all sort_names zs o OnlyV4 port).
  Notation cloop := (candidate_loop cache cache_get cache_insert_all sort_names zs o OnlyV4 port).
  Notation rhi := (resolve_hostname_to_ip cache cache_get zs OnlyV4).

  (* [zc] is delegated from [zp] on the way to the question name, glue-complete for v4; [prev] are
     the zones of the chain above [zp] *)
  Definition glink (prev : list uzone) (zp zc : uzone) : Prop :=
    cut_owner zp (q_name q) = Some (uz_apex zc)
    /\ Forall (fun r => exists h, is_ns_rr r = Some h) (uz_cuts zp)
    /\ (forall r, In r (uz_glue zp ++ uz_rrs zp) -> rr_name r <> q_name q)
    /\ (forall h, (exists r, In r (uz_cuts zp) /\ rr_name r = uz_apex zc /\ is_ns_rr r = Some h) ->
          wf_name h /\
          (exists g, In g (uz_glue zp ++ uz_rrs zp) /\ rr_name g = h /\ rr_type g = RT_A /\ 0 < rr_ttl g) /\
          (forall z' g, In z' (zp :: prev) -> In g (uz_glue z' ++ uz_rrs z') -> rr_name g = h -> rr_type g = RT_A ->
             exists a, rr_data g = RD_A a /\ serves_owner u (inl a) zc q) /\
          (forall g a, In g hints -> labels (rr_name g) = labels h -> rr_type g = RT_A -> rr_data g = RD_A a ->
             serves_owner u (inl a) zc q)).

  (* the chain from [z] downwards, entered with match count [mc]: each referral is deeper than the
     match count in use; the last zone answers the question *)
  Fixpoint gchain (prev : list uzone) (mc : N) (z : uzone) (rest : list uzone) : Prop :=
    match rest with
    | [] => answering_zone u z q /\ mc <= llen (labels (uz_apex z))
    | zc :: rest' => glink prev z zc /\ mc < llen (labels (uz_apex zc))
                     /\ gchain (z :: prev) (llen (labels (uz_apex zc))) zc rest'
    end.

  Lemma hist_snoc ls rrs : hist (ls ++ [rrs]) = cache_insert_all (hist ls) rrs.
  Proof. unfold hist. rewrite fold_left_app. reflexivity. Qed.

  (* the candidate [h] resolves locally, in the cache [c], to the address of a server of [z] *)
  Definition cand_ok (z : uzone) (c : cache) (h : dname) : Prop :=
    forall rec ts, exists a, rhi rec [q] true h (c, ts) = (Val (Some (inl a)), (c, ts)) /\ serves_owner u (inl a) z q.

  (* every address record the history inserted is glue or data of a zone of [prev] *)
  Definition hist_ok (prev : list uzone) (ls : list (list rr)) : Prop :=
    forall x, In x (concat ls) -> rr_type x = RT_A -> exists z', In z' prev /\ In x (uz_glue z' ++ uz_rrs z').

  Lemma hist_ok_snoc prev z zc ls names : hist_ok prev ls -> hist_ok (z :: prev) (ls ++ [referral_ins z zc names]).
  Proof.
    intros H x Hx Ht. rewrite concat_app in Hx. cbn [concat] in Hx. rewrite app_nil_r in Hx.
    apply in_app_or in Hx as [Hx|Hx].
    - destruct (H x Hx Ht) as (z' & Hz' & Hin). exists z'. split; [right; exact Hz'|exact Hin].
    - exists z. split; [left; reflexivity|]. exact (referral_addr_from z (uz_apex zc) names x Hx Ht).
  Qed.

  (* after the referral from [z] to [zc], every nameserver host of the delegation resolves in the
     fast pass: from the hints, or from the glue just cached *)
  Lemma cand_after_referral prev z zc ls names h :
    glink prev z zc -> hist_ok prev ls ->
    (forall h', In h' names <-> exists r, In r (uz_cuts z) /\ rr_name r = uz_apex zc /\ is_ns_rr r = Some h') -> In h names ->
    cand_ok zc (hist (ls ++ [referral_ins z zc names])) h.
  Proof.
    intros (Hcut & Hnsty & Hnoglue & Hglue) Hhist Hnames Hin rec ts.
    set (ins := referral_ins z zc names). set (c := hist (ls ++ [ins])).
    pose proof (proj1 (Hnames h) Hin) as Hhost.
    destruct (Hglue h Hhost) as (Hwf & (g & Hg & Hgn & Hgt & Hgttl) & Hgl3 & Hgl4).
    assert (Hdup : is_duplicate_question [q] (mkq h RT_A RC_IN) = false).
    { apply (q_not_dup hints q Hq_nohint h RT_A g). right. intro E. apply (Hnoglue g Hg). congruence. }
    apply (rhi_v4 cache cache_get zs hints Hz (hint_oks_shape _ Hh) rec [q] h (c, ts)
             (fun a => serves_owner u (inl a) zc q) eq_refl Hdup Hwf Hgl4).
    right. cbn [fst]. split; [rewrite <- Hgn; apply K_complete; try assumption; apply (referral_addr_in z (uz_apex zc) names g h); try assumption; left; exact Hgt|].
    intros x Hx. apply K_sound in Hx as (H1 & H2 & H3 & r & Hr & Hrn & Hrt & Hrd). repeat (split; [assumption|]).
    destruct (hist_ok_snoc prev z zc ls names Hhist r Hr Hrt) as (z' & Hz' & Hrg).
    destruct (Hgl3 z' r Hz' Hrg Hrn Hrt) as (a & Ha & Hsv). exists a. split; [congruence|exact Hsv].
  Qed.

  (* THE INDUCTION.  The loop stands at the zone [z] of the chain -- candidates that resolve in the
     fast pass to servers of [z], a match count not above the depth of [z], the cache of the
     referrals so far -- with enough fuel for the zones still to visit.  Then it returns exactly the
     authoritative answer, having logged one exchange per zone of [z :: rest], in order. *)
  Lemma chain_loop : forall rest prev z ls mc cands f ts,
    gchain prev mc z rest -> hist_ok prev ls ->
    cands <> [] -> (forall h, In h cands -> cand_ok z (hist ls) h) ->
    ts_elapsed ts <= BUDGET_MS -> (length rest < f)%nat ->
    exists c' ts' es,
      cloop f [q] q [] mc cands [] true (hist ls, ts)
      = (Val (ROk (NonAuthoritative (aa_rrs (auth_answer u q)) (aa_soa (auth_answer u q)))), (c', ts'))
      /\ ts_rlog ts' = rev es ++ ts_rlog ts
      /\ Forall2 (fun z e => exists a, query_to port q a e /\ serves_owner u (inl a) z q) (z :: rest) es.
  Proof.
    induction rest as [|zc rest IH]; intros prev z ls mc cands f ts Hch Hhist Hne Hcok Hbud Hf;
      (destruct f as [|f]; [cbn [length] in Hf; lia|]); cbn [gchain length] in Hch, Hf;
      destruct (pop_last_some _ Hne) as (cand & rest1 & Ep & Hc);
      destruct (Hcok cand Hc (rrn f) ts) as (a & Eh & Hsrv); rewrite cloop_S.
    - (* the last zone: the answer *)
      destruct Hch as ((Hown & Hknown & Hsoat & Hsoan) & Hmc).
      destruct (last_hop cache cache_get cache_insert_all sort_names zs o OnlyV4 port one_udp u z q
                  (rrn f) (cloop f [q] q []) [q] mc cands [] true (hist ls, ts) cand rest1 (inl a) (hist ls, ts)
                  Hdel Hown Hsrv Hq_cname Hq_any Hknown Hsoat Hsoan Hmc Ep Eh Hbud)
        as (ts' & E & _ & (e & Hlog & Hk & Ha & Hqe & Hrd)).
      eexists. exists ts', [e]. split; [exact E|]. split; [cbn [snd] in Hlog; rewrite Hlog; reflexivity|].
      constructor; [|constructor]. exists a. unfold query_to. auto.
    - (* a zone with a delegation on the way: the referral, then the rest of the chain *)
      destruct Hch as (Hlink & Hmc & Hrest).
      pose proof Hlink as (Hcut & Hnsty & Hnoglue & Hglue).
      destruct (referral_hop cache cache_get cache_insert_all sort_names zs o OnlyV4 port one_udp u (inl a) z (uz_apex zc) q
                  mc (hist ls, ts) Hdel Hsrv Hcut Hnsty Hmc Hnoglue Hbud)
        as (names & ts1 & Hnames & Hnn & Hbud1 & (e & Hlog & Hk & Ha & Hqe & Hrd) & E1).
      cbn [fst snd] in E1, Hlog. rewrite (E1 _ _ _ _ _ _ _ _ _ Ep Eh). clear E1.
      fold (referral_ins z zc names). rewrite <- hist_snoc. apply (perm_ne _ _ (Hsort names)) in Hnn.
      destruct (IH (z :: prev) zc (ls ++ [referral_ins z zc names]) (llen (labels (uz_apex zc))) (sort_names names) f ts1
                  Hrest (hist_ok_snoc prev z zc ls names Hhist) Hnn) as (c' & ts' & es & E & Hlog' & Hes).
      { intros h Hin. apply (Permutation_in _ (Hsort _)) in Hin.
        exact (cand_after_referral prev z zc ls names h Hlink Hhist Hnames Hin). }
      { exact Hbud1. }
      { lia. }
      exists c', ts', (e :: es). split; [exact E|]. split.
      + rewrite Hlog', Hlog. cbn [rev]. rewrite <- app_assoc. reflexivity.
      + constructor; [|exact Hes]. exists a. unfold query_to. auto.
  Qed.

  (* from the start: the root hints, then the chain *)
  Variable zroot : uzone.
  Hypothesis Hroot_ns : exists x, hint_match hints root_domain RT_NS x.
  Hypothesis Hroot_addr : forall r h, In r hints -> rr_type r = RT_NS -> rr_data r = RD_Name h ->
    wf_name h /\ exists g, In g hints /\ labels (rr_name g) = labels h /\ rr_type g = RT_A.
  Hypothesis Hroot_srv : forall g a, In g hints -> rr_type g = RT_A -> rr_data g = RD_A a ->
    serves_owner u (inl a) zroot q.

  Theorem chain_resolve rest f ts :
    gchain [] 1 zroot rest -> ts_elapsed ts <= BUDGET_MS -> (length rest < f)%nat ->
    exists c' ts' es,
      rrn (S f) [] q (c0, ts)
      = (Val (ROk (NonAuthoritative (aa_rrs (auth_answer u q)) (aa_soa (auth_answer u q)))), (c', ts'))
      /\ ts_rlog ts' = rev es ++ ts_rlog ts
      /\ Forall2 (fun z e => exists a, query_to port q a e /\ serves_owner u (inl a) z q) (zroot :: rest) es.
  Proof.
    intros Hch Hbud Hf.
    destruct (start cache cache_get cache_insert_all c0 K_empty sort_names zs hints Hz Hh o port q
                Hq_wf Hq_any Hq_nohint Hroot_ns f ts) as (rrs & Hne & Hin & ->).
    pose proof (hint_ns_hosts hints (hint_oks_shape _ Hh) rrs Hne (fun x Hx => proj1 (Hin x) Hx)) as Hhosts.
    pose proof (perm_ne _ _ (Hsort _) Hhosts) as Hs.
    apply (chain_loop rest [] zroot [] 1 (sort_names (ns_hostnames_of rrs)) f ts Hch); try assumption.
    - intros x Hx. destruct Hx.
    - intros h Hc rec ts0. apply (Permutation_in _ (Hsort _)) in Hc.
      apply (hint_host_v4 cache cache_get zs hints Hz (hint_oks_shape _ Hh) rec [q] (c0, ts0) rrs h
               (fun a => serves_owner u (inl a) zroot q) eq_refl); try assumption.
      intros x Hx. exact (q_not_dup hints q Hq_nohint h RT_A x (or_introl Hx)).
  Qed.
End Walk.

Lemma sc_insert_all_app c l1 l2 : sc_insert_all c (l1 ++ l2) = sc_insert_all (sc_insert_all c l1) l2.
Proof. unfold sc_insert_all. apply fold_left_app. Qed.

Lemma sc_after_concat : forall ls c, fold_left sc_insert_all ls c = sc_insert_all c (concat ls).
Proof.
  induction ls as [|l ls IH]; intro c; cbn [fold_left concat]; [reflexivity|].
  rewrite IH, sc_insert_all_app. reflexivity.
Qed.

Lemma sc_hist_sound ls n x :
  In x (sc_get (fold_left sc_insert_all ls sc_empty) n RT_A) ->
  rr_name x = n /\ rr_type x = RT_A /\ rr_class x = RC_IN /\
  exists r, In r (concat ls) /\ rr_name r = n /\ rr_type r = RT_A /\ rr_data r = rr_data x.
Proof. rewrite sc_after_concat. apply sc_get_a_sound. Qed.

Lemma sc_hist_complete ls rrs r : In r rrs -> rr_type r = RT_A -> 0 < rr_ttl r ->
  sc_get (fold_left sc_insert_all (ls ++ [rrs]) sc_empty) (rr_name r) RT_A <> [].
Proof.
  intros Hin Ht Hpos. rewrite sc_after_concat. apply sc_get_a_complete; [|exact Ht|exact Hpos].
  rewrite concat_app. apply in_or_app. right. cbn [concat]. rewrite app_nil_r. exact Hin.
Qed.


(* the order of hook H5 is a permutation *)
Lemma sort_names_ord_perm l : Permutation (sort_names_ord l) l.
Proof. exact (Permutation_sym (isort_perm dname_leb l)). Qed.

Lemma sc_hist_laws : hist_laws scache sc_get sc_insert_all sc_empty.
Proof. exact (conj sc_empty_get (conj sc_hist_sound sc_hist_complete)). Qed.

Lemma hints_no_match u zroot hints q : hints_for u zroot hints q -> forall x, ~ hint_match hints (q_name q) (q_type q) x.
Proof.
  intros (_ & _ & _ & _ & Hno) x (r & Hr & Hl & Hm & _). rewrite (Hno r Hr Hl) in Hm. discriminate.
Qed.

Lemma hints_root_ns u zroot hints q : hints_for u zroot hints q -> exists x, hint_match hints root_domain RT_NS x.
Proof.
  intros (Hok & (r & Hr & Ht) & _). rewrite Forall_forall in Hok.
  destruct (Hok r Hr) as [_ [(_ & Hl & _)|(Ht' & _)]]; [|rewrite Ht in Ht'; discriminate].
  eexists. exists r. split; [exact Hr|]. split; [exact Hl|]. split; [rewrite Ht; reflexivity|reflexivity].
Qed.

(* the walk for [resolve], the universe oracle and the built hints zone: the authoritative answer, and
   one exchange per zone of the chain, root server first *)
Section WalkFinal.
  Variable cache : Type.
  Variable cache_get : cache -> dname -> N -> list rr.
  Variable cache_insert_all : cache -> list rr -> cache.
  Variable c0 : cache.
  Hypothesis K : hist_laws cache cache_get cache_insert_all c0.
  Variable sort_names : list dname -> list dname.
  Hypothesis Hsort : forall l, Permutation (sort_names l) l.
  Variable port : N.
  Variable u : universe.
  Variable zroot : uzone.
  Variable hints : list rr.
  Variable hz : zone.
  Variable q : question.
  Hypothesis Hbuilt : zone_build root_domain None (hint_ops hints) = Ok hz.
  Hypothesis Hhints : hints_for u zroot hints q.
  Hypothesis Hq : plain_question u q.

  Theorem walk_correct rest fuel :
    gchain hints u q [] 1 zroot rest -> (length rest + 2 <= fuel)%nat ->
    exists c' ts',
      resolve cache cache_get cache_insert_all sort_names (ModeRecursive OnlyV4) port (zones_insert [] hz)
              (universe_oracle u []) fuel q (c0, tstate_init)
      = (Ok (NonAuthoritative (aa_rrs (auth_answer u q)) (aa_soa (auth_answer u q))), (c', ts'))
      /\ Forall2 (fun z e => exists a, query_to port q a e /\ serves_owner u (inl a) z q) (zroot :: rest) (ts_log ts').
  Proof.
    intros Hch Hfuel.
    pose proof (hints_no_match u zroot hints q Hhints) as Hnomatch.
    pose proof (hints_root_ns u zroot hints q Hhints) as Hrootns.
    destruct Hhints as (Hok & _ & Haddr & Hsrv & _). destruct Hq as (Hwf & Hq1 & Hq2 & Hreq & Hfits).
    destruct fuel as [|f]; [lia|].
    destruct (chain_resolve cache cache_get cache_insert_all c0 K
                sort_names Hsort (zones_insert [] hz) hints (shaped_zones_built hints hz (hint_oks_shape _ Hok) Hbuilt) Hok
                (universe_oracle u []) port u q (universe_oracle_delivers_log u port q Hwf Hreq Hfits)
                (proj1 Hwf) Hq1 Hq2 Hnomatch zroot Hrootns Haddr Hsrv rest f tstate_init Hch)
      as (c' & ts' & es & E & Hlog & Hes).
    { cbn. lia. }
    { lia. }
    destruct (resolve_of_rrn _ _ _ _ _ _ _ _ _ _ _ _ _ _ es E Hlog) as [Er Hl].
    exists c', ts'. rewrite Hl. auto.
  Qed.
End WalkFinal.

Section Final.
  Variable sort_names : list dname -> list dname.
  Hypothesis Hsort : forall l, Permutation (sort_names l) l.
  Variable port : N.
  Variable u : universe.
  Variable zroot : uzone.
  Variable hints : list rr.
  Variable hz : zone.
  Variable q : question.
  Hypothesis Hroot_apex : uz_apex zroot = root_domain.
  Hypothesis Hbuilt : zone_build root_domain None (hint_ops hints) = Ok hz.
  Hypothesis Hhints : hints_for u zroot hints q.
  Hypothesis Hq : plain_question u q.

  Notation run fuel :=
    (resolve scache sc_get sc_insert_all sort_names (ModeRecursive OnlyV4) port (zones_insert [] hz)
             (universe_oracle u []) fuel q (sc_empty, tstate_init)).

  (* the root zone owns the name: the authoritative answer after one exchange with a root server *)
  Theorem depth0_correct fuel :
    answering_zone u zroot q -> (3 <= fuel)%nat ->
    exists c' ts' a e,
      run fuel = (Ok (NonAuthoritative (aa_rrs (auth_answer u q)) (aa_soa (auth_answer u q))), (c', ts'))
      /\ ts_log ts' = [e] /\ query_to port q a e /\ serves_owner u (inl a) zroot q.
  Proof.
    intros Hz Hfuel.
    destruct (walk_correct scache sc_get sc_insert_all sc_empty sc_hist_laws sort_names Hsort
                port u zroot hints hz q Hbuilt Hhints Hq [] fuel) as (c' & ts' & E & Hlog).
    { split; [exact Hz|]. rewrite Hroot_apex. cbn. lia. }
    { cbn [length]. lia. }
    inversion Hlog as [|? e ? es (a & Ha & Hs) Hes]; subst. inversion Hes; subst.
    exists c', ts', a, e. auto.
  Qed.

  (* a zone delegated from the root owns the name: the authoritative answer after two exchanges,
     the first with a root server (the referral), the second with a server of that zone *)
  Theorem depth1_correct zc fuel :
    answering_zone u zc q -> delegated_from_root u zroot zc hints q -> (3 <= fuel)%nat ->
    exists c' ts' a0 a1 e1 e2,
      run fuel = (Ok (NonAuthoritative (aa_rrs (auth_answer u q)) (aa_soa (auth_answer u q))), (c', ts'))
      /\ ts_log ts' = [e1; e2] /\ query_to port q a0 e1 /\ query_to port q a1 e2
      /\ serves_owner u (inl a0) zroot q /\ serves_owner u (inl a1) zc q.
  Proof using Hsort Hbuilt Hhints Hq.
    intros Hz (H1 & H2 & H3 & H4 & H5) Hfuel.
    destruct (walk_correct scache sc_get sc_insert_all sc_empty sc_hist_laws sort_names Hsort
                port u zroot hints hz q Hbuilt Hhints Hq [zc] fuel) as (c' & ts' & E & Hlog).
    { split; [|split; [exact H3|split; [exact Hz|lia]]]. split; [exact H1|]. split; [exact H2|]. split; [exact H4|].
      intros h Hh. destruct (H5 h Hh) as (G1 & G2 & G3 & G4). split; [exact G1|]. split; [exact G2|]. split; [|exact G4].
      intros z' g [<-|[]] Hg Hn Ht. exact (G3 g Hg Hn Ht). }
    { cbn [length]. lia. }
    inversion Hlog as [|? e1 ? es (a0 & Ha0 & Hs0) Hes]; subst. inversion Hes as [|? e2 ? es' (a1 & Ha1 & Hs1) Hes']; subst.
    inversion Hes'; subst. exists c', ts', a0, a1, e1, e2. auto 10.
  Qed.
End Final.
