(* Resolver/ResolverFacts.v -- facts that hold by construction of the transport combinators
   (time: C08, destinations: C18) and of Universe.v (C07). *)
From RV Require Import Base.Prelude Name.NameModel Name.NameProofs Wire.WireTypes Wire.WireModel
     Resolver.TransportModel Resolver.RecursiveModel Resolver.Universe.

Lemma udp_outcome_cost : forall r, fst (udp_outcome r) <= UDP_TIMEOUT_MS.
Proof.
  intros r. unfold udp_outcome.
  destruct (t_refuse r); cbn [fst]; [apply N.le_0_l|].
  destruct (t_bytes r); cbn [fst]; [|lia].
  destruct (UDP_TIMEOUT_MS <? t_delay_ms r) eqn:E; cbn [fst]; [lia|].
  apply N.ltb_ge in E. exact E.
Qed.

Lemma tcp_outcome_cost : forall r, fst (tcp_outcome r) <= TCP_TIMEOUT_MS.
Proof.
  intros r. unfold tcp_outcome.
  destruct (TCP_TIMEOUT_MS <? t_delay_ms r) eqn:E; cbn [fst]; [lia|].
  apply N.ltb_ge in E.
  destruct (read_tcp_stream _ _) as [[b|]|]; cbn [fst]; lia.
Qed.

Definition time_step (bound : N) (s s' : tstate) : Prop :=
  ts_elapsed s <= ts_elapsed s' /\ ts_elapsed s' <= ts_elapsed s + bound /\ ts_elapsed s' <= BUDGET_MS.

Lemma charge_step : forall c bound s x s',
  c <= bound -> ts_elapsed s <= BUDGET_MS -> charge c s = (x, s') -> time_step bound s s'.
Proof.
  intros c bound s x s' Hc Hs H. unfold charge in H.
  destruct (BUDGET_MS <? ts_elapsed s + c) eqn:E; inversion H; subst; clear H; unfold time_step; cbn [ts_elapsed].
  - apply N.ltb_lt in E. lia.
  - apply N.ltb_ge in E. lia.
Qed.

Lemma charge_within_budget : forall c s x s',
  ts_elapsed s <= BUDGET_MS -> charge c s = (x, s') -> ts_elapsed s' <= BUDGET_MS.
Proof. intros c s x s' Hs H. exact (proj2 (proj2 (charge_step c c s x s' (N.le_refl c) Hs H))). Qed.

Lemma time_step_refl : forall b s, ts_elapsed s <= BUDGET_MS -> time_step b s s.
Proof. intros. unfold time_step. lia. Qed.

Lemma log_call_elapsed : forall k a q rd n r s, ts_elapsed (log_call k a q rd n r s) = ts_elapsed s.
Proof. reflexivity. Qed.
Lemma next_exchange_elapsed : forall s, ts_elapsed (next_exchange s) = ts_elapsed s.
Proof. reflexivity. Qed.

(* what the budget and the decoder make of the octets an exchange delivered: the common tail of
   udp_exchange and tcp_exchange *)
Definition receive (cost : N) (bytes : option (list byte)) : TM (option message) := fun s1 =>
  match charge cost s1 with
  | (Abort w, s2) => (Abort w, s2)
  | (Val _, s2) => match decode_opt bytes with Val om => (Val om, s2) | Abort w => (Abort w, s2) end
  end.

Lemma udp_exchange_eq o a q rd req s : udp_exchange o a q rd req s =
  if 512 <? llen req then (Val (None, req), s)
  else if llen req <? 12 then (Abort APanic, s)
  else let r := o (ts_nexch s) Udp a (clear_tc req) in
       match receive (fst (udp_outcome r)) (snd (udp_outcome r)) (next_exchange (log_call KUdp a q rd (ts_nexch s) r s)) with
       | (Val om, s2) => (Val (om, clear_tc req), s2)
       | (Abort w, s2) => (Abort w, s2)
       end.
Proof.
  unfold udp_exchange, receive. destruct (512 <? llen req); [reflexivity|]. destruct (llen req <? 12); [reflexivity|].
  cbv zeta. destruct (udp_outcome _) as [cost dgram]. cbn [fst snd].
  destruct (charge cost _) as [[u|w] s2]; [|reflexivity]. destruct (decode_opt dgram); reflexivity.
Qed.

Lemma tcp_exchange_eq o a q rd req s : tcp_exchange o a q rd req s =
  let s1 := next_exchange (log_call KTcpConnect a q rd (ts_nexch s) (o (ts_nexch s) Tcp a []) s) in
  if t_refuse (o (ts_nexch s) Tcp a []) then (Val None, s1)
  else if llen req <? 12 then (Abort APanic, s1)
  else let r := o (ts_nexch s) Tcp a (fst (tcp_request req)) in
       receive (fst (tcp_outcome r)) (snd (tcp_outcome r)) (log_call KTcp a q rd (ts_nexch s) r s1).
Proof.
  unfold tcp_exchange, receive. cbv zeta. destruct (t_refuse _); [reflexivity|]. destruct (llen req <? 12); [reflexivity|].
  destruct (tcp_outcome _) as [cost bytes]. cbn [fst snd].
  destruct (charge cost _) as [[u|w] s2]; [|reflexivity]. destruct (decode_opt bytes); reflexivity.
Qed.

Lemma receive_time cost bound bytes s1 x s2 :
  receive cost bytes s1 = (x, s2) -> cost <= bound -> ts_elapsed s1 <= BUDGET_MS -> time_step bound s1 s2.
Proof.
  intros H Hc Hs. unfold receive in H. destruct (charge cost s1) as [[u|w] s] eqn:Ec;
    pose proof (charge_step _ _ _ _ _ Hc Hs Ec) as Ht; [destruct (decode_opt bytes)|]; inversion H; subst; exact Ht.
Qed.

Lemma udp_exchange_time : forall o a q rd req s x s',
  ts_elapsed s <= BUDGET_MS -> udp_exchange o a q rd req s = (x, s') -> time_step UDP_TIMEOUT_MS s s'.
Proof.
  intros o a q rd req s x s' Hs H. rewrite udp_exchange_eq in H.
  destruct (512 <? llen req). { inversion H; subst. apply time_step_refl; assumption. }
  destruct (llen req <? 12). { inversion H; subst. apply time_step_refl; assumption. }
  cbv zeta in H. destruct (receive _ _ _) as [[om|w] s2] eqn:Er; inversion H; subst;
    exact (receive_time _ _ _ _ _ _ Er (udp_outcome_cost _) Hs).
Qed.

Lemma tcp_exchange_time : forall o a q rd req s x s',
  ts_elapsed s <= BUDGET_MS -> tcp_exchange o a q rd req s = (x, s') -> time_step TCP_TIMEOUT_MS s s'.
Proof.
  intros o a q rd req s x s' Hs H. rewrite tcp_exchange_eq in H. cbv zeta in H.
  destruct (t_refuse _). { inversion H; subst. apply (time_step_refl _ s Hs). }
  destruct (llen req <? 12). { inversion H; subst. apply (time_step_refl _ s Hs). }
  exact (receive_time _ _ _ _ _ _ H (tcp_outcome_cost _) Hs).
Qed.

Lemma time_step_trans : forall b1 b2 s1 s2 s3,
  time_step b1 s1 s2 -> time_step b2 s2 s3 -> time_step (b1 + b2) s1 s3.
Proof. unfold time_step. intros. lia. Qed.

Lemma time_step_weaken : forall b b' s s', b <= b' -> time_step b s s' -> time_step b' s s'.
Proof. unfold time_step. intros. lia. Qed.

(* query_nameserver: at most one UDP and one TCP attempt, 5 s each, never past the budget *)
Lemma query_nameserver_time : forall o a q rd s x s',
  ts_elapsed s <= BUDGET_MS -> query_nameserver o a q rd s = (x, s') ->
  time_step (UDP_TIMEOUT_MS + TCP_TIMEOUT_MS) s s'.
Proof.
  intros o a q rd s x s' Hs H. unfold query_nameserver in H.
  destruct (encode _) as [req|e| |].
  2-4: inversion H; subst; apply time_step_refl; assumption.
  destruct (udp_exchange o a q rd req s) as [[[om req1]|w] s1] eqn:Eu.
  - pose proof (udp_exchange_time _ _ _ _ _ _ _ _ Hs Eu) as Hu.
    destruct (gate _ om).
    + inversion H; subst. eapply time_step_weaken; [|exact Hu]. lia.
    + assert (Hs1 : ts_elapsed s1 <= BUDGET_MS) by (unfold time_step in Hu; lia).
      destruct (tcp_exchange o a q rd req1 s1) as [[om2|w] s2] eqn:Et;
        pose proof (tcp_exchange_time _ _ _ _ _ _ _ _ Hs1 Et) as Ht;
        inversion H; subst; eapply time_step_trans; eassumption.
  - pose proof (udp_exchange_time _ _ _ _ _ _ _ _ Hs Eu) as Hu.
    inversion H; subst. eapply time_step_weaken; [|exact Hu]. lia.
Qed.

(* the log of [s'] is the log of [s] plus new calls, all of them to [a] about [q] *)
Definition logged_to (a : addr) (q : question) (rd : bool) (s s' : tstate) : Prop :=
  exists new, ts_rlog s' = new ++ ts_rlog s
              /\ Forall (fun x => x_addr x = a /\ x_question x = q /\ x_rd x = rd) new.

Lemma logged_to_refl : forall a q rd s, logged_to a q rd s s.
Proof. intros. exists []. split; [reflexivity | constructor]. Qed.

Lemma logged_to_trans : forall a q rd s1 s2 s3,
  logged_to a q rd s1 s2 -> logged_to a q rd s2 s3 -> logged_to a q rd s1 s3.
Proof.
  intros a q rd s1 s2 s3 [n1 [E1 F1]] [n2 [E2 F2]]. exists (n2 ++ n1). split.
  - rewrite E2, E1, app_assoc. reflexivity.
  - apply Forall_app. split; assumption.
Qed.

Lemma charge_rlog : forall c s x s', charge c s = (x, s') -> ts_rlog s' = ts_rlog s.
Proof.
  intros c s x s' H. unfold charge in H. destruct (_ <? _); inversion H; subst; reflexivity.
Qed.

Lemma receive_rlog cost bytes s1 x s2 : receive cost bytes s1 = (x, s2) -> ts_rlog s2 = ts_rlog s1.
Proof.
  unfold receive. destruct (charge cost s1) as [[u|w] s] eqn:Ec; pose proof (charge_rlog _ _ _ _ Ec) as Hl;
    [destruct (decode_opt bytes)|]; intro H; inversion H; subst; exact Hl.
Qed.

Lemma logged_to_one a q rd s k n r : logged_to a q rd s (log_call k a q rd n r s).
Proof. eexists [_]. split; [reflexivity|]. constructor; [|constructor]. cbn. auto. Qed.

Lemma udp_exchange_dest : forall o a q rd req s x s',
  udp_exchange o a q rd req s = (x, s') -> logged_to a q rd s s'.
Proof.
  intros o a q rd req s x s' H. rewrite udp_exchange_eq in H.
  destruct (512 <? llen req). { inversion H; subst. apply logged_to_refl. }
  destruct (llen req <? 12). { inversion H; subst. apply logged_to_refl. }
  cbv zeta in H. destruct (receive _ _ _) as [[om|w] s2] eqn:Er; inversion H; subst;
    destruct (logged_to_one a q rd s KUdp (ts_nexch s) (o (ts_nexch s) Udp a (clear_tc req))) as [new [E F]];
    exists new; rewrite (receive_rlog _ _ _ _ _ Er); auto.
Qed.

Lemma tcp_exchange_dest : forall o a q rd req s x s',
  tcp_exchange o a q rd req s = (x, s') -> logged_to a q rd s s'.
Proof.
  intros o a q rd req s x s' H. rewrite tcp_exchange_eq in H. cbv zeta in H.
  pose proof (logged_to_one a q rd s KTcpConnect (ts_nexch s) (o (ts_nexch s) Tcp a [])) as L1.
  destruct (t_refuse _). { inversion H; subst. exact L1. }
  destruct (llen req <? 12). { inversion H; subst. exact L1. }
  destruct (logged_to_trans _ _ _ _ _ _ L1 (logged_to_one a q rd _ KTcp (ts_nexch s) (o (ts_nexch s) Tcp a (fst (tcp_request req)))))
    as [new [E F]].
  exists new. rewrite (receive_rlog _ _ _ _ _ H). auto.
Qed.

Lemma query_nameserver_dest : forall o a q rd s x s',
  query_nameserver o a q rd s = (x, s') -> logged_to a q rd s s'.
Proof.
  intros o a q rd s x s' H. unfold query_nameserver in H.
  destruct (encode _) as [req|e| |].
  2-4: inversion H; subst; apply logged_to_refl.
  destruct (udp_exchange o a q rd req s) as [[[om req1]|w] s1] eqn:Eu;
    pose proof (udp_exchange_dest _ _ _ _ _ _ _ _ Eu) as Lu.
  - destruct (gate _ om).
    + inversion H; subst. exact Lu.
    + destruct (tcp_exchange o a q rd req1 s1) as [[om2|w] s2] eqn:Et;
        pose proof (tcp_exchange_dest _ _ _ _ _ _ _ _ Et) as Lt;
        inversion H; subst; eapply logged_to_trans; eassumption.
  - inversion H; subst. exact Lu.
Qed.

(* every call query_nameserver logs goes to the given IP address and port *)
Lemma query_nameserver_port : forall o i port q rd s x s',
  query_nameserver o (i, port) q rd s = (x, s') ->
  exists new, ts_rlog s' = new ++ ts_rlog s /\ Forall (fun e => fst (x_addr e) = i /\ snd (x_addr e) = port) new.
Proof.
  intros o i port q rd s x s' H. apply query_nameserver_dest in H. destruct H as [new [E F]].
  exists new. split; [exact E|]. eapply Forall_impl; [|exact F].
  intros e [Ha _]. rewrite Ha. auto.
Qed.

(* the record types resolve_hostname_to_ip asks for, per mode *)
Lemma rtypes_of_mode_spec : forall m,
  match m with
  | OnlyV4 => rtypes_of_mode m = [RT_A]
  | OnlyV6 => rtypes_of_mode m = [RT_AAAA]
  | PreferV4 => rtypes_of_mode m = [RT_A; RT_AAAA]
  | PreferV6 => rtypes_of_mode m = [RT_AAAA; RT_A]
  end.
Proof. destruct m; reflexivity. Qed.

Lemma cut_owner_loop_spec : forall cuts n best c,
  cut_owner_loop cuts n best = Some c ->
  (best = Some c) \/ (is_subdomain_of n c = true /\ exists r, In r cuts /\ rr_name r = c).
Proof.
  induction cuts as [|x t IH]; intros n best c H; cbn [cut_owner_loop] in H; [left; exact H|].
  (* the loop goes on with the old best or with this record's owner *)
  assert (Hstep : forall best', cut_owner_loop t n best' = Some c ->
            best' = best \/ (best' = Some (rr_name x) /\ is_subdomain_of n (rr_name x) = true) ->
            best = Some c \/ (is_subdomain_of n c = true /\ exists r, In r (x :: t) /\ rr_name r = c)).
  { intros best' H' Hb. destruct (IH _ _ _ H') as [E|(H1 & r & H2 & H3)].
    - destruct Hb as [->|[-> Hs]]; [left; exact E|]. inversion E; subst. right. split; [exact Hs|].
      exists x. split; [left; reflexivity|reflexivity].
    - right. split; [exact H1|]. exists r. split; [right; exact H2|exact H3]. }
  destruct (is_subdomain_of n (rr_name x)) eqn:Es; [|eapply Hstep; eauto].
  destruct best as [b|]; [destruct (_ <? _)|]; eapply Hstep; eauto.
Qed.

(* a referral names a delegation point of the zone that encloses the question name *)
Lemma cut_owner_spec : forall z n c,
  cut_owner z n = Some c -> is_subdomain_of n c = true /\ exists r, In r (uz_cuts z) /\ rr_name r = c.
Proof.
  intros z n c H. unfold cut_owner in H. apply cut_owner_loop_spec in H.
  destruct H as [H|H]; [discriminate|exact H].
Qed.

Lemma best_zone_spec : forall zs n best z,
  best_zone zs n best = Some z -> best = Some z \/ (In z zs /\ is_subdomain_of n (uz_apex z) = true).
Proof.
  induction zs as [|x t IH]; intros n best z H; cbn [best_zone] in H; [left; exact H|].
  assert (Hstep : forall best', best_zone t n best' = Some z ->
            best' = best \/ (best' = Some x /\ is_subdomain_of n (uz_apex x) = true) ->
            best = Some z \/ (In z (x :: t) /\ is_subdomain_of n (uz_apex z) = true)).
  { intros best' H' Hb. destruct (IH _ _ _ H') as [E|[H1 H2]].
    - destruct Hb as [->|[-> Hs]]; [left; exact E|]. inversion E; subst. right. split; [left; reflexivity|exact Hs].
    - right. split; [right; exact H1|exact H2]. }
  destruct (is_subdomain_of n (uz_apex x)) eqn:Es; [|eapply Hstep; eauto].
  destruct best as [b|]; [destruct (_ <? _)|]; eapply Hstep; eauto.
Qed.

Lemma rrs_at_in : forall z n r, In r (rrs_at z n) -> In r (zone_data z) /\ dname_eqb (rr_name r) n = true.
Proof. intros z n r H. unfold rrs_at in H. apply filter_In in H. exact H. Qed.

Lemma cname_at_in : forall here qtype cr target, cname_at here qtype = Some (cr, target) -> In cr here.
Proof.
  intros here qtype cr target H. unfold cname_at in H.
  destruct (rtype_matches RT_CNAME qtype); [discriminate|].
  destruct (find _ here) as [r|] eqn:Ef; [|discriminate].
  destruct (cname_target r); [|discriminate]. inversion H; subst.
  apply find_some in Ef. exact (proj1 Ef).
Qed.

(* every record of the expected answer is authoritative data of a zone of the universe
   that encloses its owner *)
Lemma auth_chain_from_universe : forall fuel u n qtype seen r,
  In r (aa_rrs (auth_chain fuel u n qtype seen)) ->
  exists z, In z (u_zones u) /\ In r (zone_data z) /\ is_subdomain_of (rr_name r) (uz_apex z) = true.
Proof.
  induction fuel as [|f IH]; intros u n qtype seen r H; cbn [auth_chain] in H.
  - destruct H.
  - destruct (best_zone (u_zones u) n None) as [z|] eqn:Eb; [|destruct H].
    destruct (cut_owner z n); [destruct H|].
    apply best_zone_spec in Eb. destruct Eb as [Eb|[Hz Hs]]; [discriminate|].
    assert (Hhere : forall x, In x (rrs_at z n) ->
              exists z0, In z0 (u_zones u) /\ In x (zone_data z0) /\ is_subdomain_of (rr_name x) (uz_apex z0) = true).
    { intros x Hx. apply rrs_at_in in Hx. destruct Hx as [Hx1 Hx2]. exists z. split; [exact Hz|]. split; [exact Hx1|].
      apply dname_eqb_eq in Hx2. rewrite Hx2. exact Hs. }
    destruct (cname_at (rrs_at z n) qtype) as [[cr target]|] eqn:Ec.
    + apply cname_at_in in Ec.
      destruct (existsb _ _).
      * cbn [aa_rrs] in H. destruct H as [H|[]]. subst. apply Hhere. exact Ec.
      * cbn [aa_rrs] in H. destruct H as [H|H].
        -- subst. apply Hhere. exact Ec.
        -- eapply IH. exact H.
    + destruct (negb _); cbn [aa_rrs] in H; [|destruct H].
      apply filter_In in H. apply Hhere. exact (proj1 H).
Qed.

(* delegation points lie strictly below the apex of the zone that holds them *)
Definition wf_cuts (z : uzone) : Prop :=
  forall r, In r (uz_cuts z) ->
    is_subdomain_of (rr_name r) (uz_apex z) = true /\ nlabels (uz_apex z) < nlabels (rr_name r).

(* the referral a server gives from zone [z] names a delegation point that encloses the
   question name and is strictly deeper than the apex of [z] *)
Lemma referral_strictly_deeper : forall z n c,
  wf_cuts z -> cut_owner z n = Some c ->
  is_subdomain_of n c = true /\ nlabels (uz_apex z) < nlabels c.
Proof.
  intros z n c W H. apply cut_owner_spec in H. destruct H as [Hs [r [Hr Hc]]].
  split; [exact Hs|]. subst c. exact (proj2 (W r Hr)).
Qed.

Lemma auth_answer_from_universe : forall u q r,
  In r (aa_rrs (auth_answer u q)) ->
  exists z, In z (u_zones u) /\ In r (zone_data z) /\ is_subdomain_of (rr_name r) (uz_apex z) = true.
Proof. intros u q r. unfold auth_answer. apply auth_chain_from_universe. Qed.
