(* Resolver/ResolverCacheInstance.v -- the real cache model (Cache/CacheModel.v, with its
   representation invariant, at a fixed virtual instant) is an instance of the abstract cache of
   the resolver models and meets the laws the resolver theorems assume (Resolver/RecursiveProofs.v,
   Resolver/ForwardingProofs.v): a read returns only records the cache holds, an insert adds only the
   inserted records, a read returns only records of the asked name and type.  So every theorem about
   resolve_recursive / resolve_forwarding proved for an abstract cache applies to the real cache
   model as well as to SimpleCache (the small instance the model driver runs).

   The cache type is the model's state together with its invariant ([Inv], Cache/CacheSpec.v): under
   the invariant insert_all never reaches a panic site (C15), so [rc_insert_all] is total.  A
   lookup's refresh of the LRU stamp is dropped: nothing but prune reads it, and the resolvers do
   not prune. *)
From RV Require Import Base.Prelude Name.NameModel Name.NameProofs Wire.WireTypes
     Cache.CacheFacts Cache.CacheModel Cache.CacheSpec Cache.CacheInsert Cache.CacheProofs
     Resolver.LocalSpec Resolver.RecursiveProofs.

Section RealCache.
  Variable now : N.                       (* the fixed virtual instant *)

  Definition rcache : Type := { c : cache | Inv c }.

  Definition rc_get (c : rcache) (n : dname) (t : N) : list rr := snd (get (proj1_sig c) now n t).

  Lemma insert_all_inv c rrs c' : Inv c -> shared_insert_all c now rrs = Ok c' -> Inv c'.
  Proof.
    intros HI E. destruct (shared_insert_all_ok rrs c now HI) as (c2 & E2 & I2 & _).
    rewrite E in E2. inversion E2; subst. exact I2.
  Qed.

  Definition rc_mk (c : rcache) (r : res unit cache) (E : forall c', r = Ok c' -> Inv c') : rcache :=
    match r as r0 return (forall c', r0 = Ok c' -> Inv c') -> rcache with
    | Ok c' => fun E0 => exist _ c' (E0 c' eq_refl)
    | _ => fun _ => c
    end E.

  (* SharedCache::insert_all *)
  Definition rc_insert_all (c : rcache) (rrs : list rr) : rcache :=
    rc_mk c (shared_insert_all (proj1_sig c) now rrs) (fun c' E => insert_all_inv _ _ _ (proj2_sig c) E).

  Lemma rc_mk_spec c r E : proj1_sig (rc_mk c r E) = match r with Ok c' => c' | _ => proj1_sig c end.
  Proof. destruct r; reflexivity. Qed.

  Lemma rc_insert_all_spec c rrs : shared_insert_all (proj1_sig c) now rrs = Ok (proj1_sig (rc_insert_all c rrs)).
  Proof.
    unfold rc_insert_all. rewrite rc_mk_spec.
    destruct (shared_insert_all_ok rrs (proj1_sig c) now (proj2_sig c)) as (c2 & E2 & _). rewrite E2. reflexivity.
  Qed.

  (* the records the cache holds: the keys of its abstraction (name, type, data) -> expiry *)
  Definition rc_content (c : rcache) (r : rr) : Prop := exists e, abs_map (proj1_sig c) (rr_key r) = Some e.

  Lemma key_eqb_sim a b : key_eqb (rr_key a) (rr_key b) = true -> rr_sim b a.
  Proof.
    unfold key_eqb, rr_key, key_name, key_type, key_data. cbn [fst snd].
    intro H. apply andb_prop in H. destruct H as [H H3]. apply andb_prop in H. destruct H as [H1 H2].
    apply dname_eqb_eq in H1. apply N.eqb_eq in H2. apply rdata_eqb_eq in H3. repeat split; congruence.
  Qed.

  Lemma a_insert_all_src : forall rs m k e, a_insert_all m now rs k = Some e ->
    m k = Some e \/ exists r, In r rs /\ 0 < rr_ttl r /\ key_eqb (rr_key r) k = true.
  Proof.
    induction rs as [|r rs IH]; intros m k e H; cbn [a_insert_all] in H; [left; exact H|].
    destruct (IH _ _ _ H) as [H1|(r' & H1 & H2)].
    - unfold a_insert in H1. destruct ((0 <? rr_ttl r) && key_eqb (rr_key r) k) eqn:E.
      + right. exists r. apply andb_prop in E as [E1 E2]. apply N.ltb_lt in E1. split; [left; reflexivity|auto].
      + left. exact H1.
    - right. exists r'. split; [right; exact H1|exact H2].
  Qed.

  Lemma a_insert_all_some rs m k e : a_insert_all m now rs k = Some e ->
    (exists e', m k = Some e') \/ exists r, In r rs /\ key_eqb (rr_key r) k = true.
  Proof. intro H. destruct (a_insert_all_src rs m k e H) as [H1|(r & Hr & _ & Hk)]; [left; eauto|right; eauto]. Qed.

  Lemma rc_abs_insert_all c rrs k :
    abs_map (proj1_sig (rc_insert_all c rrs)) k = a_insert_all (abs_map (proj1_sig c)) now rrs k.
  Proof.
    destruct (shared_insert_all_ok rrs (proj1_sig c) now (proj2_sig c)) as (c2 & E2 & _ & M & _).
    rewrite rc_insert_all_spec in E2. inversion E2 as [E3]. rewrite E3. apply M.
  Qed.

  Lemma rc_get_in c n t r : In r (rc_get c n t) <->
    rr_name r = n /\ rr_class r = RC_IN /\ cache_qmatch t (rr_type r) /\
    exists e, abs_map (proj1_sig c) (rr_key r) = Some e /\ rr_ttl r = remaining e now /\ 1 <= rr_ttl r.
  Proof.
    unfold rc_get. destruct (get (proj1_sig c) now n t) as [c' rrs] eqn:E. cbn [snd].
    destruct (get_ok _ _ _ _ _ _ (proj2_sig c) E) as (_ & _ & [_ A] & _). rewrite A. split.
    - intros (H1 & H2 & H3 & e & H4 & H5 & H6). repeat (split; [assumption|]). exists e. auto.
    - intros (H1 & H2 & H3 & e & H4 & H5 & H6). repeat (split; [assumption|]). exists e. auto.
  Qed.

  Theorem rc_get_content c n t r : In r (rc_get c n t) -> exists r', rc_content c r' /\ rr_sim r r'.
  Proof. intro H. apply rc_get_in in H as (_ & _ & _ & e & He & _). exists r. split; [exists e; exact He|apply rr_sim_refl]. Qed.

  Theorem rc_insert_all_content c rrs r :
    rc_content (rc_insert_all c rrs) r -> rc_content c r \/ exists r', In r' rrs /\ rr_sim r r'.
  Proof.
    intros [e He]. rewrite rc_abs_insert_all in He.
    destruct (a_insert_all_some _ _ _ _ He) as [[e' H]|[r' [H1 H2]]].
    - left. exists e'. exact H.
    - right. exists r'. split; [exact H1|]. apply key_eqb_sim. exact H2.
  Qed.

  Theorem rc_get_ok c : cget_ok (rc_get c).
  Proof.
    intros name qt Hq. apply Forall_forall. intros r H.
    apply rc_get_in in H as (H1 & _ & [Hw|[Ht _]] & _); [contradiction|auto].
  Qed.

  (* the empty cache (Cache::new) *)
  Definition rc_new : rcache := exist _ cache_new (inv_init DEFAULT_DESIRED_SIZE).
  Lemma rc_new_content r : ~ rc_content rc_new r.
  Proof. intros [e H]. discriminate. Qed.
End RealCache.
