(* Arbitrary depth, glue-complete alias-free chains.  A chain of zones z0 (the root zone) > z1 > ... >
   zk of a universe: each z(i+1) is delegated from zi on the way to the question name -- the NS
   records of the cut are in zi, every nameserver host of the cut has an A record with a positive TTL
   in zi's glue or data, and every address such a record names (in zi or in a zone higher up the
   chain, whose glue the cache may also hold by then) is a server whose closest zone for the question
   name is z(i+1) -- and zk owns the question name plainly (no cut on the way, no alias, known record
   types).  Then the recursive resolver model -- the root hints as its only local zone, an empty
   cache, protocol mode only-v4, the fault-free universe oracle through the wire codec, any candidate
   order that is a permutation, any fuel >= k+2 -- returns EXACTLY [auth_answer], and its log is
   exactly k+1 UDP exchanges about the question: the i-th with a server whose closest zone for the
   name is z(i-1), root server first.  k is arbitrary (at most 127: the depths increase strictly).

   The induction over the state of the candidate loop, and the three laws over histories of
   insert_all it asks of the cache, are in RecursiveDepth1.v (Section Walk); here the chain is turned
   into the one that walk takes.  For the real cache model of Cache/CacheModel.v the laws follow
   from its one-step laws (RecursiveWarm.cache_laws_hist); two facts about it those need are here. *)
From Coq Require Import Permutation.
From RV Require Import Base.Prelude Name.NameModel Name.NameSpec Wire.WireTypes
     Wire.WireEncodeProofs Zone.ZoneModel Zone.ZoneFlat Resolver.LocalModel Resolver.ValidateModel
     Resolver.TransportModel Resolver.RecursiveModel Resolver.ForwardingModel Resolver.Universe
     Resolver.RecursiveCorrect Resolver.RecursiveDepth1 Resolver.UniverseCheck Cache.CacheModel
     Cache.CacheSpec Cache.CacheInsert Resolver.ResolverCacheInstance.

Section ChainDefs.
  Variable u : universe.
  Variable hints : list rr.
  Variable q : question.

  (* [h] is a nameserver host of the delegation point [c] of [zp] *)
  Definition ns_host_of (zp : uzone) (c h : dname) : Prop :=
    exists r, In r (uz_cuts zp) /\ rr_name r = c /\ is_ns_rr r = Some h.

  (* [zc] is delegated from [zp] on the way to the question name, glue-complete for v4; [prev] are
     the zones of the chain above [zp].
       - the delegation point of [zp] on the way to the name is the apex of [zc];
       - the cut records of [zp] are NS records;
       - the apex of [zc] is strictly deeper than that of [zp];
       - the question name owns nothing in [zp]'s glue or data (else: the glue shortcut, F11);
       - every nameserver host of the delegation has a well-formed name and an A record with a
         positive TTL in [zp]'s glue or data; every A record for that host in the glue or data of
         [zp] or of a zone above it in the chain, and every A record the hints hold for it, names
         the address of a server whose closest zone for the question name is [zc]. *)
  Definition chain_link (prev : list uzone) (zp zc : uzone) : Prop :=
    cut_owner zp (q_name q) = Some (uz_apex zc)
    /\ Forall (fun r => exists h, is_ns_rr r = Some h) (uz_cuts zp)
    /\ llen (labels (uz_apex zp)) < llen (labels (uz_apex zc))
    /\ (forall r, In r (uz_glue zp ++ uz_rrs zp) -> rr_name r <> q_name q)
    /\ (forall h, ns_host_of zp (uz_apex zc) h ->
          wf_name h /\
          (exists g, In g (uz_glue zp ++ uz_rrs zp) /\ rr_name g = h /\ rr_type g = RT_A /\ 0 < rr_ttl g) /\
          (forall z' g, In z' (zp :: prev) -> In g (uz_glue z' ++ uz_rrs z') -> rr_name g = h -> rr_type g = RT_A ->
             exists a, rr_data g = RD_A a /\ serves_owner u (inl a) zc q) /\
          (forall g a, In g hints -> labels (rr_name g) = labels h -> rr_type g = RT_A -> rr_data g = RD_A a ->
             serves_owner u (inl a) zc q)).

  (* the chain from [z] downwards: [rest] are the zones below [z], each delegated from the one
     before; the last zone of [z :: rest] answers the question *)
  Fixpoint chain_from (prev : list uzone) (z : uzone) (rest : list uzone) : Prop :=
    match rest with
    | [] => answering_zone u z q
    | zc :: rest' => chain_link prev z zc /\ chain_from (z :: prev) zc rest'
    end.

  (* the depths along a chain increase strictly: every referral is strictly deeper *)
  Fixpoint depths_increase (z : uzone) (rest : list uzone) : Prop :=
    match rest with
    | [] => True
    | zc :: rest' => nlabels (uz_apex z) < nlabels (uz_apex zc) /\ depths_increase zc rest'
    end.

  Lemma chain_depths : forall rest prev z, chain_from prev z rest -> depths_increase z rest.
  Proof.
    induction rest as [|zc rest IH]; intros prev z H; cbn [chain_from depths_increase] in *; [exact I|].
    destruct H as ((_ & _ & Hd & _) & Hrest). split; [exact Hd|]. exact (IH _ _ Hrest).
  Qed.

  (* depth 1 of RecursiveDepth1.v is the chain with one link *)
  Lemma delegated_from_root_link zroot zc :
    uz_apex zroot = root_domain -> delegated_from_root u zroot zc hints q -> chain_link [] zroot zc.
  Proof.
    intros Ha (H1 & H2 & H3 & H4 & H5). split; [exact H1|]. split; [exact H2|]. split; [rewrite Ha; exact H3|].
    split; [exact H4|]. intros h Hh. destruct (H5 h Hh) as (G1 & G2 & G3 & G4).
    split; [exact G1|]. split; [exact G2|]. split; [|exact G4].
    intros z' g [<-|[]] Hg Hn Ht. exact (G3 g Hg Hn Ht).
  Qed.
End ChainDefs.

(* the chain as the walk of RecursiveDepth1.v takes it: entered with a match count not above the depth
   of the first zone *)
Lemma chain_from_gchain u hints q : forall rest prev mc z, mc <= llen (labels (uz_apex z)) ->
  chain_from u hints q prev z rest -> gchain hints u q prev mc z rest.
Proof.
  induction rest as [|zc rest IH]; intros prev mc z Hmc H; cbn [chain_from gchain] in *; [auto|].
  destruct H as ((Hcut & Hnsty & Hdeep & Hnoglue & Hglue) & Hrest).
  split; [exact (conj Hcut (conj Hnsty (conj Hnoglue Hglue)))|]. split; [lia|]. apply IH; [lia|exact Hrest].
Qed.

(* one logged exchange per zone of the chain: a UDP query about [q] to a server whose closest zone
   for the question name is that zone *)
Definition chain_log (u : universe) (port : N) (q : question) (chain : list uzone) (es : list exchange) : Prop :=
  Forall2 (fun z e => exists a, query_to port q a e /\ serves_owner u (inl a) z q) chain es.

Section Chain.
  Variable cache : Type.
  Variable cache_insert_all : cache -> list rr -> cache.
  Variable c0 : cache.

  (* the cache after a history of insert_all *)
  Definition cache_after (ls : list (list rr)) : cache := fold_left cache_insert_all ls c0.

End Chain.

Section FinalChain.
  Variable cache : Type.
  Variable cache_get : cache -> dname -> N -> list rr.
  Variable cache_insert_all : cache -> list rr -> cache.
  Variable c0 : cache.
  Hypothesis K : hist_laws cache cache_get cache_insert_all c0.

  Variable sort_names : list dname -> list dname.
  Hypothesis Hsort : forall l, Permutation (sort_names l) l.
  Variable port : N.
  Variable u : universe.
  Variable zroot : uzone.
  Variable hints : list rr.
  Variable hz : zone.
  Variable q : question.
  Hypothesis Hroot_apex : uz_apex zroot = root_domain.
  Hypothesis Hbuilt : zone_build root_domain None (hint_ops hints) = Ok hz.
  Hypothesis Hhints : hints_for u zroot hints q.
  Hypothesis Hq : plain_question u q.

  Theorem chain_correct rest fuel :
    chain_from u hints q [] zroot rest -> (length rest + 2 <= fuel)%nat ->
    exists c' ts',
      resolve cache cache_get cache_insert_all sort_names (ModeRecursive OnlyV4) port (zones_insert [] hz)
              (universe_oracle u []) fuel q (c0, tstate_init)
      = (Ok (NonAuthoritative (aa_rrs (auth_answer u q)) (aa_soa (auth_answer u q))), (c', ts'))
      /\ chain_log u port q (zroot :: rest) (ts_log ts')
      /\ depths_increase zroot rest.
  Proof.
    intros Hch Hfuel.
    destruct (walk_correct cache cache_get cache_insert_all c0 K sort_names Hsort port u zroot hints hz q
                Hbuilt Hhints Hq rest fuel) as (c' & ts' & E & Hlog); [|exact Hfuel|].
    { apply chain_from_gchain; [rewrite Hroot_apex; cbn; lia|exact Hch]. }
    exists c', ts'. split; [exact E|]. split; [exact Hlog|exact (chain_depths u hints q rest [] zroot Hch)].
  Qed.
End FinalChain.

(* chain_link and chain_from as boolean functions (Resolver/UniverseCheck.v) *)

Definition chain_linkb (u : universe) (hints : list rr) (q : question) (prev : list uzone) (zp zc : uzone) : bool :=
  is_name (cut_owner zp (q_name q)) (uz_apex zc)
  && forallb (fun r => negb (is_none (is_ns_rr r))) (uz_cuts zp)
  && (llen (labels (uz_apex zp)) <? llen (labels (uz_apex zc)))
  && owns_nothingb zp (q_name q)
  && ns_hosts_allb (uz_cuts zp) (uz_apex zc) (fun h =>
       wf_name_b h && has_glueb zp [RT_A] h
       && forallb (fun z' => a_leadb u zc (q_name q) (owned_by_name h) (uz_glue z' ++ uz_rrs z')) (zp :: prev)
       && a_leadb u zc (q_name q) (same_labels h) hints).

Lemma chain_linkb_sound u hints q prev zp zc : chain_linkb u hints q prev zp zc = true -> chain_link u hints q prev zp zc.
Proof.
  unfold chain_linkb. rewrite !andb_true_iff, forallb_forall, N.ltb_lt. intros ((((H1 & H2) & H3) & H4) & H5).
  split; [apply is_name_eq, H1|]. split; [|split; [exact H3|split; [apply owns_nothingb_sound, H4|]]].
  - apply Forall_forall. intros r Hr. specialize (H2 r Hr). destruct (is_ns_rr r) as [h|]; [exists h; reflexivity|discriminate].
  - intros h Hh. pose proof (ns_hosts_allb_sound _ _ _ H5 h Hh) as H. rewrite !andb_true_iff, forallb_forall in H.
    destruct H as (((G1 & G2) & G3) & G4). split; [apply wf_name_b_sound, G1|]. split; [|split].
    + destruct (has_glueb_sound _ _ _ G2) as (g & Hg & Hn & [Ht|[]] & Hpos). exists g. auto.
    + intros z' g Hz' Hg Hn. exact (a_leadb_sound u zc q _ _ (G3 z' Hz') g Hg (owned_by_name_eq _ _ Hn)).
    + intros g a Hg Hl. exact (a_leadb_data u zc q _ _ G4 g a Hg (same_labels_eq _ _ Hl)).
Qed.

Fixpoint chain_fromb (u : universe) (hints : list rr) (q : question) (prev : list uzone) (z : uzone) (rest : list uzone) : bool :=
  match rest with
  | [] => answering_zoneb u z q
  | zc :: rest' => chain_linkb u hints q prev z zc && chain_fromb u hints q (z :: prev) zc rest'
  end.

Lemma chain_fromb_sound u hints q : forall rest prev z,
  chain_fromb u hints q prev z rest = true -> chain_from u hints q prev z rest.
Proof.
  induction rest as [|zc rest IH]; intros prev z H; cbn [chain_fromb chain_from] in *; [apply answering_zoneb_sound, H|].
  apply andb_true_iff in H as [H1 H2]. split; [apply chain_linkb_sound, H1|apply IH, H2].
Qed.

(* the converse of delegated_from_root_link *)
Lemma chain_link_delegated_from_root u hints q zroot zc :
  uz_apex zroot = root_domain -> chain_link u hints q [] zroot zc -> delegated_from_root u zroot zc hints q.
Proof.
  intros Ha (H1 & H2 & H3 & H4 & H5). rewrite Ha in H3. repeat (split; [assumption|]).
  intros h Hh. destruct (H5 h Hh) as (G1 & G2 & G3 & G4). repeat (split; [assumption|]). split; [|exact G4].
  intros g Hg. exact (G3 zroot g (or_introl eq_refl) Hg).
Qed.

(* a worked chain of depth 3: . -> com. -> example.com. -> sub.example.com. *)
Definition c3_nm (ls : list label) : dname :=
  {| labels := ls ++ [[]]; nlen := fold_right (fun l acc => 1 + llen l + acc) 1 ls |}.
Definition c3_rr (n : dname) (t ttl : N) (d : rdata) : rr :=
  {| rr_name := n; rr_type := t; rr_class := RC_IN; rr_ttl := ttl; rr_data := d |}.
Definition c3_l_a : label := [97].
Definition c3_l_ns : label := [110; 115].
Definition c3_l_com : label := [99; 111; 109].
Definition c3_l_example : label := [101; 120; 97; 109; 112; 108; 101].
Definition c3_l_sub : label := [115; 117; 98].
Definition c3_l_www : label := [119; 119; 119].

Definition c3_n_a := c3_nm [c3_l_a].                                         (* a.  (the root server) *)
Definition c3_n_com := c3_nm [c3_l_com].
Definition c3_n_ns_com := c3_nm [c3_l_ns; c3_l_com].
Definition c3_n_ex := c3_nm [c3_l_example; c3_l_com].
Definition c3_n_ns_ex := c3_nm [c3_l_ns; c3_l_example; c3_l_com].
Definition c3_n_sub := c3_nm [c3_l_sub; c3_l_example; c3_l_com].
Definition c3_n_ns_sub := c3_nm [c3_l_ns; c3_l_sub; c3_l_example; c3_l_com].
Definition c3_n_www := c3_nm [c3_l_www; c3_l_sub; c3_l_example; c3_l_com].

Definition c3_ip0 : N := 167772161.      (* 10.0.0.1 *)
Definition c3_ip1 : N := 167772162.
Definition c3_ip2 : N := 167772163.
Definition c3_ip3 : N := 167772164.

Definition c3_soa (apex host : dname) : rr := c3_rr apex RT_SOA 300 (RD_SOA host host 1 7200 3600 86400 300).

Definition c3_root : uzone :=
  {| uz_apex := root_domain; uz_soa := c3_soa root_domain c3_n_a;
     uz_rrs := [c3_rr root_domain RT_NS 3600 (RD_Name c3_n_a); c3_rr c3_n_a RT_A 3600 (RD_A c3_ip0)];
     uz_cuts := [c3_rr c3_n_com RT_NS 3600 (RD_Name c3_n_ns_com)];
     uz_glue := [c3_rr c3_n_ns_com RT_A 3600 (RD_A c3_ip1)] |}.
Definition c3_com : uzone :=
  {| uz_apex := c3_n_com; uz_soa := c3_soa c3_n_com c3_n_ns_com;
     uz_rrs := [c3_rr c3_n_com RT_NS 3600 (RD_Name c3_n_ns_com); c3_rr c3_n_ns_com RT_A 3600 (RD_A c3_ip1)];
     uz_cuts := [c3_rr c3_n_ex RT_NS 3600 (RD_Name c3_n_ns_ex)];
     uz_glue := [c3_rr c3_n_ns_ex RT_A 3600 (RD_A c3_ip2)] |}.
Definition c3_ex : uzone :=
  {| uz_apex := c3_n_ex; uz_soa := c3_soa c3_n_ex c3_n_ns_ex;
     uz_rrs := [c3_rr c3_n_ex RT_NS 3600 (RD_Name c3_n_ns_ex); c3_rr c3_n_ns_ex RT_A 3600 (RD_A c3_ip2)];
     uz_cuts := [c3_rr c3_n_sub RT_NS 3600 (RD_Name c3_n_ns_sub)];
     uz_glue := [c3_rr c3_n_ns_sub RT_A 3600 (RD_A c3_ip3)] |}.
Definition c3_sub : uzone :=
  {| uz_apex := c3_n_sub; uz_soa := c3_soa c3_n_sub c3_n_ns_sub;
     uz_rrs := [c3_rr c3_n_sub RT_NS 3600 (RD_Name c3_n_ns_sub); c3_rr c3_n_ns_sub RT_A 3600 (RD_A c3_ip3);
                c3_rr c3_n_www RT_A 300 (RD_A 3221225985)];
     uz_cuts := []; uz_glue := [] |}.

Definition c3_universe : universe :=
  {| u_zones := [c3_root; c3_com; c3_ex; c3_sub];
     u_servers := [(inl c3_ip0, [root_domain]); (inl c3_ip1, [c3_n_com]); (inl c3_ip2, [c3_n_ex]); (inl c3_ip3, [c3_n_sub])] |}.

Definition c3_hints : list rr := [c3_rr root_domain RT_NS 3600 (RD_Name c3_n_a); c3_rr c3_n_a RT_A 3600 (RD_A c3_ip0)].
Definition c3_hz : zone :=
  match zone_build root_domain None (hint_ops c3_hints) with Ok z => z | _ => zone_new root_domain None end.

(* www.sub.example.com. A (held by the deepest zone) and MX (NODATA there) *)
Definition c3_q : question := {| q_name := c3_n_www; q_type := RT_A; q_class := RC_IN |}.
Definition c3_q_mx : question := {| q_name := c3_n_www; q_type := RT_MX; q_class := RC_IN |}.

Lemma c3_hz_built : zone_build root_domain None (hint_ops c3_hints) = Ok c3_hz.
Proof. vm_compute. reflexivity. Qed.

Lemma c3_consistent : consistentb c3_universe = true.
Proof. vm_compute. reflexivity. Qed.

Lemma c3_hints_for q : (q = c3_q \/ q = c3_q_mx) -> hints_for c3_universe c3_root c3_hints q.
Proof. intros [-> | ->]; apply hints_forb_sound; vm_compute; reflexivity. Qed.

Lemma c3_plain_question q : (q = c3_q \/ q = c3_q_mx) -> plain_question c3_universe q.
Proof. intros [-> | ->]; apply plain_questionb_sound; vm_compute; reflexivity. Qed.

Lemma c3_chain q : (q = c3_q \/ q = c3_q_mx) -> chain_from c3_universe c3_hints q [] c3_root [c3_com; c3_ex; c3_sub].
Proof. intros [-> | ->]; apply chain_fromb_sound; vm_compute; reflexivity. Qed.

(* www.sub.example.com. A: three referrals, then the answer of the deepest zone; four exchanges *)
Example chain_example_depth3 : exists c' ts',
  resolve scache sc_get sc_insert_all sort_names_ord (ModeRecursive OnlyV4) 53 (zones_insert [] c3_hz)
          (universe_oracle c3_universe []) 5%nat c3_q (sc_empty, tstate_init)
  = (Ok (NonAuthoritative [c3_rr c3_n_www RT_A 300 (RD_A 3221225985)] None), (c', ts'))
  /\ chain_log c3_universe 53 c3_q [c3_root; c3_com; c3_ex; c3_sub] (ts_log ts')
  /\ depths_increase c3_root [c3_com; c3_ex; c3_sub].
Proof.
  exact (chain_correct scache sc_get sc_insert_all sc_empty sc_hist_laws sort_names_ord sort_names_ord_perm 53 c3_universe c3_root c3_hints c3_hz c3_q eq_refl c3_hz_built
           (c3_hints_for _ (or_introl eq_refl)) (c3_plain_question _ (or_introl eq_refl))
           [c3_com; c3_ex; c3_sub] 5%nat (c3_chain _ (or_introl eq_refl)) (le_n 5)).
Qed.

(* www.sub.example.com. MX: the same four exchanges, then NODATA with the SOA of sub.example.com. *)
Example chain_example_depth3_nodata : exists c' ts',
  resolve scache sc_get sc_insert_all sort_names_ord (ModeRecursive OnlyV4) 53 (zones_insert [] c3_hz)
          (universe_oracle c3_universe []) 5%nat c3_q_mx (sc_empty, tstate_init)
  = (Ok (NonAuthoritative [] (Some (uz_soa c3_sub))), (c', ts'))
  /\ chain_log c3_universe 53 c3_q_mx [c3_root; c3_com; c3_ex; c3_sub] (ts_log ts')
  /\ depths_increase c3_root [c3_com; c3_ex; c3_sub].
Proof.
  exact (chain_correct scache sc_get sc_insert_all sc_empty sc_hist_laws sort_names_ord sort_names_ord_perm 53 c3_universe c3_root c3_hints c3_hz c3_q_mx eq_refl c3_hz_built
           (c3_hints_for _ (or_intror eq_refl)) (c3_plain_question _ (or_intror eq_refl))
           [c3_com; c3_ex; c3_sub] 5%nat (c3_chain _ (or_intror eq_refl)) (le_n 5)).
Qed.

(* the same run evaluated inside Coq: the result, and the addresses asked, in order *)
Example chain_example_depth3_eval :
  let r := resolve scache sc_get sc_insert_all sort_names_ord (ModeRecursive OnlyV4) 53 (zones_insert [] c3_hz)
                   (universe_oracle c3_universe []) 5%nat c3_q (sc_empty, tstate_init) in
  fst r = Ok (NonAuthoritative [c3_rr c3_n_www RT_A 300 (RD_A 3221225985)] None)
  /\ map x_addr (ts_log (snd (snd r))) = [(inl c3_ip0, 53); (inl c3_ip1, 53); (inl c3_ip2, 53); (inl c3_ip3, 53)]
  /\ consistentb c3_universe = true.
Proof. vm_compute. repeat split. Qed.

Section RealCacheLaws.
  Variable now : N.                       (* the fixed virtual instant *)

  (* a record with a positive TTL given to insert_all is held, alive for at least a second *)
  Lemma a_insert_all_live : forall rs m k,
    ((exists e, m k = Some e /\ now + NS_PER_S <= e) \/ (exists r, In r rs /\ 0 < rr_ttl r /\ rr_key r = k)) ->
    exists e, a_insert_all m now rs k = Some e /\ now + NS_PER_S <= e.
  Proof.
    induction rs as [|r rs IH]; intros m k H; cbn [a_insert_all].
    - destruct H as [H|(r & [] & _)]. exact H.
    - apply IH. unfold a_insert.
      destruct ((0 <? rr_ttl r) && key_eqb (rr_key r) k) eqn:E.
      + left. eexists. split; [reflexivity|]. apply andb_prop in E as [E _]. apply N.ltb_lt in E.
        unfold expiry_of, NS_PER_S. nia.
      + destruct H as [H|(r' & [<-|Hin] & Hpos & Hk)].
        * left. exact H.
        * exfalso. apply N.ltb_lt in Hpos. rewrite Hpos in E. cbn [andb] in E.
          assert (key_eqb (rr_key r) k = true) by (apply key_eqb_eq; exact Hk). congruence.
        * right. exists r'. auto.
  Qed.

  Lemma rc_empty_get n t : rc_get now rc_new n t = [].
  Proof.
    destruct (rc_get now rc_new n t) as [|r l] eqn:E; [reflexivity|]. exfalso.
    assert (H : In r (rc_get now rc_new n t)) by (rewrite E; left; reflexivity).
    apply rc_get_in in H as (_ & _ & _ & e & H & _). discriminate H.
  Qed.

End RealCacheLaws.
