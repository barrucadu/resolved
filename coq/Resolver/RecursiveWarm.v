(* A WARM cache: the chain theorem of RecursiveChain.v from any cache that is CONSISTENT with the
   universe (the empty one is).

     cache_consistent u hints c
        every record read from the cache (at a record type, not a QTYPE-only code) is a record of the
        universe -- same owner, type and data as a record in the cuts, the glue or the data of one of
        its zones -- (sound);  every nameserver host named by a cached NS record can be resolved in the
        fast pass: the hints hold an A record for it or the cache does (closed);  a non-empty cached
        RRset of a type other than NS at a name that is not a nameserver host holds the data of EVERY
        record of that name and type in the data of the universe's zones (complete).

   (a) the empty cache is consistent;
   (b) the resolution of a plain question started in a consistent cache ends in a consistent cache
       (every insert_all is given the filter result on a reply of [serve]: a referral's NS set and
       glue, or the answer RRset);
   (c) from a consistent cache the plain question still yields [auth_answer]: either straight from
       the cache -- the cached RRset, which has exactly the data of the authoritative one (TTLs and
       order are the cache's), no exchange -- or over the network, starting at the deepest zone of
       the question's delegation chain whose NS set is cached (the root hints if none), one exchange
       per zone from there on, returning exactly [auth_answer].

   The cache is abstract, with four laws about ONE insert_all into ANY cache (shape, sound, monotone,
   complete); they are proved for SimpleCache and for the real cache model at a fixed instant. *)
From Coq Require Import Permutation.
From RV Require Import Base.Prelude Name.NameModel Name.NameSpec Wire.WireTypes
     Wire.WireEncodeProofs Zone.ZoneModel Zone.ZoneFlat Zone.ZoneProofs Resolver.LocalModel
     Resolver.LocalProofs Resolver.ValidateModel Resolver.ValidateSpec Resolver.ValidateProofs
     Resolver.TransportModel Resolver.RecursiveModel Resolver.ForwardingModel
     Resolver.RecursiveProofs Resolver.Universe Resolver.ResolverFacts Resolver.RecursiveCorrect
     Resolver.RecursiveDepth1 Resolver.RecursiveChain Cache.CacheModel Cache.CacheSpec
     Cache.CacheInsert Resolver.ResolverCacheInstance Resolver.UniverseCheck.

(* a record type proper: not ANY and not one of the QTYPE-only codes AXFR MAILB MAILA *)
Definition concrete (t : N) : Prop :=
  t <> QT_Wildcard /\ existsb (fun p : N * list N => fst p =? t) qtype_table = false.

Lemma concrete_A : concrete RT_A. Proof. split; [discriminate|reflexivity]. Qed.
Lemma concrete_NS : concrete RT_NS. Proof. split; [discriminate|reflexivity]. Qed.
Lemma concrete_CNAME : concrete RT_CNAME. Proof. split; [discriminate|reflexivity]. Qed.

Lemma concrete_matches t qt : concrete qt -> rtype_matches t qt = true -> t = qt.
Proof. intros [H _]. apply rtype_matches_concrete, H. Qed.

Lemma concrete_matches_refl t : concrete t -> rtype_matches t t = true.
Proof.
  intros [H1 H2]. unfold rtype_matches. apply N.eqb_neq in H1. rewrite H1, H2. apply N.eqb_refl.
Qed.

Lemma ip_type_concrete t : ip_type t -> concrete t.
Proof. intros [-> | ->]; (split; [discriminate|reflexivity]). Qed.

Section CacheLaws.
  Variable cache : Type.
  Variable cache_get : cache -> dname -> N -> list rr.
  Variable cache_insert_all : cache -> list rr -> cache.

  Record cache_laws : Prop := {
    (* what is read at (n, t) is owned by n, of type t, class IN *)
    L_shape : forall c n t x, concrete t -> In x (cache_get c n t) ->
      rr_name x = n /\ rr_type x = t /\ rr_class x = RC_IN;
    (* what is read after an insert_all was read before or was given to it *)
    L_sound : forall c rrs n t x, concrete t -> In x (cache_get (cache_insert_all c rrs) n t) ->
      In x (cache_get c n t) \/ exists r, In r rrs /\ rr_name r = n /\ rr_type r = t /\ rr_data r = rr_data x /\ 0 < rr_ttl r;
    (* what was read before can be read after (the TTL may be that of a record given anew) *)
    L_mono : forall c rrs n t x, concrete t -> In x (cache_get c n t) ->
      exists x', In x' (cache_get (cache_insert_all c rrs) n t) /\ rr_data x' = rr_data x;
    (* what is given with a positive TTL can be read *)
    L_complete : forall c rrs r, In r rrs -> concrete (rr_type r) -> 0 < rr_ttl r ->
      exists x, In x (cache_get (cache_insert_all c rrs) (rr_name r) (rr_type r)) /\ rr_data x = rr_data r }.
End CacheLaws.

(* the laws give the history laws of RecursiveDepth1.v for any cache that answers nothing *)
Lemma cache_laws_hist cache cache_get cache_insert_all c0 :
  cache_laws cache cache_get cache_insert_all -> (forall n t, cache_get c0 n t = []) ->
  hist_laws cache cache_get cache_insert_all c0.
Proof.
  intros L H0. split; [exact H0|]. split.
  - induction ls as [|l ls IH] using rev_ind; intros n x Hx; [rewrite H0 in Hx; destruct Hx|].
    rewrite fold_left_app in Hx. cbn [fold_left] in Hx.
    destruct (L_shape _ _ _ L _ _ _ _ concrete_A Hx) as (H1 & H2 & H3). repeat (split; [assumption|]).
    rewrite concat_app. cbn [concat]. rewrite app_nil_r.
    destruct (L_sound _ _ _ L _ _ _ _ _ concrete_A Hx) as [Hx'|(r & Hr & Hn & Ht & Hd & _)].
    + destruct (IH n x Hx') as (_ & _ & _ & r & Hr & H). exists r. split; [apply in_or_app; left; exact Hr|exact H].
    + exists r. split; [apply in_or_app; right; exact Hr|auto].
  - intros ls rrs r Hin Ht Hpos E. rewrite fold_left_app in E. cbn [fold_left] in E.
    destruct (L_complete _ _ _ L (fold_left cache_insert_all ls c0) rrs r Hin) as (x & Hx & _); [rewrite Ht; exact concrete_A|exact Hpos|].
    rewrite Ht, E in Hx. destruct Hx.
Qed.

Theorem sc_cache_laws : cache_laws scache sc_get sc_insert_all.
Proof.
  constructor.
  - intros c n t x [Hc1 Hc2] H. apply (sc_get_in c n t x Hc1 Hc2) in H as (e & _ & _ & ->). auto.
  - intros c rrs n t x [Hc1 Hc2] H. apply (sc_get_in _ n t x Hc1 Hc2) in H as (e & He & Hpos & ->).
    destruct (sc_insert_all_sound _ _ _ _ He) as [H1|(r & Hr & Hk & -> & Hp)].
    + left. apply (sc_get_in c n t _ Hc1 Hc2). exists e. auto.
    + right. exists r. inversion Hk; subst. cbn [rr_data fst]. auto.
  - intros c rrs n t x [Hc1 Hc2] H. apply (sc_get_in c n t x Hc1 Hc2) in H as (e & He & Hpos & ->).
    destruct (sc_insert_all_mono rrs c _ _ He Hpos) as (e' & H1 & E1 & P1).
    eexists. split; [apply (sc_get_in _ n t _ Hc1 Hc2); exists e'; split; [exact H1|split; [exact P1|reflexivity]]|]. exact E1.
  - intros c rrs r Hin [Hc1 Hc2] Hpos. destruct (sc_insert_all_complete rrs c r Hin Hpos) as (e & He & E & P).
    eexists. split; [apply (sc_get_in _ _ _ _ Hc1 Hc2); exists e; split; [exact He|split; [exact P|reflexivity]]|]. exact E.
Qed.

Section WarmDefs.
  Variable u : universe.
  Variable hints : list rr.

  (* a record of the universe: in the cuts, the glue or the data (SOA included) of one of its zones *)
  Definition u_record (r : rr) : Prop :=
    exists z, In z (u_zones u) /\ In r (uz_cuts z ++ uz_glue z ++ zone_data z).

  (* [h] is named by an NS record of the universe owned by [n] / by some NS record of the universe *)
  Definition ns_host_any (n h : dname) : Prop := exists r, u_record r /\ rr_name r = n /\ is_ns_rr r = Some h.
  Definition ns_host_name (h : dname) : Prop := exists r, u_record r /\ is_ns_rr r = Some h.

  (* delegation points hold NS records only; NS records name a host *)
  Definition universe_ns_ok : Prop :=
    (forall z r, In z (u_zones u) -> In r (uz_cuts z) -> rr_type r = RT_NS)
    /\ (forall r, u_record r -> rr_type r = RT_NS -> exists h, rr_data r = RD_Name h).

  Section Consistent.
    Variable cache : Type.
    Variable cache_get : cache -> dname -> N -> list rr.

    (* the fast pass finds an address for the host: in the hints or in the cache *)
    Definition host_ready (c : cache) (h : dname) : Prop :=
      wf_name h /\ ((exists x, hint_match hints h RT_A x) \/ cache_get c h RT_A <> []).

    Definition cache_consistent (c : cache) : Prop :=
      (* sound: what is cached is a record of the universe (up to TTL and class) *)
      (forall n t x, concrete t -> In x (cache_get c n t) ->
         exists r, u_record r /\ rr_name r = n /\ rr_type r = t /\ rr_data r = rr_data x)
      (* closed: the hosts of a cached NS set are resolvable in the fast pass *)
      /\ (forall n x h, In x (cache_get c n RT_NS) -> is_ns_rr x = Some h -> host_ready c h)
      (* complete: a cached RRset (not NS, not at a nameserver host) has all the data of the universe *)
      /\ (forall n t, concrete t -> t <> RT_NS -> cache_get c n t <> [] -> ~ ns_host_name n ->
            forall z r, In z (u_zones u) -> In r (zone_data z) -> rr_name r = n -> rr_type r = t ->
              exists x, In x (cache_get c n t) /\ rr_data x = rr_data r).
  End Consistent.

  Section Question.
    Variable q : question.

    (* every nameserver host the universe names for the apex of [zc] has a well-formed name, and every
       A record the universe or the hints hold for it is the address of a server whose closest zone
       for the question name is [zc] *)
    Definition ns_hosts_ok (zc : uzone) : Prop :=
      forall h, ns_host_any (uz_apex zc) h ->
        wf_name h /\
        (forall r, u_record r -> rr_name r = h -> rr_type r = RT_A ->
           exists a, rr_data r = RD_A a /\ serves_owner u (inl a) zc q) /\
        (forall g a, In g hints -> labels (rr_name g) = labels h -> rr_type g = RT_A -> rr_data g = RD_A a ->
           serves_owner u (inl a) zc q).

    (* chain_link of RecursiveChain.v with the address clause over the whole universe (the cache may
       hold any of its records): [zc] is delegated from [zp] on the way to the question name with A glue *)
    Definition wlink (zp zc : uzone) : Prop :=
      In zp (u_zones u)
      /\ cut_owner zp (q_name q) = Some (uz_apex zc)
      /\ llen (labels (uz_apex zp)) < llen (labels (uz_apex zc))
      /\ (forall r, In r (uz_glue zp ++ uz_rrs zp) -> rr_name r <> q_name q)
      /\ (forall h, ns_host_of zp (uz_apex zc) h ->
            exists g, In g (uz_glue zp ++ uz_rrs zp) /\ rr_name g = h /\ rr_type g = RT_A /\ 0 < rr_ttl g)
      /\ ns_hosts_ok zc.

    (* the delegation chain from [z] down to [zk] *)
    Fixpoint wchain (zk z : uzone) (rest : list uzone) : Prop :=
      match rest with
      | [] => z = zk
      | zc :: rest' => wlink z zc /\ wchain zk zc rest'
      end.

    (* what the walk down the delegation chain needs of a question (plain or alias):
       zroot :: rest is the delegation chain of its name, zk (the last zone) owns the name *)
    Record walk_question (zroot : uzone) (rest : list uzone) (zk : uzone) : Prop := {
      wk_wf : wf_name (q_name q);
      wk_type : concrete (q_type q) /\ q_type q <> RT_NS /\ q_type q <> RT_CNAME;
      wk_root : uz_apex zroot = root_domain;
      wk_hints : hints_for u zroot hints q;
      wk_chain : wchain zk zroot rest;
      (* the name is not a nameserver host *)
      wk_nothost : ~ ns_host_name (q_name q);
      (* no alias strictly above the name *)
      wk_nocname : forall r, u_record r -> rr_type r = RT_CNAME -> In (labels (rr_name r)) (suffixes (labels (q_name q))) ->
        labels (rr_name r) = labels (q_name q);
      (* the owners of NS records at or above the name are the root and the apexes of the chain *)
      wk_onchain : forall r, u_record r -> rr_type r = RT_NS -> In (labels (rr_name r)) (suffixes (labels (q_name q))) ->
        labels (rr_name r) = [[]] \/ exists zi, In zi rest /\ rr_name r = uz_apex zi }.

    (* the name is owned plainly by zk: no alias at it, no glue for it anywhere, data for it only in
       zk; the answer records have TTL > 0 *)
    Record plain_at (zk : uzone) : Prop := {
      pa_owner : answering_zone u zk q;
      pa_noglue : forall z r, In z (u_zones u) -> In r (uz_glue z) -> rr_name r <> q_name q;
      pa_sole : forall z r, In z (u_zones u) -> In r (zone_data z) -> rr_name r = q_name q -> In r (zone_data zk);
      pa_ttl : forall r, In r (zone_data zk) -> rr_name r = q_name q -> rr_type r = q_type q -> 0 < rr_ttl r;
      pa_nocname : forall r, u_record r -> rr_type r = RT_CNAME -> rr_name r <> q_name q }.

    (* a plain question of the universe, for a resolver whose cache may be warm *)
    Definition warm_question (zroot : uzone) (rest : list uzone) (zk : uzone) : Prop :=
      walk_question zroot rest zk /\ plain_at zk.
  End Question.
End WarmDefs.

Lemma in_suffixes {A} (pre l : list A) : l <> [] -> In l (suffixes (pre ++ l)).
Proof.
  intro Hne. induction pre as [|x pre IH]; cbn [app].
  - destruct l; [congruence|]. left. reflexivity.
  - cbn [suffixes]. right. exact IH.
Qed.

(* the two lists hold the same data: each record of one has a record of the other with the same
   owner, type and data (TTL, class and order aside) *)
Definition same_data (a b : list rr) : Prop :=
  (forall x, In x a -> exists r, In r b /\ rr_name r = rr_name x /\ rr_type r = rr_type x /\ rr_data r = rr_data x)
  /\ (forall r, In r b -> exists x, In x a /\ rr_name x = rr_name r /\ rr_type x = rr_type r /\ rr_data x = rr_data r).

Lemma same_data_refl a : same_data a a.
Proof. split; intros x Hx; exists x; auto. Qed.

(* a record of a referral after the filter: an NS record of the cut naming one of the hosts, or an
   address record of one of the hosts from the parent's glue or data *)
Lemma referral_ins_from z zc names r : In r (referral_ins z zc names) ->
  (exists h, is_ns_rr r = Some h /\ In h names /\ In r (uz_cuts z) /\ rr_name r = uz_apex zc)
  \/ (is_ns_rr r = None /\ address_rr r /\ In (rr_name r) names /\ In r (uz_glue z ++ uz_rrs z)).
Proof.
  intro Hr. unfold referral_ins, referral_rrs in Hr. apply in_app_or in Hr as [Hr|Hr]; apply filter_In in Hr as [Hr Hf].
  - apply ns_glue_filter_true in Hf as [(h & Hns & _ & Hn & Hh)|(_ & Hfalse & _)]; [|discriminate]. left. exists h.
    split; [apply is_ns_rr_spec, Hns|]. split; [exact Hh|]. unfold referral in Hr. cbn [sr_authority] in Hr.
    apply filter_In in Hr as [Hr _]. auto.
  - unfold referral in Hr. cbn [sr_additional] in Hr. apply filter_In in Hr as [Hr _].
    destruct (is_ns_rr r) as [h|] eqn:En.
    + exfalso. unfold ns_glue_filter in Hf. rewrite En in Hf. discriminate Hf.
    + apply ns_glue_filter_true in Hf as [(h & Hns & Hfalse & _)|(Ha & _ & Hh)]; [discriminate|]. right. auto.
Qed.

Lemma ne_in {A} (l : list A) : l <> [] -> exists x, In x l.
Proof. destruct l as [|x l]; [congruence|]. exists x. left. reflexivity. Qed.

(* The three clauses of [cache_consistent] with the middle one -- what is known of a host a cached NS
   record names -- left open as [R]: the clauses and their preservation by insert_all do not depend on
   how a host is found ready ([cache_consistent] is [consistent_with host_ready]). *)
Section ConsistentWith.
  Variable cache : Type.
  Variable cache_get : cache -> dname -> N -> list rr.
  Variable cache_insert_all : cache -> list rr -> cache.
  Hypothesis LAWS : cache_laws cache cache_get cache_insert_all.
  Variable u : universe.
  Variable R : cache -> dname -> Prop.
  Hypothesis R_mono : forall c rrs h, R c h -> R (cache_insert_all c rrs) h.

  Definition consistent_with (c : cache) : Prop :=
    (forall n t x, concrete t -> In x (cache_get c n t) ->
       exists r, u_record u r /\ rr_name r = n /\ rr_type r = t /\ rr_data r = rr_data x)
    /\ (forall n x h, In x (cache_get c n RT_NS) -> is_ns_rr x = Some h -> R c h)
    /\ (forall n t, concrete t -> t <> RT_NS -> cache_get c n t <> [] -> ~ ns_host_name u n ->
          forall z r, In z (u_zones u) -> In r (zone_data z) -> rr_name r = n -> rr_type r = t ->
            exists x, In x (cache_get c n t) /\ rr_data x = rr_data r).

  (* a cache that answers nothing is consistent *)
  Lemma empty_consistent_with c : (forall n t, cache_get c n t = []) -> consistent_with c.
  Proof.
    intro H. split; [|split].
    - intros n t x _ Hx. rewrite H in Hx. destruct Hx.
    - intros n x h Hx. rewrite H in Hx. destruct Hx.
    - intros n t _ _ Hne. rewrite H in Hne. congruence.
  Qed.

  (* the general step: the new records are records of the universe; [R] holds afterwards of the hosts
     of the new NS records; the new records of other types are at nameserver hosts, or they hold all
     the data of their name and type, with positive TTLs *)
  Lemma consistent_with_insert c rrs :
    consistent_with c ->
    (forall r, In r rrs -> u_record u r) ->
    (forall r h, In r rrs -> is_ns_rr r = Some h -> R (cache_insert_all c rrs) h) ->
    (forall r, In r rrs -> rr_type r <> RT_NS -> concrete (rr_type r) -> ~ ns_host_name u (rr_name r) ->
       forall z r', In z (u_zones u) -> In r' (zone_data z) -> rr_name r' = rr_name r -> rr_type r' = rr_type r ->
         In r' rrs /\ 0 < rr_ttl r') ->
    consistent_with (cache_insert_all c rrs).
  Proof.
    intros (S1 & S2 & S3) Hrec Hns Hall. split; [|split].
    - intros n t x Hc Hx. destruct (L_sound _ _ _ LAWS c rrs n t x Hc Hx) as [H|(r & Hr & H1 & H2 & H3 & _)].
      + exact (S1 n t x Hc H).
      + exists r. split; [exact (Hrec r Hr)|auto].
    - intros n x h Hx Hh. destruct (L_sound _ _ _ LAWS c rrs n RT_NS x concrete_NS Hx) as [H|(r & Hr & H1 & H2 & H3 & _)].
      + apply R_mono. exact (S2 n x h H Hh).
      + apply (Hns r h Hr). apply is_ns_rr_spec in Hh as [_ Hd]. apply is_ns_rr_spec. split; [exact H2|congruence].
    - intros n t Hc Hns' Hne Hnot z r' Hz Hr' Hn' Ht'.
      destruct (ne_in _ Hne) as [x Hx].
      destruct (L_sound _ _ _ LAWS c rrs n t x Hc Hx) as [H|(r & Hr & H1 & H2 & H3 & _)].
      + assert (Hne0 : cache_get c n t <> []) by (intro E; rewrite E in H; destruct H).
        destruct (S3 n t Hc Hns' Hne0 Hnot z r' Hz Hr' Hn' Ht') as (x0 & Hx0 & Hd0).
        destruct (L_mono _ _ _ LAWS c rrs n t x0 Hc Hx0) as (x1 & Hx1 & Hd1). exists x1. split; [exact Hx1|congruence].
      + rewrite <- H2 in Hns', Hc. rewrite <- H1 in Hnot.
        destruct (Hall r Hr Hns' Hc Hnot z r' Hz Hr' ltac:(congruence) ltac:(congruence)) as [Hin Hpos].
        assert (Hc' : concrete (rr_type r')) by (rewrite Ht', <- H2; exact Hc).
        destruct (L_complete _ _ _ LAWS c rrs r' Hin Hc' Hpos) as (x1 & Hx1 & Hd1).
        rewrite Hn', Ht' in Hx1. exists x1. auto.
  Qed.

  (* nothing is cached where the universe has no record *)
  Lemma nothing_cached c n t : consistent_with c -> concrete t ->
    (forall r, u_record u r -> rr_name r = n -> rr_type r <> t) -> cache_get c n t = [].
  Proof.
    intros (S1 & _) Hc Hno. destruct (cache_get c n t) as [|y l] eqn:E; [reflexivity|]. exfalso.
    destruct (S1 n t y Hc) as (r & Hr & Hrn & Hrt & _); [rewrite E; left; reflexivity|]. exact (Hno r Hr Hrn Hrt).
  Qed.

  (* the records of a referral from [z] to the cut at the apex of [zc]: the NS set of the cut and the
     glue of its hosts [names]; [R] is owed of those hosts in the cache afterwards *)
  Lemma consistent_with_insert_referral c z zc names :
    universe_ns_ok u -> consistent_with c -> In z (u_zones u) ->
    (forall h, In h names <-> ns_host_of z (uz_apex zc) h) ->
    (forall h, ns_host_of z (uz_apex zc) h -> ns_host_any u (uz_apex zc) h -> R (cache_insert_all c (referral_ins z zc names)) h) ->
    consistent_with (cache_insert_all c (referral_ins z zc names))
    /\ forall h, In h names -> ns_host_any u (uz_apex zc) h /\ R (cache_insert_all c (referral_ins z zc names)) h.
  Proof.
    intros (Ucut & Uns) HC Hz Hnames Hready.
    pose proof (referral_ins_from z zc names) as Hfrom.
    assert (Hcutrec : forall r, In r (uz_cuts z) -> u_record u r).
    { intros r Hr. exists z. split; [exact Hz|]. apply in_or_app. left. exact Hr. }
    assert (Hhostname : forall h, In h names ->
              ns_host_name u h /\ ns_host_any u (uz_apex zc) h /\ R (cache_insert_all c (referral_ins z zc names)) h).
    { intros h Hh. apply Hnames in Hh. pose proof Hh as (r & Hr & Hn & Hrh).
      assert (Hany : ns_host_any u (uz_apex zc) h) by (exists r; auto using Hcutrec).
      split; [exists r; auto using Hcutrec|exact (conj Hany (Hready h Hh Hany))]. }
    split; [|intros h Hin; exact (proj2 (Hhostname h Hin))].
    apply consistent_with_insert; [exact HC| | |].
    - intros r Hr. destruct (Hfrom r Hr) as [(h & _ & _ & Hc & _)|(_ & _ & _ & Hg)]; [exact (Hcutrec r Hc)|].
      exists z. split; [exact Hz|]. apply in_or_app. right. apply in_app_or in Hg as [Hg|Hg]; apply in_or_app; [left; exact Hg|].
      right. right. exact Hg.
    - intros r h Hr Hh. destruct (Hfrom r Hr) as [(h' & Hh' & Hin & _)|(Hnone & _)]; [|congruence].
      assert (h' = h) by congruence. subst h'. exact (proj2 (proj2 (Hhostname h Hin))).
    - intros r Hr Hnotns _ Hnothost. exfalso. destruct (Hfrom r Hr) as [(h & Hh & _)|(_ & _ & Hin & _)].
      + apply is_ns_rr_spec in Hh as [Ht _]. contradiction.
      + exact (Hnothost (proj1 (Hhostname _ Hin))).
  Qed.

  (* the glue of a host of the cut can be read after the referral was cached *)
  Lemma glue_cached c z zc names g h :
    In g (uz_glue z ++ uz_rrs z) -> rr_name g = h -> ip_type (rr_type g) -> 0 < rr_ttl g -> In h names ->
    ns_host_of z (uz_apex zc) h -> cache_get (cache_insert_all c (referral_ins z zc names)) h (rr_type g) <> [].
  Proof.
    intros Hg Hgn Hgt Hgttl Hin Hhost.
    destruct (L_complete _ _ _ LAWS c _ g (referral_addr_in z (uz_apex zc) names g h Hg Hgn Hgt Hin Hhost) (ip_type_concrete _ Hgt) Hgttl)
      as (x & Hx & _).
    intro E. unfold referral_ins in E. rewrite <- Hgn in E. rewrite E in Hx. destruct Hx.
  Qed.

  Variable q : question.
  Variable zk : uzone.
  Hypothesis Hqc : concrete (q_type q).
  Hypothesis Hqns : q_type q <> RT_NS.
  Hypothesis AZ : answering_zone u zk q.

  Lemma owner_in : In zk (u_zones u).
  Proof. destruct AZ as ((Hb & _) & _). apply best_zone_spec in Hb as [Hb|[Hb _]]; [discriminate|exact Hb]. Qed.

  Lemma answer_in r : In r (aa_rrs (auth_answer u q)) -> In r (zone_data zk) /\ rr_name r = q_name q /\ rr_type r = q_type q.
  Proof. exact (auth_rrs_in u zk q r (proj1 AZ) (proj1 Hqc)). Qed.

  Lemma in_answer r : In r (zone_data zk) -> rr_name r = q_name q -> rr_type r = q_type q -> In r (aa_rrs (auth_answer u q)).
  Proof.
    intros Hr Hn Ht. rewrite (auth_rrs_plain u zk q (proj1 AZ)). apply filter_In. split.
    - unfold rrs_at. apply filter_In. split; [exact Hr|]. apply dname_eqb_eq. exact Hn.
    - rewrite Ht. apply concrete_matches_refl, Hqc.
  Qed.

  (* the answer RRset of the zone that owns the name; completeness is owed only at names that are not
     nameserver hosts *)
  Lemma consistent_with_insert_answer c : (~ ns_host_name u (q_name q) -> plain_at u q zk) ->
    consistent_with c -> consistent_with (cache_insert_all c (aa_rrs (auth_answer u q))).
  Proof.
    intros HS3 HC. apply consistent_with_insert; [exact HC| | |].
    - intros r Hr. exists zk. split; [exact owner_in|]. apply in_or_app. right. apply in_or_app. right. exact (proj1 (answer_in r Hr)).
    - intros r h Hr Hh. exfalso. apply is_ns_rr_spec in Hh as [Ht _]. destruct (answer_in r Hr) as (_ & _ & Ht'). congruence.
    - intros r Hr _ _ Hnot z r' Hz Hr' Hn' Ht'. destruct (answer_in r Hr) as (_ & Hn & Ht).
      rewrite Hn in Hnot. pose proof (HS3 Hnot) as PA.
      assert (Hzk : In r' (zone_data zk)) by (apply (pa_sole _ _ _ PA z r' Hz Hr'); congruence).
      split; [apply in_answer; congruence|apply (pa_ttl _ _ _ PA r' Hzk); congruence].
  Qed.

  (* a non-empty cached RRset for a plain question has exactly the authoritative data (and the
     authoritative answer is then not a denial) *)
  Lemma cached_same_data c : universe_ns_ok u -> plain_at u q zk -> ~ ns_host_name u (q_name q) ->
    consistent_with c -> cache_get c (q_name q) (q_type q) <> [] ->
    same_data (cache_get c (q_name q) (q_type q)) (aa_rrs (auth_answer u q)) /\ aa_soa (auth_answer u q) = None.
  Proof.
    intros UNS PA Hnothost (S1 & S2 & S3) Hne.
    assert (Hsame : same_data (cache_get c (q_name q) (q_type q)) (aa_rrs (auth_answer u q))).
    { split.
      - intros x Hx. destruct (L_shape _ _ _ LAWS c _ _ x Hqc Hx) as (Hxn & Hxt & _).
        destruct (S1 _ _ x Hqc Hx) as (r & (z & Hzin & Hr) & Hrn & Hrt & Hrd).
        exists r. split; [|split; [congruence|split; congruence]].
        apply in_answer; [|exact Hrn|exact Hrt].
        apply in_app_or in Hr as [Hr|Hr].
        + exfalso. apply Hqns. rewrite <- Hrt. exact (proj1 UNS z r Hzin Hr).
        + apply in_app_or in Hr as [Hr|Hr]; [exfalso; exact (pa_noglue _ _ _ PA z r Hzin Hr Hrn)|].
          exact (pa_sole _ _ _ PA z r Hzin Hr Hrn).
      - intros r Hr. destruct (answer_in r Hr) as (Hin & Hn & Ht).
        destruct (S3 _ _ Hqc Hqns Hne Hnothost zk r owner_in Hin Hn Ht) as (x & Hx & Hd).
        destruct (L_shape _ _ _ LAWS c _ _ x Hqc Hx) as (Hxn & Hxt & _).
        exists x. split; [exact Hx|]. split; [congruence|]. split; [congruence|exact Hd]. }
    split; [exact Hsame|]. apply (auth_soa_plain u zk q (proj1 AZ)).
    destruct (ne_in _ Hne) as [y0 Hy0]. destruct (proj1 Hsame y0 Hy0) as (r & Hr & _). intro E. rewrite E in Hr. destruct Hr.
  Qed.
End ConsistentWith.

Section Keep.
  Variable cache : Type.
  Variable cache_get : cache -> dname -> N -> list rr.
  Variable cache_insert_all : cache -> list rr -> cache.
  Hypothesis LAWS : cache_laws cache cache_get cache_insert_all.
  Variable u : universe.
  Variable hints : list rr.
  Variable q : question.

  Notation consistent := (cache_consistent u hints cache cache_get).
  Notation ready := (host_ready hints cache cache_get).

  Lemma ready_mono c rrs h : ready c h -> ready (cache_insert_all c rrs) h.
  Proof.
    intros [Hwf [Hh|Hc]]; split; try exact Hwf; [left; exact Hh|right].
    destruct (cache_get c h RT_A) as [|x l] eqn:E; [congruence|].
    destruct (L_mono _ _ _ LAWS c rrs h RT_A x concrete_A) as (x' & Hx' & _); [rewrite E; left; reflexivity|].
    intro E'. rewrite E' in Hx'. destruct Hx'.
  Qed.

  (* the records of a referral: the NS set of the cut and the glue of its hosts *)
  Lemma consistent_insert_referral c z zc names :
    universe_ns_ok u -> consistent c -> wlink u hints q z zc ->
    (forall h, In h names <-> ns_host_of z (uz_apex zc) h) ->
    consistent (cache_insert_all c (referral_ins z zc names))
    /\ forall h, In h names -> ns_host_any u (uz_apex zc) h /\ ready (cache_insert_all c (referral_ins z zc names)) h.
  Proof.
    intros UNS HC (Hz & _ & _ & _ & Hglue & Hhosts) Hnames.
    apply (consistent_with_insert_referral cache cache_get cache_insert_all LAWS u ready ready_mono c z zc names UNS HC Hz Hnames).
    intros h Hhost Hany. destruct (Hglue h Hhost) as (g & Hg & Hgn & Hgt & Hgttl).
    split; [exact (proj1 (Hhosts h Hany))|]. right. rewrite <- Hgt.
    apply (glue_cached cache cache_get cache_insert_all LAWS c z zc names g h); try assumption; [left; exact Hgt|exact (proj2 (Hnames h) Hhost)].
  Qed.
End Keep.

Lemma ns_hostnames_of_in rrs h : In h (ns_hostnames_of rrs) <-> exists x, In x rrs /\ is_ns_rr x = Some h.
Proof.
  unfold ns_hostnames_of, is_ns_rr. rewrite in_flat_map. split.
  - intros (x & Hx & Hh). exists x. split; [exact Hx|]. destruct (rr_type x =? RT_NS); [|destruct Hh].
    destruct (rr_data x); try (destruct Hh; fail). destruct Hh as [->|[]]. reflexivity.
  - intros (x & Hx & Hh). exists x. split; [exact Hx|]. destruct (rr_type x =? RT_NS); [|discriminate].
    destruct (rr_data x); try discriminate. inversion Hh. left. reflexivity.
Qed.

(* candidate_nameservers from a cache consistent in the sense of [consistent_with R] that holds no alias
   for the name itself, when no alias of the universe lies strictly above the name: the root nameservers
   of the hints, or the cached NS set of a name at or above the name, which is the NS set of a record of
   the universe and whose hosts all satisfy [R] *)
Section CandNS.
  Variable cache : Type.
  Variable cache_get : cache -> dname -> N -> list rr.
  Variable cache_insert_all : cache -> list rr -> cache.
  Hypothesis LAWS : cache_laws cache cache_get cache_insert_all.
  Variable zs : zones.
  Variable hints : list rr.
  Hypothesis Hz : hints_zones zs hints.
  Hypothesis Hh : Forall hint_shape hints.
  Variable u : universe.
  Hypothesis UNS : universe_ns_ok u.
  Variable R : cache -> dname -> Prop.

  (* a cached NS set is the NS set of a record of the universe; its hosts satisfy [R] *)
  Lemma cached_ns_hosts c n : consistent_with cache cache_get u R c -> cache_get c n RT_NS <> [] ->
    ns_hostnames_of (cache_get c n RT_NS) <> []
    /\ (exists r, u_record u r /\ rr_name r = n /\ rr_type r = RT_NS)
    /\ forall h, In h (ns_hostnames_of (cache_get c n RT_NS)) -> ns_host_any u n h /\ R c h.
  Proof.
    intros (S1 & S2 & _) Hne.
    assert (Hrec : forall x, In x (cache_get c n RT_NS) ->
              exists r h, u_record u r /\ rr_name r = n /\ rr_type r = RT_NS /\ is_ns_rr r = Some h /\ is_ns_rr x = Some h).
    { intros x Hx. destruct (L_shape _ _ _ LAWS c n RT_NS x concrete_NS Hx) as (_ & Hxt & _).
      destruct (S1 n RT_NS x concrete_NS Hx) as (r & Hr & Hrn & Hrt & Hrd).
      destruct (proj2 UNS r Hr Hrt) as [h Hd]. exists r, h. repeat (split; [assumption|]).
      split; apply is_ns_rr_spec; split; congruence. }
    destruct (ne_in _ Hne) as [x1 Hx1]. destruct (Hrec x1 Hx1) as (r1 & h1 & Hr1 & Hr1n & Hr1t & Hr1h & Hx1h).
    split; [|split; [exists r1; auto|]].
    - intro E. assert (Hin : In h1 (ns_hostnames_of (cache_get c n RT_NS))) by (apply ns_hostnames_of_in; eauto).
      rewrite E in Hin. destruct Hin.
    - intros h Hin. apply ns_hostnames_of_in in Hin as (x & Hx & Hxh).
      destruct (Hrec x Hx) as (r & h' & Hr & Hrn & Hrt & Hrh & Hxh'). assert (h' = h) by congruence. subst h'.
      split; [exists r; auto|exact (S2 n x h Hx Hxh)].
  Qed.

  Lemma cand_ns_cached stack q c ts :
    at_recursion_limit stack = false -> (forall n, is_duplicate_question stack (mkq n RT_NS RC_IN) = false) ->
    (exists x, hint_match hints root_domain RT_NS x) -> wf_name (q_name q) ->
    (forall r, u_record u r -> rr_type r = RT_CNAME -> In (labels (rr_name r)) (suffixes (labels (q_name q))) ->
       labels (rr_name r) = labels (q_name q)) ->
    consistent_with cache cache_get u R c -> cache_get c (q_name q) RT_CNAME = [] ->
    exists d, candidate_nameservers cache cache_get zs stack (q_name q) (c, ts) = (Val (Some d), (c, ts))
      /\ ns_hostnames d <> []
      /\ ((ns_name d = root_domain /\ exists rrs, ns_hostnames d = ns_hostnames_of rrs
                                       /\ forall x, In x rrs <-> hint_match hints root_domain RT_NS x)
          \/ (labels (ns_name d) <> [[]] /\ cache_get c (ns_name d) RT_NS <> []
              /\ (exists r, u_record u r /\ rr_name r = ns_name d /\ rr_type r = RT_NS
                            /\ In (labels (rr_name r)) (suffixes (labels (q_name q))))
              /\ forall h, In h (ns_hostnames d) -> ns_host_any u (ns_name d) h /\ R c h)).
  Proof.
    intros Hlim Hdup [x0 Hx0] Hwf Hnocn HC Hown. destruct (proj1 Hwf) as (front & Hl & _).
    unfold candidate_nameservers. rewrite Hl.
    assert (Hsuf : forall pre l front', front = pre ++ l :: front' ->
              In (labels (mkname (l :: front' ++ [[]]))) (suffixes (labels (q_name q)))).
    { intros pre l front' ->. rewrite Hl, <- app_assoc. apply (in_suffixes pre (l :: front' ++ [[]])). discriminate. }
    destruct (cand_ns_walk cache cache_get zs hints Hz Hh stack c ts x0 Hlim (Hdup _) Hx0 front)
      as (d & E & Hne & [Hroot|(pre & l & front' & Ef & Hdn & Hns & Eh)]).
    { rewrite <- Hl. exact (proj1 Hwf). }
    { intros pre l front' Ef n _. split; [|intro Hne; exact (proj1 (cached_ns_hosts c n HC Hne))].
      intros _. destruct (cache_get c n RT_CNAME) as [|y l2] eqn:Ecn; [reflexivity|]. exfalso.
      destruct (proj1 HC n RT_CNAME y concrete_CNAME) as (r & Hr & Hrn & Hrt & _); [rewrite Ecn; left; reflexivity|].
      assert (Hwfn : wf_name n).
      { split; [|reflexivity]. cbn [n mkname labels]. apply (wf_labels_suffix pre); [|discriminate].
        pose proof (proj1 Hwf) as Hw. rewrite Hl, Ef, <- app_assoc in Hw. exact Hw. }
      assert (n = q_name q) as En.
      { apply wf_name_eq; [exact Hwfn|exact Hwf|]. rewrite <- Hrn. apply (Hnocn r Hr Hrt). rewrite Hrn. exact (Hsuf pre l front' Ef). }
      rewrite En, Hown in Ecn. discriminate Ecn. }
    - exists d. auto.
    - exists d. split; [exact E|]. split; [exact Hne|]. right.
      destruct (cached_ns_hosts c (ns_name d) HC Hns) as (_ & (r & Hr & Hrn & Hrt) & Hhosts).
      split; [rewrite Hdn; cbn [mkname labels]; intro E0; inversion E0; destruct front'; discriminate|].
      split; [exact Hns|]. split; [exists r; repeat (split; [assumption|]); rewrite Hrn, Hdn, <- Hl; exact (Hsuf pre l front' Ef)|].
      rewrite Eh. exact Hhosts.
  Qed.
End CandNS.

Section Warm.
  Variable cache : Type.
  Variable cache_get : cache -> dname -> N -> list rr.
  Variable cache_insert_all : cache -> list rr -> cache.
  Hypothesis LAWS : cache_laws cache cache_get cache_insert_all.

  Variable sort_names : list dname -> list dname.
  Hypothesis Hsort : forall l, Permutation (sort_names l) l.

  Variable zs : zones.
  Variable hints : list rr.
  Hypothesis Hz : hints_zones zs hints.
  Hypothesis Hh : Forall hint_ok hints.

  Variable o : oracle.
  Variable port : N.
  Variable u : universe.
  Hypothesis UNS : universe_ns_ok u.

  Variable q : question.
  Variable zroot : uzone.
  Variable rest0 : list uzone.
  Variable zk : uzone.
  Hypothesis WK : walk_question u hints q zroot rest0 zk.
  Hypothesis Hdel : delivers_log o u port q.

  (* the questions under way when [q] is asked (none at the top; the alias questions when [q] is the
     target of an alias): none for NS, none about a nameserver host, none the hints answer *)
  Variable stk : list question.
  Hypothesis Hstk_len : (length stk + 1 < 32)%nat.
  Hypothesis Hstk_q : is_duplicate_question stk q = false.
  Hypothesis Hstk : Forall (fun s => q_type s <> RT_NS /\ ~ ns_host_name u (q_name s)
                                     /\ forall x, ~ hint_match hints (q_name s) (q_type s) x) stk.
  Notation istk := (stk ++ [q]).

  Notation rrn := (resolve_recursive_notimeout cache cache_get cache_insert_all sort_names zs o OnlyV4 port).
  Notation cloop := (candidate_loop cache cache_get cache_insert_all sort_names zs o OnlyV4 port).
  Notation rhi := (resolve_hostname_to_ip cache cache_get zs OnlyV4).
  Notation consistent := (cache_consistent u hints cache cache_get).
  Notation ready := (host_ready hints cache cache_get).
  Notation A := (auth_answer u q).

  Let Hq_nohint : forall x, ~ hint_match hints (q_name q) (q_type q) x :=
    hints_no_match u zroot hints q (wk_hints _ _ _ _ _ _ WK).
  Let Hq_wf : wf_name (q_name q) := wk_wf _ _ _ _ _ _ WK.

  Lemma Hq_any : q_type q <> QT_Wildcard.
  Proof. exact (proj1 (proj1 (wk_type _ _ _ _ _ _ WK))). Qed.

  Lemma Hlim_out : at_recursion_limit stk = false.
  Proof. apply limit_false. lia. Qed.
  Lemma Hlim_in : at_recursion_limit istk = false.
  Proof. apply limit_false. rewrite app_length. cbn [length]. lia. Qed.

  Lemma not_dup_istk q' :
    (forall s, In s istk -> q_name q' = q_name s -> q_type q' = q_type s -> False) -> is_duplicate_question istk q' = false.
  Proof.
    intro H. unfold is_duplicate_question. destruct (existsb (question_eqb q') istk) eqn:E; [|reflexivity]. exfalso.
    apply existsb_exists in E as (s & Hs & Hq). apply question_eqb_true in Hq as [H1 H2]. exact (H s Hs H1 H2).
  Qed.

  Lemma in_istk s : In s istk -> s = q \/ (q_type s <> RT_NS /\ ~ ns_host_name u (q_name s)
                                           /\ forall x, ~ hint_match hints (q_name s) (q_type s) x).
  Proof.
    intro H. apply in_app_or in H as [H|[H|[]]]; [right|left; auto]. exact (proj1 (Forall_forall _ _) Hstk s H).
  Qed.

  Lemma dup_host h : ns_host_name u h -> is_duplicate_question istk (mkq h RT_A RC_IN) = false.
  Proof.
    intro Hh'. apply not_dup_istk. intros s Hs Hn _. cbn [mkq q_name] in Hn.
    destruct (in_istk s Hs) as [->|(_ & H & _)]; [apply (wk_nothost _ _ _ _ _ _ WK)|apply H]; rewrite <- Hn; exact Hh'.
  Qed.

  Lemma dup_hint n t x : hint_match hints n t x -> is_duplicate_question istk (mkq n t RC_IN) = false.
  Proof.
    intro Hm. apply not_dup_istk. intros s Hs Hn Ht. cbn [mkq q_name q_type] in Hn, Ht.
    destruct (in_istk s Hs) as [->|(_ & _ & H)]; [apply (Hq_nohint x)|apply (H x)]; rewrite <- Hn, <- Ht; exact Hm.
  Qed.

  (* the candidate [h] resolves locally, in the cache [c], to the address of a server of [z] *)
  Definition wcand_ok (z : uzone) (c : cache) (h : dname) : Prop :=
    forall rec ts, exists a, rhi rec istk true h (c, ts) = (Val (Some (inl a)), (c, ts)) /\ serves_owner u (inl a) z q.

  Lemma host_cand_ok zc c h :
    consistent c -> ns_hosts_ok u hints q zc -> ns_host_any u (uz_apex zc) h -> ready c h -> wcand_ok zc c h.
  Proof.
    intros (S1 & _) Hok Hany (Hwf & Hready) rec ts.
    destruct (Hok h Hany) as (_ & Hu & Hhi).
    assert (Hdup : is_duplicate_question istk (mkq h RT_A RC_IN) = false).
    { apply dup_host. destruct Hany as (r & Hr & _ & Hh'). exists r. auto. }
    apply (rhi_v4 cache cache_get zs hints Hz (hint_oks_shape _ Hh) rec istk h (c, ts)
             (fun a => serves_owner u (inl a) zc q) Hlim_in Hdup Hwf Hhi).
    destruct Hready as [Hx|Hne]; [left; exact Hx|right]. split; [exact Hne|]. cbn [fst]. intros x Hx.
    destruct (L_shape _ _ _ LAWS c h RT_A x concrete_A Hx) as (H1 & H2 & H3). repeat (split; [assumption|]).
    destruct (S1 h RT_A x concrete_A Hx) as (r & Hr & Hrn & Hrt & Hrd).
    destruct (Hu r Hr Hrn Hrt) as (a & Ha & Hsv). exists a. split; [congruence|exact Hsv].
  Qed.

  Lemma cuts_ns z : In z (u_zones u) -> Forall (fun r => exists h, is_ns_rr r = Some h) (uz_cuts z).
  Proof.
    intro Hin. destruct UNS as (Ucut & Uns). apply Forall_forall. intros r Hr.
    pose proof (Ucut z r Hin Hr) as Ht.
    destruct (Uns r) as [h Hd]; [exists z; split; [exact Hin|apply in_or_app; left; exact Hr]|exact Ht|].
    exists h. apply is_ns_rr_spec. split; assumption.
  Qed.

  (* THE INDUCTION of RecursiveDepth1.chain_loop over a consistent cache, up to the last zone: the
     loop follows one referral per zone of [visited] and then stands at [zk], with candidates that
     resolve in the fast pass to servers of [zk], in a consistent cache *)
  Lemma warm_descend : forall rest z c mc cands f ts,
    wchain u hints q zk z rest -> consistent c ->
    cands <> [] -> (forall h, In h cands -> wcand_ok z c h) ->
    mc <= llen (labels (uz_apex z)) -> ts_elapsed ts <= BUDGET_MS ->
    exists c1 ts1 es mc1 cands1 visited,
      cloop (length rest + f) istk q [] mc cands [] true (c, ts) = cloop f istk q [] mc1 cands1 [] true (c1, ts1)
      /\ ts_rlog ts1 = rev es ++ ts_rlog ts
      /\ z :: rest = visited ++ [zk] /\ chain_log u port q visited es
      /\ consistent c1 /\ cands1 <> [] /\ (forall h, In h cands1 -> wcand_ok zk c1 h)
      /\ mc1 <= llen (labels (uz_apex zk)) /\ ts_elapsed ts1 <= BUDGET_MS.
  Proof.
    induction rest as [|zc rest IH]; intros z c mc cands f ts Hch HC Hne Hcok Hmc Hbud.
    - cbn [wchain] in Hch. subst z. exists c, ts, [], mc, cands, []. cbn [length Nat.add rev app].
      repeat (split; [first [reflexivity|assumption|constructor]|]). exact Hbud.
    - cbn [length Nat.add]. cbn [wchain] in Hch. destruct Hch as (Hlink & Hrest).
      pose proof Hlink as (Hzin & Hcut & Hdeep & Hnoglue & Hglue & Hhosts).
      destruct (pop_last_some _ Hne) as (cand & rest1 & Ep & Hc).
      destruct (Hcok cand Hc (rrn (length rest + f)) ts) as (a & Eh & Hsrv).
      rewrite cloop_S.
      destruct (referral_hop cache cache_get cache_insert_all sort_names zs o OnlyV4 port one_udp u (inl a) z (uz_apex zc) q
                  mc (c, ts) Hdel Hsrv Hcut (cuts_ns z Hzin) ltac:(lia) Hnoglue Hbud)
        as (names & ts1 & Hnames & Hnn & Hbud1 & (e & Hlog & Hk & Ha & Hqe & Hrd) & E1).
      cbn [fst snd] in E1, Hlog. rewrite (E1 _ _ _ _ _ _ _ _ _ Ep Eh). clear E1.
      fold (referral_ins z zc names).
      destruct (consistent_insert_referral cache cache_get cache_insert_all LAWS u hints q c z zc names UNS HC Hlink Hnames) as (HC1 & Hready).
      apply (perm_ne _ _ (Hsort names)) in Hnn.
      destruct (IH zc (cache_insert_all c (referral_ins z zc names)) (llen (labels (uz_apex zc))) (sort_names names) f ts1
                  Hrest HC1 Hnn) as (c' & ts' & es & mc1 & cands1 & visited & E & Hlog' & Hvis & Hes & HC' & Hne1 & Hok1 & Hmc1 & Hbud').
      { intros h Hin. apply (Permutation_in _ (Hsort _)) in Hin. destruct (Hready h Hin) as [Hany Hr].
        exact (host_cand_ok zc _ h HC1 Hhosts Hany Hr). }
      { lia. }
      { exact Hbud1. }
      exists c', ts', (e :: es), mc1, cands1, (z :: visited). split; [exact E|].
      split; [rewrite Hlog', Hlog; cbn [rev]; rewrite <- app_assoc; reflexivity|].
      split; [cbn [app]; rewrite Hvis; reflexivity|].
      split; [constructor; [exists a; unfold query_to; auto|exact Hes]|].
      auto 10.
  Qed.

  Lemma ns_not_dup name : is_duplicate_question istk (mkq name RT_NS RC_IN) = false.
  Proof.
    apply not_dup_istk. intros s Hs _ Ht. cbn [mkq q_type] in Ht.
    destruct (in_istk s Hs) as [->|(H & _)]; [|congruence].
    destruct (wk_type _ _ _ _ _ _ WK) as (_ & Hns & _). congruence.
  Qed.

  Lemma wchain_split : forall rest z, wchain u hints q zk z rest -> forall zi, In zi rest ->
    exists pre post, z :: rest = pre ++ zi :: post /\ wchain u hints q zk zi post /\ ns_hosts_ok u hints q zi.
  Proof.
    induction rest as [|zc rest IH]; intros z Hch zi Hin; [destruct Hin|]. cbn [wchain] in Hch. destruct Hch as (Hlink & Hrest).
    destruct Hin as [->|Hin].
    - exists [z], rest. split; [reflexivity|]. split; [exact Hrest|]. exact (proj2 (proj2 (proj2 (proj2 (proj2 Hlink))))).
    - destruct (IH zc Hrest zi Hin) as (pre & post & E & Hpost & Hok). exists (z :: pre), post.
      split; [cbn [app]; rewrite E; reflexivity|]. auto.
  Qed.

  (* candidate_nameservers from a consistent cache that holds no alias for the name itself: the root
     nameservers of the hints, or the cached NS set of a zone of the chain; either way the nameservers
     of a zone [zi] of the chain, all resolvable in the fast pass *)
  Lemma warm_cand_ns c ts : consistent c -> cache_get c (q_name q) RT_CNAME = [] ->
    exists d zi pre post, candidate_nameservers cache cache_get zs istk (q_name q) (c, ts) = (Val (Some d), (c, ts))
      /\ ns_hostnames d <> [] /\ zroot :: rest0 = pre ++ zi :: post /\ wchain u hints q zk zi post
      /\ ns_match_count d <= llen (labels (uz_apex zi)) /\ forall h, In h (ns_hostnames d) -> wcand_ok zi c h.
  Proof.
    intros HC Hown.
    destruct (cand_ns_cached cache cache_get cache_insert_all LAWS zs hints Hz (hint_oks_shape _ Hh) u UNS ready istk q c ts
                Hlim_in ns_not_dup (hints_root_ns u zroot hints q (wk_hints _ _ _ _ _ _ WK)) Hq_wf
                (wk_nocname _ _ _ _ _ _ WK) HC Hown)
      as (d & E & Hne & [(Hdn & rrs & Ehosts & Hin)|(Hnr & _ & (r & Hr & Hrn & Hrt & Hsuf) & Hhosts)]); exists d.
    - exists zroot, [], rest0. repeat (split; [first [assumption|reflexivity|exact (wk_chain _ _ _ _ _ _ WK)]|]).
      split; [unfold ns_match_count; rewrite Hdn, (wk_root _ _ _ _ _ _ WK); lia|].
      intros h Hc0 rec ts0. rewrite Ehosts in Hc0. pose proof (wk_hints _ _ _ _ _ _ WK) as (_ & _ & Hroot_addr & Hroot_srv & _).
      exact (hint_host_v4 cache cache_get zs hints Hz (hint_oks_shape _ Hh) rec istk (c, ts0) rrs h
               (fun a => serves_owner u (inl a) zroot q) Hlim_in (dup_hint h RT_A) Hroot_addr Hroot_srv Hin Hc0).
    - destruct (wk_onchain _ _ _ _ _ _ WK r Hr Hrt Hsuf) as [Hroot|(zi & Hzi & Hapex)]; [rewrite Hrn in Hroot; contradiction|].
      destruct (wchain_split rest0 zroot (wk_chain _ _ _ _ _ _ WK) zi Hzi) as (pre & post & Esplit & Hpost & Hok).
      exists zi, pre, post. repeat (split; [assumption|]). assert (Edn : ns_name d = uz_apex zi) by congruence.
      split; [unfold ns_match_count; rewrite Edn; lia|]. intros h Hc0. destruct (Hhosts h Hc0) as [Hany Hrdy]. rewrite Edn in Hany.
      exact (host_cand_ok zi c h HC Hok Hany Hrdy).
  Qed.

  (* when the cache holds neither records of the asked type nor an alias at the name, the resolution
     walks down a suffix [visited ++ [zk]] of the delegation chain -- one logged exchange per zone of
     [visited] -- and then stands in the candidate loop at [zk], with [f0] fuel left, candidates that
     resolve in the fast pass to servers of [zk], a consistent cache *)
  Lemma warm_reach c f ts :
    consistent c -> ts_elapsed ts <= BUDGET_MS -> (length rest0 <= f)%nat ->
    cache_get c (q_name q) (q_type q) = [] -> cache_get c (q_name q) RT_CNAME = [] ->
    exists f0 c1 ts1 es mc1 cands1 pre visited,
      rrn (S f) stk q (c, ts) = cloop f0 istk q [] mc1 cands1 [] true (c1, ts1)
      /\ (f <= f0 + length rest0)%nat
      /\ ts_rlog ts1 = rev es ++ ts_rlog ts
      /\ zroot :: rest0 = pre ++ visited ++ [zk] /\ chain_log u port q visited es
      /\ consistent c1 /\ cands1 <> [] /\ (forall h, In h cands1 -> wcand_ok zk c1 h)
      /\ mc1 <= llen (labels (uz_apex zk)) /\ ts_elapsed ts1 <= BUDGET_MS.
  Proof.
    intros HC Hbud Hf Eget Hcn.
    destruct (warm_cand_ns c ts HC Hcn) as (d & zi & pre & post & Hd & Hdne & Esplit & Hpost & Hmc & Hhosts).
    rewrite (rrn_uncached cache cache_get zs hints Hz cache_insert_all sort_names o OnlyV4 port f stk q c ts
               Hlim_out Hstk_q Hq_wf Hq_any Hq_nohint d Eget Hcn Hd).
    pose proof (perm_ne _ _ (Hsort _) Hdne) as Hs.
    pose proof (f_equal (@length _) Esplit) as Hlen. rewrite app_length in Hlen. cbn [length] in Hlen.
    replace f with (length post + (f - length post))%nat by lia.
    destruct (warm_descend post zi c (ns_match_count d) (sort_names (ns_hostnames d)) (f - length post) ts Hpost HC Hs)
      as (c1 & ts1 & es & mc1 & cands1 & visited & E & Hlog & Hvis & Hes & HC1 & Hne1 & Hok1 & Hmc1 & Hbud1);
      [intros h Hc0; apply (Permutation_in _ (Hsort _)) in Hc0; exact (Hhosts h Hc0)|exact Hmc|exact Hbud|].
    exists (f - length post)%nat, c1, ts1, es, mc1, cands1, pre, visited.
    split; [exact E|]. split; [lia|]. split; [exact Hlog|]. split; [rewrite Esplit, Hvis; reflexivity|]. auto 10.
  Qed.

  Section Plain.
    Hypothesis PA : plain_at u q zk.

    Lemma plain_no_cached_alias c : consistent c -> cache_get c (q_name q) RT_CNAME = [].
    Proof.
      intro HC. apply (nothing_cached cache cache_get u ready c _ _ HC concrete_CNAME).
      intros r Hr Hn Ht. exact (pa_nocname _ _ _ PA r Hr Ht Hn).
    Qed.

    (* (b) + (c): the resolution of the question from a consistent cache *)
    Theorem warm_resolve c f ts :
      consistent c -> ts_elapsed ts <= BUDGET_MS -> (length rest0 < f)%nat ->
      exists rrs c' ts' es,
        rrn (S f) stk q (c, ts) = (Val (ROk (NonAuthoritative rrs (aa_soa A))), (c', ts'))
        /\ ts_rlog ts' = rev es ++ ts_rlog ts
        /\ consistent c'
        /\ ((es = [] /\ c' = c /\ rrs = cache_get c (q_name q) (q_type q) /\ rrs <> [] /\ same_data rrs (aa_rrs A))
            \/ (rrs = aa_rrs A /\ cache_get c (q_name q) (q_type q) = []
                /\ exists pre used, zroot :: rest0 = pre ++ used /\ used <> [] /\ chain_log u port q used es)).
    Proof.
      intros HC Hbud Hf.
      destruct (wk_type _ _ _ _ _ _ WK) as (Hqc & Hqns & Hqcn).
      destruct (cache_get c (q_name q) (q_type q)) as [|y0 l0] eqn:Eget.
      - (* not cached: over the network *)
        destruct (warm_reach c f ts HC Hbud ltac:(lia) Eget (plain_no_cached_alias c HC))
          as (f0 & c1 & ts1 & es & mc1 & cands1 & pre & visited & E & Hf0 & Hlog & Hvis & Hes & HC1 & Hne1 & Hok1 & Hmc1 & Hbud1).
        rewrite E. destruct f0 as [|f0]; [lia|].
        destruct (pa_owner _ _ _ PA) as (Hown & Hknown & Hsoat & Hsoan).
        destruct (pop_last_some _ Hne1) as (cand & rest1 & Ep & Hc).
        destruct (Hok1 cand Hc (rrn f0) ts1) as (a & Eh & Hsrv).
        rewrite cloop_S.
        destruct (last_hop cache cache_get cache_insert_all sort_names zs o OnlyV4 port one_udp u zk q
                    (rrn f0) (cloop f0 istk q []) istk mc1 cands1 [] true (c1, ts1) cand rest1 (inl a) (c1, ts1)
                    Hdel Hown Hsrv Hqcn Hq_any Hknown Hsoat Hsoan Hmc1 Ep Eh Hbud1)
          as (ts' & E' & _ & (e & Hlog' & Hk & Ha & Hqe & Hrd)).
        exists (aa_rrs A). eexists. exists ts', (es ++ [e]). split; [exact E'|].
        split; [cbn [snd] in Hlog'; rewrite Hlog', Hlog, rev_app_distr; reflexivity|].
        split; [cbn [fst]; exact (consistent_with_insert_answer cache cache_get cache_insert_all LAWS u ready
                                     (ready_mono cache cache_get cache_insert_all LAWS hints) q zk Hqc Hqns (pa_owner _ _ _ PA) c1 (fun _ => PA) HC1)|].
        right. split; [reflexivity|]. split; [reflexivity|]. exists pre, (visited ++ [zk]).
        split; [exact Hvis|]. split; [destruct visited; discriminate|].
        apply Forall2_app; [exact Hes|]. constructor; [|constructor]. exists a. unfold query_to. auto.
      - (* cached: the answer comes from the cache *)
        assert (Hne : cache_get c (q_name q) (q_type q) <> []) by (rewrite Eget; discriminate).
        rewrite <- Eget.
        rewrite (rrn_cached cache cache_get zs hints Hz cache_insert_all sort_names o OnlyV4 port f stk q c ts
                   Hlim_out Hstk_q Hq_wf Hq_any Hq_nohint Hne).
        destruct (cached_same_data cache cache_get cache_insert_all LAWS u ready q zk Hqc Hqns (pa_owner _ _ _ PA) c UNS PA
                    (wk_nothost _ _ _ _ _ _ WK) HC Hne) as (Hsame & Hsoa).
        exists (cache_get c (q_name q) (q_type q)), c, ts, []. rewrite Hsoa.
        split; [reflexivity|]. split; [reflexivity|]. split; [exact HC|]. left. auto.
    Qed.
  End Plain.
End Warm.

Section FinalWarm.
  Variable cache : Type.
  Variable cache_get : cache -> dname -> N -> list rr.
  Variable cache_insert_all : cache -> list rr -> cache.
  Hypothesis LAWS : cache_laws cache cache_get cache_insert_all.
  Variable sort_names : list dname -> list dname.
  Hypothesis Hsort : forall l, Permutation (sort_names l) l.
  Variable port : N.
  Variable u : universe.
  Hypothesis UNS : universe_ns_ok u.
  Variable hints : list rr.
  Variable hz : zone.
  Hypothesis Hbuilt : zone_build root_domain None (hint_ops hints) = Ok hz.

  (* what a resolution of [q] from the cache [c] must look like *)
  Definition warm_outcome (q : question) (zroot : uzone) (rest : list uzone) (c : cache)
             (r : res rerror resolved * rstate cache) : Prop :=
    exists rrs c' ts',
      r = (Ok (NonAuthoritative rrs (aa_soa (auth_answer u q))), (c', ts'))
      /\ cache_consistent u hints cache cache_get c'
      /\ ((* straight from the cache: the cached RRset, with the data of the authoritative one *)
          (ts_log ts' = [] /\ c' = c /\ rrs = cache_get c (q_name q) (q_type q) /\ rrs <> []
           /\ same_data rrs (aa_rrs (auth_answer u q)))
          \/ (* over the network, from the deepest zone of the chain whose NS set is cached *)
          (rrs = aa_rrs (auth_answer u q) /\ cache_get c (q_name q) (q_type q) = []
           /\ exists pre used, zroot :: rest = pre ++ used /\ used <> [] /\ chain_log u port q used (ts_log ts'))).

  Theorem warm_correct q zroot rest zk c fuel :
    warm_question u hints q zroot rest zk -> plain_question u q ->
    cache_consistent u hints cache cache_get c -> (length rest + 2 <= fuel)%nat ->
    warm_outcome q zroot rest c
      (resolve cache cache_get cache_insert_all sort_names (ModeRecursive OnlyV4) port (zones_insert [] hz)
               (universe_oracle u []) fuel q (c, tstate_init)).
  Proof.
    intros (WK & PA) Hq HC Hfuel.
    pose proof (wk_hints _ _ _ _ _ _ WK) as Hhints. destruct Hhints as (Hok & _).
    destruct Hq as (Hwf & Hq1 & Hq2 & Hreq & Hfits).
    destruct fuel as [|f]; [lia|].
    destruct (warm_resolve cache cache_get cache_insert_all LAWS sort_names Hsort (zones_insert [] hz) hints
                (shaped_zones_built hints hz (hint_oks_shape _ Hok) Hbuilt) Hok (universe_oracle u []) port u UNS q zroot rest zk WK
                (universe_oracle_delivers_log u port q Hwf Hreq Hfits) [] ltac:(cbn; lia) eq_refl (Forall_nil _) PA c f tstate_init HC)
      as (rrs & c' & ts' & es & E & Hlog & HC' & Hcases).
    { cbn. lia. }
    { lia. }
    destruct (resolve_of_rrn _ _ _ _ _ _ _ _ _ _ _ _ _ _ es E Hlog) as [Er Hl].
    exists rrs, c', ts'. split; [exact Er|]. split; [exact HC'|].
    rewrite Hl. destruct Hcases as [(H1 & H2)|(H1 & H2 & H3)]; [left; auto|right; auto].
  Qed.
End FinalWarm.

Lemma sc_empty_consistent u hints : cache_consistent u hints scache sc_get sc_empty.
Proof. apply empty_consistent_with. exact sc_empty_get. Qed.

Lemma concrete_codes t : concrete t -> t <> QT_Wildcard /\ t <> QT_AXFR /\ t <> QT_MAILB /\ t <> QT_MAILA.
Proof.
  intros [H1 H2]. split; [exact H1|]. unfold qtype_table in H2. cbn [existsb fst] in H2.
  rewrite !orb_false_iff in H2. destruct H2 as (Ha & Hb & Hc & _). apply N.eqb_neq in Ha, Hb, Hc.
  repeat split; intro E; subst t; [apply Ha|apply Hb|apply Hc]; reflexivity.
Qed.

Lemma concrete_qmatch t ty : concrete t -> (cache_qmatch t ty <-> ty = t).
Proof.
  intro Hc. destruct (concrete_codes t Hc) as (H1 & H2 & H3 & H4). unfold cache_qmatch. split.
  - intros [H|(H & _)]; [contradiction|auto].
  - intros ->. right. auto.
Qed.

Section RealCacheWarm.
  Variable now : N.

  Lemma remaining_live e : 1 <= remaining e now -> now + NS_PER_S <= e.
  Proof.
    unfold remaining. intro H.
    assert (H1 : 0 < (e - now) / NS_PER_S) by (pose proof (N.le_min_l ((e - now) / NS_PER_S) U32_MAX); lia).
    apply N.div_str_pos_iff in H1; [|unfold NS_PER_S; lia]. unfold NS_PER_S in *. lia.
  Qed.

  Lemma live_remaining e : now + NS_PER_S <= e -> 1 <= remaining e now.
  Proof.
    intro H. unfold remaining. apply N.min_glb; [|unfold U32_MAX; lia].
    apply N.div_le_lower_bound; [unfold NS_PER_S; lia|]. lia.
  Qed.

  Theorem rc_cache_laws : cache_laws rcache (rc_get now) (rc_insert_all now).
  Proof.
    constructor.
    - intros c n t x Hc H. apply rc_get_in in H as (H1 & H2 & H3 & _). apply (concrete_qmatch t _ Hc) in H3. auto.
    - intros c rrs n t x Hc H. apply rc_get_in in H as (H1 & H2 & H3 & e & H4 & H5 & H6).
      rewrite rc_abs_insert_all in H4. destruct (a_insert_all_src now _ _ _ _ H4) as [H7|(r & Hr & Hpos & Hk)].
      + left. apply rc_get_in. repeat (split; [assumption|]). exists e. auto.
      + right. exists r. apply key_eqb_eq in Hk. unfold rr_key in Hk. inversion Hk.
        apply (concrete_qmatch t _ Hc) in H3. repeat split; congruence.
    - intros c rrs n t x Hc H. apply rc_get_in in H as (H1 & H2 & H3 & e & H4 & H5 & H6).
      destruct (a_insert_all_live now rrs (abs_map (proj1_sig c)) (rr_key x)) as (e' & He' & Hlive).
      { left. exists e. split; [exact H4|]. apply remaining_live. rewrite <- H5. exact H6. }
      exists {| rr_name := rr_name x; rr_type := rr_type x; rr_class := rr_class x; rr_ttl := remaining e' now; rr_data := rr_data x |}.
      split; [|reflexivity]. apply rc_get_in. cbn [rr_name rr_class rr_type rr_ttl].
      repeat (split; [assumption|]). exists e'. split; [|split; [reflexivity|apply live_remaining, Hlive]].
      rewrite rc_abs_insert_all. exact He'.
    - intros c rrs r Hin Hc Hpos.
      destruct (a_insert_all_live now rrs (abs_map (proj1_sig c)) (rr_key r)) as (e & He & Hlive).
      { right. exists r. auto. }
      exists {| rr_name := rr_name r; rr_type := rr_type r; rr_class := RC_IN; rr_ttl := remaining e now; rr_data := rr_data r |}.
      split; [|reflexivity]. apply rc_get_in. cbn [rr_name rr_class rr_type rr_ttl].
      split; [reflexivity|]. split; [reflexivity|]. split; [apply (concrete_qmatch _ _ Hc); reflexivity|].
      exists e. split; [|split; [reflexivity|apply live_remaining, Hlive]].
      rewrite rc_abs_insert_all. exact He.
  Qed.

  Lemma rc_new_consistent u hints : cache_consistent u hints rcache (rc_get now) rc_new.
  Proof. apply empty_consistent_with. exact (rc_empty_get now). Qed.
End RealCacheWarm.

(* the hypotheses of this file as boolean functions (Resolver/UniverseCheck.v) *)

(* all the records of a universe, as one list *)
Definition u_all (u : universe) : list rr := flat_map (fun z => uz_cuts z ++ uz_glue z ++ zone_data z) (u_zones u).

Lemma u_record_all u r : u_record u r <-> In r (u_all u).
Proof.
  unfold u_record, u_all. rewrite in_flat_map. split; intros (z & H1 & H2); exists z; auto.
Qed.

Lemma u_all_forallb u f : forallb f (u_all u) = true -> forall r, u_record u r -> f r = true.
Proof. rewrite forallb_forall. intros H r Hr. apply H, u_record_all, Hr. Qed.

Definition universe_ns_okb (u : universe) : bool :=
  forallb (fun z => forallb (fun r => rr_type r =? RT_NS) (uz_cuts z)) (u_zones u)
  && forallb (fun r => match rr_data r with RD_Name _ => true | _ => negb (rr_type r =? RT_NS) end) (u_all u).

Lemma universe_ns_okb_sound u : universe_ns_okb u = true -> universe_ns_ok u.
Proof.
  unfold universe_ns_okb. rewrite andb_true_iff, forallb_forall. intros [H1 H2]. split.
  - intros z r Hz Hr. specialize (H1 z Hz). rewrite forallb_forall in H1. apply N.eqb_eq, H1, Hr.
  - intros r Hr Ht. pose proof (u_all_forallb u _ H2 r Hr) as H. cbv beta in H. rewrite Ht in H.
    destruct (rr_data r) as [|h| | | | | |]; try discriminate. exists h. reflexivity.
Qed.

Definition not_ns_hostb (u : universe) (n : dname) : bool :=
  forallb (fun r => match is_ns_rr r with Some h => negb (dname_eqb h n) | None => true end) (u_all u).

Lemma not_ns_hostb_sound u n : not_ns_hostb u n = true -> ~ ns_host_name u n.
Proof.
  intros H (r & Hr & Hh). pose proof (u_all_forallb u _ H r Hr) as H'. cbv beta in H'.
  rewrite Hh, dname_eqb_refl in H'. discriminate.
Qed.

Definition no_cname_atb (u : universe) (n : dname) : bool :=
  forallb (fun r => negb (owned_by_name n r && (rr_type r =? RT_CNAME))) (u_all u).

Lemma no_cname_atb_sound u n : no_cname_atb u n = true -> forall r, u_record u r -> rr_name r = n -> rr_type r <> RT_CNAME.
Proof.
  intros H r Hr E Ht. pose proof (u_all_forallb u _ H r Hr) as H'. cbv beta in H'.
  rewrite (owned_by_name_eq _ _ E), Ht in H'. discriminate.
Qed.

Definition concreteb (t : N) : bool :=
  negb (t =? QT_Wildcard) && negb (existsb (fun p : N * list N => fst p =? t) qtype_table).

Lemma concreteb_sound t : concreteb t = true -> concrete t.
Proof. unfold concreteb, concrete. rewrite andb_true_iff, !negb_true_iff, N.eqb_neq. auto. Qed.

(* the record is owned by the name or by a name above it *)
Definition at_or_above (n : dname) (r : rr) : bool := existsb (lleqb (labels (rr_name r))) (suffixes (labels n)).

Lemma at_or_above_in n r : In (labels (rr_name r)) (suffixes (labels n)) -> at_or_above n r = true.
Proof. intro H. apply existsb_exists. exists (labels (rr_name r)). split; [exact H|apply lleqb_refl]. Qed.

(* what walk_question asks of the name, the type and the records at or above the name *)
Definition walk_baseb (u : universe) (q : question) (zroot : uzone) (rest : list uzone) : bool :=
  wf_name_b (q_name q) && concreteb (q_type q) && negb (q_type q =? RT_NS) && negb (q_type q =? RT_CNAME)
  && dname_eqb (uz_apex zroot) root_domain
  && forallb (fun r => implb ((rr_type r =? RT_CNAME) && at_or_above (q_name q) r) (same_labels (q_name q) r)) (u_all u)
  && forallb (fun r => implb ((rr_type r =? RT_NS) && at_or_above (q_name q) r)
                             (lleqb (labels (rr_name r)) [[]] || existsb (fun zi => dname_eqb (rr_name r) (uz_apex zi)) rest)) (u_all u).

Lemma walk_baseb_sound u q zroot rest : walk_baseb u q zroot rest = true ->
  wf_name (q_name q) /\ (concrete (q_type q) /\ q_type q <> RT_NS /\ q_type q <> RT_CNAME) /\ uz_apex zroot = root_domain
  /\ (forall r, u_record u r -> rr_type r = RT_CNAME -> In (labels (rr_name r)) (suffixes (labels (q_name q))) ->
        labels (rr_name r) = labels (q_name q))
  /\ (forall r, u_record u r -> rr_type r = RT_NS -> In (labels (rr_name r)) (suffixes (labels (q_name q))) ->
        labels (rr_name r) = [[]] \/ exists zi, In zi rest /\ rr_name r = uz_apex zi).
Proof.
  unfold walk_baseb. rewrite !andb_true_iff, !negb_true_iff, !N.eqb_neq, dname_eqb_eq.
  intros ((((((H1 & H2) & H3) & H4) & H5) & H6) & H7).
  split; [apply wf_name_b_sound, H1|]. split; [split; [apply concreteb_sound, H2|auto]|]. split; [exact H5|]. split.
  - intros r Hr Ht Hin. pose proof (u_all_forallb u _ H6 r Hr) as H. cbv beta in H.
    rewrite Ht, (at_or_above_in _ _ Hin) in H. apply lleqb_eq, H.
  - intros r Hr Ht Hin. pose proof (u_all_forallb u _ H7 r Hr) as H. cbv beta in H.
    rewrite Ht, (at_or_above_in _ _ Hin) in H. apply orb_true_iff in H as [H|H]; [left; apply lleqb_eq, H|right].
    apply existsb_exists in H as (zi & Hzi & E). exists zi. split; [exact Hzi|apply dname_eqb_eq, E].
Qed.

Definition ns_hosts_okb (u : universe) (hints : list rr) (q : question) (zc : uzone) : bool :=
  ns_hosts_allb (u_all u) (uz_apex zc) (fun h =>
    wf_name_b h && a_leadb u zc (q_name q) (owned_by_name h) (u_all u) && a_leadb u zc (q_name q) (same_labels h) hints).

Lemma ns_hosts_okb_sound u hints q zc : ns_hosts_okb u hints q zc = true -> ns_hosts_ok u hints q zc.
Proof.
  intros H h (r & Hr & Hh). apply u_record_all in Hr.
  pose proof (ns_hosts_allb_sound _ _ _ H h (ex_intro _ r (conj Hr Hh))) as G. rewrite !andb_true_iff in G.
  destruct G as ((G1 & G2) & G3). split; [apply wf_name_b_sound, G1|]. split.
  - intros g Hg Hn. apply u_record_all in Hg. exact (a_leadb_sound u zc q _ _ G2 g Hg (owned_by_name_eq _ _ Hn)).
  - intros g a Hg Hl. exact (a_leadb_data u zc q _ _ G3 g a Hg (same_labels_eq _ _ Hl)).
Qed.

Definition wlinkb (u : universe) (hints : list rr) (q : question) (zp zc : uzone) : bool :=
  zone_inb zp (u_zones u)
  && is_name (cut_owner zp (q_name q)) (uz_apex zc)
  && (llen (labels (uz_apex zp)) <? llen (labels (uz_apex zc)))
  && owns_nothingb zp (q_name q)
  && ns_hosts_allb (uz_cuts zp) (uz_apex zc) (has_glueb zp [RT_A])
  && ns_hosts_okb u hints q zc.

Lemma wlinkb_sound u hints q zp zc : wlinkb u hints q zp zc = true -> wlink u hints q zp zc.
Proof.
  unfold wlinkb. rewrite !andb_true_iff, N.ltb_lt. intros (((((H1 & H2) & H3) & H4) & H5) & H6).
  split; [apply zone_inb_in, H1|]. split; [apply is_name_eq, H2|]. split; [exact H3|].
  split; [apply owns_nothingb_sound, H4|]. split; [|apply ns_hosts_okb_sound, H6].
  intros h Hh. destruct (has_glueb_sound _ _ _ (ns_hosts_allb_sound _ _ _ H5 h Hh)) as (g & Hg & Hn & [Ht|[]] & Hpos).
  exists g. auto.
Qed.

Fixpoint wchainb (u : universe) (hints : list rr) (q : question) (zk z : uzone) (rest : list uzone) : bool :=
  match rest with
  | [] => uzone_eqb z zk
  | zc :: rest' => wlinkb u hints q z zc && wchainb u hints q zk zc rest'
  end.

Lemma wchainb_sound u hints q zk : forall rest z, wchainb u hints q zk z rest = true -> wchain u hints q zk z rest.
Proof.
  induction rest as [|zc rest IH]; intros z H; cbn [wchainb wchain] in *; [apply uzone_eqb_eq, H|].
  apply andb_true_iff in H as [H1 H2]. split; [apply wlinkb_sound, H1|apply IH, H2].
Qed.

Definition walk_questionb (u : universe) (hints : list rr) (q : question) (zroot : uzone) (rest : list uzone) (zk : uzone) : bool :=
  walk_baseb u q zroot rest && hints_forb u zroot hints q && wchainb u hints q zk zroot rest && not_ns_hostb u (q_name q).

Lemma walk_questionb_sound u hints q zroot rest zk :
  walk_questionb u hints q zroot rest zk = true -> walk_question u hints q zroot rest zk.
Proof.
  unfold walk_questionb. rewrite !andb_true_iff. intros (((H1 & H2) & H3) & H4).
  destruct (walk_baseb_sound _ _ _ _ H1) as (B1 & B2 & B3 & B4 & B5).
  constructor; try assumption; [apply hints_forb_sound, H2|apply wchainb_sound, H3|apply not_ns_hostb_sound, H4].
Qed.

Definition plain_atb (u : universe) (q : question) (zk : uzone) : bool :=
  answering_zoneb u zk q
  && forallb (fun z => forallb (fun r => negb (owned_by_name (q_name q) r)) (uz_glue z)) (u_zones u)
  && forallb (fun z => forallb (fun r => implb (owned_by_name (q_name q) r) (existsb (rr_eqb r) (zone_data zk))) (zone_data z)) (u_zones u)
  && forallb (fun r => implb (owned_by_name (q_name q) r && (rr_type r =? q_type q)) (0 <? rr_ttl r)) (zone_data zk)
  && no_cname_atb u (q_name q).

Lemma plain_atb_sound u q zk : plain_atb u q zk = true -> plain_at u q zk.
Proof.
  unfold plain_atb. rewrite !andb_true_iff, !forallb_forall. intros ((((H1 & H2) & H3) & H4) & H5).
  constructor; [apply answering_zoneb_sound, H1| | | |].
  - intros z r Hz Hr E. specialize (H2 z Hz). rewrite forallb_forall in H2. specialize (H2 r Hr).
    rewrite (owned_by_name_eq _ _ E) in H2. discriminate.
  - intros z r Hz Hr E. specialize (H3 z Hz). rewrite forallb_forall in H3. specialize (H3 r Hr).
    rewrite (owned_by_name_eq _ _ E) in H3. apply existsb_exists in H3 as (r' & Hr' & E'). rewrite (rr_eqb_eq _ _ E'). exact Hr'.
  - intros r Hr E Ht. specialize (H4 r Hr). rewrite (owned_by_name_eq _ _ E), Ht, N.eqb_refl in H4. apply N.ltb_lt, H4.
  - intros r Hr Ht E. exact (no_cname_atb_sound u _ H5 r Hr E Ht).
Qed.

(* a worked universe: the depth-3 chain of RecursiveChain.v with two cross-zone aliases
      alias.example.com. CNAME www.sub.example.com.   (in example.com.)
      ext.com.           CNAME alias.example.com.     (in com.) *)

Definition c4_l_alias : label := [97; 108; 105; 97; 115].
Definition c4_l_ext : label := [101; 120; 116].
Definition c4_n_alias := c3_nm [c4_l_alias; c3_l_example; c3_l_com].
Definition c4_n_ext := c3_nm [c4_l_ext; c3_l_com].

Definition c4_cn_alias : rr := c3_rr c4_n_alias RT_CNAME 300 (RD_Name c3_n_www).
Definition c4_cn_ext : rr := c3_rr c4_n_ext RT_CNAME 300 (RD_Name c4_n_alias).

Definition c4_root : uzone := c3_root.
Definition c4_com : uzone :=
  {| uz_apex := c3_n_com; uz_soa := uz_soa c3_com; uz_rrs := uz_rrs c3_com ++ [c4_cn_ext];
     uz_cuts := uz_cuts c3_com; uz_glue := uz_glue c3_com |}.
Definition c4_ex : uzone :=
  {| uz_apex := c3_n_ex; uz_soa := uz_soa c3_ex; uz_rrs := uz_rrs c3_ex ++ [c4_cn_alias];
     uz_cuts := uz_cuts c3_ex; uz_glue := uz_glue c3_ex |}.
Definition c4_sub : uzone := c3_sub.

Definition c4_universe : universe :=
  {| u_zones := [c4_root; c4_com; c4_ex; c4_sub];
     u_servers := [(inl c3_ip0, [root_domain]); (inl c3_ip1, [c3_n_com]); (inl c3_ip2, [c3_n_ex]); (inl c3_ip3, [c3_n_sub])] |}.

Lemma c4_consistent : consistentb c4_universe = true.
Proof. vm_compute. reflexivity. Qed.

(* four questions: www.sub.example.com. A and MX (plain; RecursiveChain.v), and the two aliases *)
Definition c4_q_alias : question := {| q_name := c4_n_alias; q_type := RT_A; q_class := RC_IN |}.
Definition c4_q_ext : question := {| q_name := c4_n_ext; q_type := RT_A; q_class := RC_IN |}.
Definition c4_qs : list question := [c3_q; c3_q_mx; c4_q_alias; c4_q_ext].

Lemma c4_universe_ns_ok : universe_ns_ok c4_universe.
Proof. apply universe_ns_okb_sound. vm_compute. reflexivity. Qed.

Lemma c4_plain_question_in q : In q c4_qs -> plain_question c4_universe q.
Proof.
  intro Hq. apply plain_questionb_sound.
  exact (proj1 (forallb_forall (plain_questionb c4_universe) c4_qs) ltac:(vm_compute; reflexivity) q Hq).
Qed.

Lemma c4_plain_question q : (q = c3_q \/ q = c3_q_mx) -> plain_question c4_universe q.
Proof. intros [-> | ->]; apply c4_plain_question_in; cbn; auto. Qed.

(* (question, the zones of its delegation chain below the root, the zone owning its name) *)
Definition c4_chains : list (question * list uzone * uzone) :=
  [(c3_q, [c4_com; c4_ex; c4_sub], c4_sub); (c3_q_mx, [c4_com; c4_ex; c4_sub], c4_sub);
   (c4_q_alias, [c4_com; c4_ex], c4_ex); (c4_q_ext, [c4_com], c4_com)].

Lemma c4_walk q rest zk : In (q, rest, zk) c4_chains -> walk_question c4_universe c3_hints q c4_root rest zk.
Proof.
  intro Hc. apply walk_questionb_sound.
  exact (proj1 (forallb_forall (fun c => walk_questionb c4_universe c3_hints (fst (fst c)) c4_root (snd (fst c)) (snd c)) c4_chains)
               ltac:(vm_compute; reflexivity) _ Hc).
Qed.

(* c4_walk covers the nameserver hosts of every zone below the root (the last clause of each wlink);
   this is the same fact for the root zone itself *)
Lemma c4_root_hosts_ok q : In q c4_qs -> ns_hosts_ok c4_universe c3_hints q c4_root.
Proof.
  intro Hq. apply ns_hosts_okb_sound.
  exact (proj1 (forallb_forall (fun q => ns_hosts_okb c4_universe c3_hints q c4_root) c4_qs) ltac:(vm_compute; reflexivity) q Hq).
Qed.

Lemma c4_warm_question q : (q = c3_q \/ q = c3_q_mx) ->
  warm_question c4_universe c3_hints q c4_root [c4_com; c4_ex; c4_sub] c4_sub.
Proof.
  intro Hq. split; [apply c4_walk; destruct Hq as [-> | ->]; cbn; auto|].
  destruct Hq as [-> | ->]; apply plain_atb_sound; vm_compute; reflexivity.
Qed.

Notation c4_run q c :=
  (resolve scache sc_get sc_insert_all sort_names_ord (ModeRecursive OnlyV4) 53 (zones_insert [] c3_hz)
           (universe_oracle c4_universe []) 5%nat q (c, tstate_init)).

(* the cache after www.sub.example.com. A was resolved from the empty cache *)
Definition c4_cache1 : scache := fst (snd (c4_run c3_q sc_empty)).

(* the hypotheses are satisfiable, and what the theorem then says: the cache left by the first
   question is consistent; asked from it, www.sub.example.com. MX is denied with the SOA of
   sub.example.com. after ONE exchange (with the server of sub.example.com., whose NS set and glue
   are cached), and www.sub.example.com. A is answered from the cache without any exchange *)
Example warm_example_depth3 :
  cache_consistent c4_universe c3_hints scache sc_get c4_cache1
  /\ warm_outcome scache sc_get 53 c4_universe c3_hints c3_q_mx c4_root [c4_com; c4_ex; c4_sub] c4_cache1 (c4_run c3_q_mx c4_cache1)
  /\ warm_outcome scache sc_get 53 c4_universe c3_hints c3_q c4_root [c4_com; c4_ex; c4_sub] c4_cache1 (c4_run c3_q c4_cache1).
Proof.
  pose proof (fun q Hq c HC => warm_correct scache sc_get sc_insert_all sc_cache_laws sort_names_ord sort_names_ord_perm 53 c4_universe
                c4_universe_ns_ok c3_hints c3_hz c3_hz_built q c4_root [c4_com; c4_ex; c4_sub] c4_sub c 5%nat (c4_warm_question q Hq)
                (c4_plain_question q Hq) HC (le_n 5)) as W.
  assert (HC : cache_consistent c4_universe c3_hints scache sc_get c4_cache1).
  { destruct (W c3_q (or_introl eq_refl) sc_empty (sc_empty_consistent _ _)) as (rrs & c' & ts' & E & HC & _).
    unfold c4_cache1. rewrite E. exact HC. }
  exact (conj HC (conj (W c3_q_mx (or_intror eq_refl) c4_cache1 HC) (W c3_q (or_introl eq_refl) c4_cache1 HC))).
Qed.

(* the same runs evaluated inside Coq: results and the addresses asked *)
Example warm_example_depth3_eval :
  let r2 := c4_run c3_q_mx c4_cache1 in
  let r3 := c4_run c3_q c4_cache1 in
  fst r2 = Ok (NonAuthoritative [] (Some (uz_soa c4_sub)))
  /\ map x_addr (ts_log (snd (snd r2))) = [(inl c3_ip3, 53)]
  /\ fst r3 = Ok (NonAuthoritative [c3_rr c3_n_www RT_A 300 (RD_A 3221225985)] None)
  /\ ts_log (snd (snd r3)) = []
  /\ consistentb c4_universe = true.
Proof. vm_compute. repeat split. Qed.
