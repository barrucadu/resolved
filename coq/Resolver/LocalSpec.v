(* Resolver/LocalSpec.v -- specification side of the local part of C01 and C10.
   Short and declarative: which names an authoritative zone owns, what an alias
   chain is, what "the merge lets local data win" means, when two cache read
   functions agree.  Refers to the zone *data* (the record tree, the apex map)
   but to none of the control flow of resolve_local. *)
From RV Require Import Base.Prelude Name.NameModel Name.NameSpec Wire.WireTypes Zone.ZoneModel.

(* ---------- ownership (C01) ---------- *)

(* the node of the record tree at a relative path (labels nearest the apex first) *)
Fixpoint node_at (rp : list label) (nd : node) : option node :=
  match rp with
  | [] => Some nd
  | l :: rest => match alookup leqb l (n_children nd) with
                 | Some c => node_at rest c
                 | None => None
                 end
  end.

Definition rmap_has (t : N) (m : rmap) : bool :=
  match alookup N.eqb t m with Some (_ :: _) => true | _ => false end.
(* the node holds NS records / a wildcard holding NS records hangs under the node *)
Definition has_ns (nd : node) : bool := rmap_has RT_NS (n_this nd).
Definition wild_has_ns (nd : node) : bool :=
  match n_wild nd with Some w => rmap_has RT_NS w | None => false end.

(* [rp] is not at or beneath a delegation point: no node strictly below the apex on
   the way to (and including) [rp] holds NS records.  Wildcards that hold NS
   records refer every name they cover elsewhere as well (RFC 4592 leaves their
   meaning open; resolved treats them as referrals), so a name passing a node
   with such a wildcard is not counted as owned either. *)
Definition not_delegated (z : zone) (rp : list label) : Prop :=
  forall pre suf nd, rp = pre ++ suf -> node_at pre (z_records z) = Some nd ->
    (pre <> [] -> has_ns nd = false) /\ (suf <> [] -> wild_has_ns nd = false).

(* the longest configured apex enclosing [n] belongs to an authoritative zone *)
Definition in_auth_zone (zs : zones) (n : dname) : Prop :=
  exists z, zones_get zs n = Some z /\ z_soa z <> None.

(* ... and [n] is not at/beneath one of that zone's delegation points: zone [z] owns [n] *)
Definition owned_by (zs : zones) (n : dname) (z : zone) : Prop :=
  zones_get zs n = Some z /\ z_soa z <> None /\
  exists rp, relative_rp z n = Some rp /\ not_delegated z rp.
Definition owned_auth (zs : zones) (n : dname) : Prop := exists z, owned_by zs n z.

(* two cache read functions agree on every name outside [P] *)
Definition cache_agree_outside (P : dname -> Prop) (c1 c2 : dname -> N -> list rr) : Prop :=
  forall n qt, ~ P n -> c1 n qt = c2 n qt.

(* ---------- the merge that lets local data win (C01) ---------- *)

Inductive subseq {A} : list A -> list A -> Prop :=
| SubNil : subseq [] []
| SubSkip x l m : subseq l m -> subseq l (x :: m)
| SubTake x l m : subseq l m -> subseq (x :: l) (x :: m).

Definition same_key (a b : rr) : Prop := rr_name a = rr_name b /\ rr_type a = rr_type b.

(* [out] is [priority] untouched and in order, followed by exactly those RRs of [new]
   (in their order) whose (name, type) does not occur in [priority] *)
Definition prioritising_merge_spec (priority new out : list rr) : Prop :=
  exists kept, out = priority ++ kept /\ subseq kept new /\
    (forall r, In r kept -> forall p, In p priority -> ~ same_key p r) /\
    (forall r, In r new -> (forall p, In p priority -> ~ same_key p r) -> In r kept).

(* ---------- alias chains (C10; DESIGN Appendix A, on [rr]) ---------- *)

Fixpoint chain_from (start : dname) (cn : list rr) : option dname :=
  match cn with
  | [] => Some start
  | r :: t =>
    if dname_eqb (rr_name r) start && (rr_type r =? RT_CNAME)
    then match rr_data r with RD_Name tg => chain_from tg t | _ => None end
    else None
  end.

(* CNAMEs first, each owner the previous target, starting at the question name, no owner
   twice, then only RRs of the asked type owned by the last target *)
Definition chain_ok (qname : dname) (qty : N) (rrs : list rr) : Prop :=
  exists cn fin last, rrs = cn ++ fin /\ chain_from qname cn = Some last /\ NoDup (map rr_name cn)
    /\ Forall (fun r => rr_name r = last /\ rr_type r = qty) fin.

(* ---------- what C10 assumes of the two sources ---------- *)

(* zones: an answer is owned by the query name and has the asked type; a CNAME result is
   the CNAME RR of the query name with the target as rdata.  True of zones built by
   Zone::new / insert / insert_wildcard (the record maps are keyed by record type);
   proved from the checkable [zones_typedb] in Resolver/LocalProofs.v (zones_typed_answers_ok). *)
Definition zones_answers_ok (zs : zones) : Prop :=
  forall name qt z zr, zones_resolve zs name qt = Some (z, Ok zr) ->
    match zr with
    | ZAnswer rrs => qt <> QT_Wildcard -> Forall (fun r => rr_name r = name /\ rr_type r = qt) rrs
    | ZCname c r => rr_name r = name /\ rr_type r = RT_CNAME /\ rr_data r = RD_Name c
    | _ => True
    end.

(* cache: a read returns only RRs of the asked name and type (C05: abs_get) *)
Definition cget_ok (cget : dname -> N -> list rr) : Prop :=
  forall name qt, qt <> QT_Wildcard -> Forall (fun r => rr_name r = name /\ rr_type r = qt) (cget name qt).
