(* What the recursive resolver model makes of the replies the specification [Universe.serve]
   prescribes, for every universe: the reply filter is complete on the three shapes of reply an
   authoritative server gives (C06 proves it sound); [serve] and [auth_answer] agree at the zone that
   owns the question name; and the two hops of a resolution, for a transport that delivers what
   [serve] prescribes (whatever else it does to its state is a parameter, [delivers_with]): at a
   server of the zone owning the name the candidate loop returns exactly [auth_answer]; at a server
   whose closest zone has a delegation point on the way it caches the referral and goes on with the
   delegated zone's hosts. *)
From RV Require Import Base.Prelude Name.NameModel Wire.WireTypes Wire.WireModel Wire.WireGrammar
     Wire.WireEncodeProofs Wire.WireDecodeProofs Zone.ZoneModel Zone.ZoneProofs Resolver.LocalModel
     Resolver.LocalProofs Resolver.ValidateModel Resolver.ValidateProofs Resolver.TransportModel
     Resolver.RecursiveModel Resolver.RecursiveProofs Resolver.Universe Resolver.ResolverFacts.

Definition msg (q : question) (aa : bool) (rcode : N) (an au ad : list rr) : message :=
  reply_message q {| sr_answers := an; sr_authority := au; sr_additional := ad; sr_aa := aa; sr_rcode := rcode |}.

(* records of a plain answer: known type and class, owned by the question name, of the asked
   type, no alias *)
Definition plain_rr (q : question) (r : rr) : Prop :=
  rr_is_unknown r = false /\ rr_name r = q_name q /\ rtype_matches (rr_type r) (q_type q) = true
  /\ rr_type r <> RT_CNAME.

Lemma is_cname_rr_none r : rr_type r <> RT_CNAME -> is_cname_rr r = None.
Proof. intro H. unfold is_cname_rr. apply N.eqb_neq in H. rewrite H. reflexivity. Qed.

Lemma cname_scan_plain q : forall ans got, Forall (plain_rr q) ans ->
  cname_scan ans (q_name q) (q_type q) got [] = (got || negb (is_nil ans), []).
Proof.
  induction ans as [|r ans IH]; intros got H; cbn [cname_scan is_nil negb]; [rewrite orb_false_r; reflexivity|].
  inversion H as [|? ? (H1 & H2 & H3 & H4) Hrest]; subst.
  rewrite H1, (is_cname_rr_none r H4), H2, H3, dname_eqb_refl.
  cbn [andb]. rewrite (IH _ Hrest). rewrite orb_true_r. cbn [orb]. reflexivity.
Qed.

Lemma follow_plain q ans : Forall (plain_rr q) ans -> ans <> [] ->
  follow_cnames ans (q_name q) (q_type q) = Ok (Some (q_name q, [])).
Proof.
  intros H Hne. unfold follow_cnames. rewrite (cname_scan_plain q ans false H).
  destruct ans as [|r ans]; [congruence|]. cbn [is_nil negb orb].
  destruct (q_type q =? RT_CNAME) eqn:E; [reflexivity|]. cbn [length cname_walk alookup is_nil negb orb]. reflexivity.
Qed.

Theorem validate_plain_answer q aa rcode ans au ad mc :
  Forall (plain_rr q) ans -> ans <> [] ->
  validate_nameserver_response q (msg q aa rcode ans au ad) mc = Ok (Some (NRAnswer ans None)).
Proof.
  intros H Hne. unfold validate_nameserver_response, msg, reply_message. cbn [m_answers m_authority m_additional sr_answers sr_authority sr_additional].
  rewrite (follow_plain q ans H Hne). cbn [length path_cnames]. rewrite dname_eqb_refl. cbn [app].
  rewrite (filter_all _ ans);
    [|apply Forall_forall; intros r Hr; destruct (proj1 (Forall_forall _ _) H r Hr) as (H1 & H2 & H3 & _); rewrite H1, H3, H2, dname_eqb_refl; reflexivity].
  destruct ans as [|r ans]; [congruence|]. inversion H as [|? ? (H1 & _) _]; subst.
  cbn [forallb is_nil negb]. rewrite H1. cbn [andb]. reflexivity.
Qed.

Lemma follow_nil n t : follow_cnames [] n t = Ok None.
Proof. unfold follow_cnames. cbn [cname_scan]. destruct (t =? RT_CNAME); reflexivity. Qed.

(* a denial: no answers, the zone's SOA alone in the authority section *)
Theorem validate_denial q aa rcode soa ad mc :
  (rcode = RCODE_NoError \/ rcode = RCODE_NameError) ->
  rr_type soa = RT_SOA -> is_subdomain_of (q_name q) (rr_name soa) = true -> mc <= llen (labels (rr_name soa)) ->
  validate_nameserver_response q (msg q aa rcode [] [soa] ad) mc = Ok (Some (NRAnswer [] (Some soa))).
Proof.
  intros Hrc Ht Hsub Hmc. unfold validate_nameserver_response, msg, reply_message. cbn [m_answers m_authority m_additional sr_answers sr_authority sr_additional].
  rewrite follow_nil. unfold get_better_ns_names. cbn [better_ns_loop].
  assert (Hns : is_ns_rr soa = None).
  { unfold is_ns_rr. rewrite Ht. reflexivity. }
  rewrite Hns. cbn [better_ns_loop].
  unfold get_nxdomain_nodata_soa. cbn [m_answers m_authority m_header h_rcode sr_answers sr_authority sr_rcode is_nil negb find_single_soa].
  rewrite Ht. cbn [N.eqb]. replace (RT_SOA =? RT_SOA) with true by reflexivity. cbn [find_single_soa].
  rewrite Hsub. cbn [negb].
  assert (Hrc' : negb ((rcode =? RCODE_NameError) || (rcode =? RCODE_NoError)) = false).
  { destruct Hrc as [-> | ->]; reflexivity. }
  rewrite Hrc'.
  assert (Hlt : (llen (labels (rr_name soa)) <? mc) = false) by (apply N.ltb_ge; exact Hmc).
  rewrite Hlt. reflexivity.
Qed.

(* a referral: NS records of one delegation point enclosing the question name, deeper than the
   delegation in use, in the authority section *)
Definition referral_ns (q : question) (c : dname) (r : rr) : Prop :=
  rr_name r = c /\ exists h, is_ns_rr r = Some h.

Lemma better_ns_same q c : forall ns names, Forall (referral_ns q c) ns -> is_subdomain_of (q_name q) c = true ->
  exists names', better_ns_loop ns (q_name q) (llen (labels c)) (Some c) names = (Some c, names')
                 /\ (forall h, In h names' <-> In h names \/ exists r, In r ns /\ is_ns_rr r = Some h).
Proof.
  induction ns as [|r ns IH]; intros names H Hsub; cbn [better_ns_loop].
  - exists names. split; [reflexivity|]. intro h. split; [auto|]. intros [H1|[r [[] _]]]. exact H1.
  - inversion H as [|? ? [Hn [h0 Hh]] Hrest]; subst. rewrite Hh, Hsub.
    rewrite N.ltb_irrefl, N.eqb_refl.
    destruct (IH (set_insert h0 names) Hrest Hsub) as [names' [E Hin]]. exists names'. split; [exact E|].
    intro h. rewrite Hin, set_insert_in. split.
    + intros [[->|H1]|[r' [H1 H2]]]; [right; exists r; split; [left; reflexivity|exact Hh]|left; exact H1|right; exists r'; split; [right; exact H1|exact H2]].
    + intros [H1|[r' [[<-|H1] H2]]]; [left; right; exact H1|left; left; congruence|right; exists r'; auto].
Qed.

Theorem validate_referral q aa rcode c ns ad mc :
  ns <> [] -> Forall (referral_ns q c) ns -> is_subdomain_of (q_name q) c = true -> mc < llen (labels c) ->
  exists rrs names,
    validate_nameserver_response q (msg q aa rcode [] ns ad) mc
    = Ok (Some (NRDelegation rrs {| ns_hostnames := names; ns_name := c |}))
    /\ (forall h, In h names <-> exists r, In r ns /\ is_ns_rr r = Some h).
Proof.
  intros Hne H Hsub Hmc. unfold validate_nameserver_response, msg, reply_message. cbn [m_answers m_authority m_additional sr_answers sr_authority sr_additional].
  rewrite follow_nil. unfold get_better_ns_names at 1. cbn [better_ns_loop].
  destruct ns as [|r ns]; [congruence|]. inversion H as [|? ? [Hn [h0 Hh]] Hrest]; subst.
  unfold get_better_ns_names. cbn [better_ns_loop]. rewrite Hh, Hsub.
  apply N.ltb_lt in Hmc. rewrite Hmc.
  destruct (better_ns_same q (rr_name r) ns [h0] Hrest Hsub) as [names [E Hin]]. rewrite E.
  eexists. exists names. split; [reflexivity|].
  intro h. rewrite Hin. split.
  + intros [[<-|[]]|[r' [H1 H2]]]; [exists r; split; [left; reflexivity|exact Hh]|exists r'; split; [right; exact H1|exact H2]].
  + intros [r' [[<-|H1] H2]]; [left; left; congruence|right; exists r'; auto].
Qed.

Lemma serve_name_S f zs n qtype first : serve_name (S f) zs n qtype first =
  match best_zone zs n None with
  | None =>
    if first
    then {| sr_answers := []; sr_authority := []; sr_additional := []; sr_aa := false; sr_rcode := RCODE_Refused |}
    else sr_plain []
  | Some z =>
    match cut_owner z n with
    | Some c => if first then referral z c else sr_plain []
    | None =>
      let here := rrs_at z n in
      match cname_at here qtype with
      | Some (cr, target) =>
        let rest := serve_name f zs target qtype false in
        {| sr_answers := cr :: sr_answers rest; sr_authority := []; sr_additional := [];
           sr_aa := true; sr_rcode := RCODE_NoError |}
      | None =>
        let ans := filter (fun r => rtype_matches (rr_type r) qtype) here in
        if negb (is_nil ans) then sr_plain ans
        else if first
             then {| sr_answers := []; sr_authority := [uz_soa z]; sr_additional := []; sr_aa := true;
                     sr_rcode := if name_exists z n then RCODE_NoError else RCODE_NameError |}
             else sr_plain []
      end
    end
  end.
Proof. reflexivity. Qed.

Lemma auth_chain_S f u n qtype seen : auth_chain (S f) u n qtype seen =
  match best_zone (u_zones u) n None with
  | None => {| aa_rrs := []; aa_soa := None; aa_defined := false |}
  | Some z =>
    match cut_owner z n with
    | Some _ => {| aa_rrs := []; aa_soa := None; aa_defined := false |}
    | None =>
      let here := rrs_at z n in
      match cname_at here qtype with
      | Some (cr, target) =>
        if existsb (dname_eqb target) (n :: seen)
        then {| aa_rrs := [cr]; aa_soa := None; aa_defined := false |}
        else let rest := auth_chain f u target qtype (n :: seen) in
             {| aa_rrs := cr :: aa_rrs rest; aa_soa := aa_soa rest; aa_defined := aa_defined rest |}
      | None =>
        let ans := filter (fun r => rtype_matches (rr_type r) qtype) here in
        if negb (is_nil ans) then {| aa_rrs := ans; aa_soa := None; aa_defined := true |}
        else {| aa_rrs := []; aa_soa := Some (uz_soa z); aa_defined := true |}
      end
    end
  end.
Proof. reflexivity. Qed.

(* the zone [z] owns the name of [q] in the universe (longest apex, no cut on the way) and holds
   no alias for it *)
Definition owns_plainly (u : universe) (z : uzone) (q : question) : Prop :=
  best_zone (u_zones u) (q_name q) None = Some z /\ cut_owner z (q_name q) = None
  /\ cname_at (rrs_at z (q_name q)) (q_type q) = None.

(* the server at [a] serves [z] and none of its zones is a better match for the name *)
Definition serves_owner (u : universe) (a : ip) (z : uzone) (q : question) : Prop :=
  exists zs, zones_of_server u a = Some zs /\ best_zone zs (q_name q) None = Some z.

(* what the authoritative data says at a name its zone [z] holds without alias: the records of the
   asked type, or none and the zone's SOA *)
Definition plain_answer (z : uzone) (n : dname) (t : N) : aanswer :=
  let ans := filter (fun r => rtype_matches (rr_type r) t) (rrs_at z n) in
  {| aa_rrs := ans; aa_soa := if is_nil ans then Some (uz_soa z) else None; aa_defined := true |}.

Lemma auth_chain_plain f u z n t seen :
  best_zone (u_zones u) n None = Some z -> cut_owner z n = None -> cname_at (rrs_at z n) t = None ->
  auth_chain (S f) u n t seen = plain_answer z n t.
Proof.
  intros Hb Hc Hn. rewrite auth_chain_S, Hb, Hc. cbv zeta. rewrite Hn. unfold plain_answer.
  destruct (filter _ _); reflexivity.
Qed.

Lemma auth_answer_plain u z q : owns_plainly u z q -> auth_answer u q = plain_answer z (q_name q) (q_type q).
Proof. intros (Hb & Hc & Hn). exact (auth_chain_plain 63 u z _ _ [] Hb Hc Hn). Qed.

Lemma auth_rrs_plain u z q : owns_plainly u z q ->
  aa_rrs (auth_answer u q) = filter (fun r => rtype_matches (rr_type r) (q_type q)) (rrs_at z (q_name q)).
Proof. intro H. rewrite (auth_answer_plain u z q H). reflexivity. Qed.

Lemma auth_soa_plain u z q : owns_plainly u z q -> aa_rrs (auth_answer u q) <> [] -> aa_soa (auth_answer u q) = None.
Proof. intro H. rewrite (auth_answer_plain u z q H). cbn [plain_answer aa_rrs aa_soa]. destruct (filter _ _); [congruence|reflexivity]. Qed.

(* the records of the answer are data of [z] at the name, of the asked type *)
Lemma auth_rrs_in u z q r : owns_plainly u z q -> q_type q <> QT_Wildcard -> In r (aa_rrs (auth_answer u q)) ->
  In r (zone_data z) /\ rr_name r = q_name q /\ rr_type r = q_type q.
Proof.
  intros H Hq Hr. rewrite (auth_rrs_plain u z q H) in Hr. apply filter_In in Hr as [Hr Hm]. apply rrs_at_in in Hr as [Hr Hn].
  apply dname_eqb_eq in Hn. auto using rtype_matches_concrete.
Qed.

Theorem serve_is_auth_answer u a z q :
  owns_plainly u z q -> serves_owner u a z q ->
  let aa := auth_answer u q in
  aa_defined aa = true /\
  aa_rrs aa = filter (fun r => rtype_matches (rr_type r) (q_type q)) (rrs_at z (q_name q)) /\
  ((aa_rrs aa <> [] /\ aa_soa aa = None /\ serve u a q = Some (msg q true RCODE_NoError (aa_rrs aa) [] []))
   \/ (aa_rrs aa = [] /\ aa_soa aa = Some (uz_soa z)
       /\ exists rcode, (rcode = RCODE_NoError \/ rcode = RCODE_NameError)
                        /\ serve u a q = Some (msg q true rcode [] [uz_soa z] []))).
Proof.
  intros Ho (zs & Hz & Hbz). cbv zeta. rewrite (auth_answer_plain u z q Ho). destruct Ho as (_ & Hc & Hn).
  unfold serve. rewrite Hz. change CHAIN_FUEL with (S 63).
  rewrite serve_name_S, Hbz, Hc. cbv zeta. rewrite Hn. unfold plain_answer.
  destruct (filter (fun r => rtype_matches (rr_type r) (q_type q)) (rrs_at z (q_name q))) as [|r ans] eqn:Ef;
    cbn [is_nil negb aa_defined aa_rrs aa_soa].
  - split; [reflexivity|]. split; [reflexivity|]. right. split; [reflexivity|]. split; [reflexivity|].
    exists (if name_exists z (q_name q) then RCODE_NoError else RCODE_NameError).
    split; [destruct (name_exists z (q_name q)); auto|reflexivity].
  - split; [reflexivity|]. split; [reflexivity|]. left. split; [discriminate|]. split; reflexivity.
Qed.

(* the transport delivers what the universe's servers say about [q]: every reply of [serve] that
   would pass the header gate is what query_nameserver returns, within the budget (a fault-free
   oracle and replies that fit the transport -- what the table oracle built from [serve] does on
   the correspondence stream; for [universe_oracle]: universe_oracle_exchange below and
   universe_oracle_delivers_log in RecursiveDepth1.v) *)
Definition delivers (o : oracle) (u : universe) (port : N) (q : question) : Prop :=
  forall a m ts, ts_elapsed ts <= BUDGET_MS -> serve u a q = Some m ->
    response_matches_request (make_request q false) m = true ->
    exists ts', query_nameserver o (a, port) q false ts = (Val (Some m), ts') /\ ts_elapsed ts' <= BUDGET_MS.

(* ... and the transport state afterwards is related to the one before by [R] (what was logged) *)
Definition delivers_with (R : addr -> question -> tstate -> tstate -> Prop)
           (o : oracle) (u : universe) (port : N) (q : question) : Prop :=
  forall a m ts, ts_elapsed ts <= BUDGET_MS -> serve u a q = Some m ->
    response_matches_request (make_request q false) m = true ->
    exists ts', query_nameserver o (a, port) q false ts = (Val (Some m), ts') /\ ts_elapsed ts' <= BUDGET_MS
                /\ R (a, port) q ts ts'.

Lemma delivers_any o u port q : delivers o u port q -> delivers_with (fun _ _ _ _ => True) o u port q.
Proof. intros H a m ts H1 H2 H3. destruct (H a m ts H1 H2 H3) as (ts' & E & Hb). eauto. Qed.

(* the replies of an authoritative server pass the header gate *)
Lemma msg_matches q aa rcode an au ad :
  (rcode = RCODE_NoError \/ rcode = RCODE_NameError) ->
  response_matches_request (make_request q false) (msg q aa rcode an au ad) = true.
Proof.
  intros [-> | ->]; unfold response_matches_request, make_request, from_question, msg, reply_message;
    cbn [m_header m_questions h_id h_qr h_opcode h_tc h_rcode sr_rcode]; rewrite (proj2 (question_eqb_eq q q) eq_refl); reflexivity.
Qed.

(* what a server whose closest zone [z] owns the name says, and what the filter makes of it: exactly
   the authoritative answer *)
Lemma serve_answer u a z q mc :
  owns_plainly u z q -> serves_owner u a z q -> q_type q <> RT_CNAME -> q_type q <> QT_Wildcard ->
  Forall (fun r => rr_is_unknown r = false) (zone_data z) ->
  rr_type (uz_soa z) = RT_SOA -> rr_name (uz_soa z) = uz_apex z -> mc <= llen (labels (uz_apex z)) ->
  exists m, serve u a q = Some m /\ response_matches_request (make_request q false) m = true
    /\ validate_nameserver_response q m mc = Ok (Some (NRAnswer (aa_rrs (auth_answer u q)) (aa_soa (auth_answer u q)))).
Proof.
  intros Ho Hs Hq1 Hq2 Hknown Hsoat Hsoan Hmc.
  destruct (serve_is_auth_answer u a z q Ho Hs) as (_ & _ & [(Hne & -> & Hserve)|(-> & -> & rcode & Hrc & Hserve)]);
    eexists; (split; [exact Hserve|]).
  - split; [apply msg_matches; auto|]. apply validate_plain_answer; [|exact Hne].
    apply Forall_forall. intros r Hr. destruct (auth_rrs_in u z q r Ho Hq2 Hr) as (Hin & Hn & Ht).
    split; [exact (proj1 (Forall_forall _ _) Hknown r Hin)|]. split; [exact Hn|].
    rewrite (auth_rrs_plain u z q Ho) in Hr. apply filter_In in Hr. split; [exact (proj2 Hr)|congruence].
  - split; [apply msg_matches; exact Hrc|].
    destruct Ho as (Hb & _). apply best_zone_spec in Hb as [Hb|[_ Hsub]]; [discriminate|].
    apply validate_denial; [exact Hrc|exact Hsoat|rewrite Hsoan; exact Hsub|rewrite Hsoan; exact Hmc].
Qed.

(* the records a referral from [z0] to the cut [c] leaves after the filter: the NS set of the cut and
   the glue of the hosts [names] *)
Definition referral_rrs (z0 : uzone) (c : dname) (names : list dname) : list rr :=
  filter (ns_glue_filter c names true false) (sr_authority (referral z0 c))
  ++ filter (ns_glue_filter c names false true) (sr_additional (referral z0 c)).

(* what a server whose closest zone [z0] has the cut [c] on the way to the name says, and what the
   filter makes of it: the delegation to [c] with the NS targets at [c] as hosts.  (Excluded: the
   question name owns glue in that referral -- the glue shortcut, finding F11.) *)
Lemma serve_referral u a z0 c q mc :
  serves_owner u a z0 q -> cut_owner z0 (q_name q) = Some c ->
  Forall (fun r => exists h, is_ns_rr r = Some h) (uz_cuts z0) -> mc < llen (labels c) ->
  (forall r, In r (uz_glue z0 ++ uz_rrs z0) -> rr_name r <> q_name q) ->
  exists m names, serve u a q = Some m /\ response_matches_request (make_request q false) m = true
    /\ validate_nameserver_response q m mc
       = Ok (Some (NRDelegation (referral_rrs z0 c names) {| ns_hostnames := names; ns_name := c |}))
    /\ (forall h, In h names <-> exists r, In r (uz_cuts z0) /\ rr_name r = c /\ is_ns_rr r = Some h)
    /\ glue_answer [] (referral_rrs z0 c names) q = None.
Proof.
  intros (zs' & Hz & Hbz) Hcut Hnsty Hmc Hnoglue.
  set (ns := sr_authority (referral z0 c)). set (ad := sr_additional (referral z0 c)).
  assert (Hserve : serve u a q = Some (msg q false RCODE_NoError [] ns ad)).
  { unfold serve. rewrite Hz. change CHAIN_FUEL with (S 63). rewrite serve_name_S, Hbz, Hcut. reflexivity. }
  destruct (cut_owner_spec _ _ _ Hcut) as [Hsub [r0 [Hr0 Hr0c]]].
  assert (Hns_in : forall r, In r ns <-> In r (uz_cuts z0) /\ rr_name r = c).
  { intro r. unfold ns, referral. cbn [sr_authority]. rewrite filter_In, dname_eqb_eq. reflexivity. }
  assert (Hne : ns <> []).
  { intro E. assert (H : In r0 ns) by (apply Hns_in; auto). rewrite E in H. destruct H. }
  assert (Hall : Forall (referral_ns q c) ns).
  { apply Forall_forall. intros r Hr. apply Hns_in in Hr as [H1 H2]. split; [exact H2|].
    exact (proj1 (Forall_forall _ _) Hnsty r H1). }
  destruct (validate_referral q false RCODE_NoError c ns ad mc Hne Hall Hsub Hmc) as (rrs & names & Hv & Hnames).
  destruct (validate_delegation_inv _ _ _ _ _ Hv) as [_ Hrrs]. cbn [ns_name ns_hostnames] in Hrrs.
  unfold delegation_rrs, msg, reply_message in Hrrs.
  cbn [m_answers m_authority m_additional sr_answers sr_authority sr_additional filter app] in Hrrs.
  fold ns ad in Hrrs. change (rrs = referral_rrs z0 c names) in Hrrs. subst rrs.
  exists (msg q false RCODE_NoError [] ns ad), names.
  split; [exact Hserve|]. split; [apply msg_matches; auto|]. split; [exact Hv|]. split.
  - intro h. rewrite Hnames. split.
    + intros [r [H1 H2]]. apply Hns_in in H1. exists r. tauto.
    + intros [r [H1 [H2 H3]]]. exists r. split; [apply Hns_in; auto|exact H3].
  - (* the referral holds no address record owned by the question name *)
    assert (Hno : forall t, (t = RT_A \/ t = RT_AAAA) -> get_records (referral_rrs z0 c names) (q_name q) t = []).
    { intros t Ht. unfold get_records.
      destruct (filter _ (referral_rrs z0 c names)) as [|x l] eqn:Ef; [reflexivity|]. exfalso.
      assert (Hx : In x (x :: l)) by (left; reflexivity). rewrite <- Ef in Hx. apply filter_In in Hx as [Hin Hb].
      apply andb_prop in Hb as [Hty Hnm]. apply N.eqb_eq in Hty. apply dname_eqb_eq in Hnm.
      apply in_app_or in Hin as [Hin|Hin]; apply filter_In in Hin as [Hin Hf].
      - apply ns_glue_filter_true in Hf as [(h & [Hnst _] & _)|(_ & Hfalse & _)]; [|discriminate].
        rewrite Hnst in Hty. destruct Ht as [-> | ->]; discriminate.
      - unfold referral in Hin. cbn [sr_additional] in Hin. apply filter_In in Hin as [Hin _].
        exact (Hnoglue x Hin Hnm). }
    unfold glue_answer. destruct (q_type q =? RT_A); [rewrite (Hno RT_A); auto|].
    destruct (q_type q =? RT_AAAA); [rewrite (Hno RT_AAAA); auto|reflexivity].
Qed.

Section Hops.
  Variable cache : Type.
  Variable cache_get : cache -> dname -> N -> list rr.
  Variable cache_insert_all : cache -> list rr -> cache.
  Variable sort_names : list dname -> list dname.
  Variable zs : zones.
  Variable o : oracle.
  Variable pmode : protocol_mode.
  Variable port : N.

  Notation cstep := (candidate_step cache cache_get cache_insert_all sort_names zs o pmode port).
  Notation rhi := (resolve_hostname_to_ip cache cache_get zs pmode).
  Notation qav := (query_and_validate cache o).

  Lemma qav_delivered R u a q mc st :
    delivers_with R o u port q -> ts_elapsed (snd st) <= BUDGET_MS ->
    forall m nr, serve u a q = Some m /\ response_matches_request (make_request q false) m = true
                 /\ validate_nameserver_response q m mc = Ok (Some nr) ->
    exists ts', qav (a, port) q mc st = (Val (Some nr), (fst st, ts')) /\ ts_elapsed ts' <= BUDGET_MS
                /\ R (a, port) q (snd st) ts'.
  Proof.
    intros Hd Hb m nr (Hs & Hm & Hv). destruct (Hd a m (snd st) Hb Hs Hm) as (ts' & E & Hb' & HR).
    exists ts'. split; [|auto]. unfold query_and_validate, rbind, lift_t. rewrite E. cbn [fst snd]. rewrite Hv. reflexivity.
  Qed.

  (* the loop ends with the answer the candidate's server gave *)
  Lemma cstep_answer rec loop stack q combined mc cands next locally st candidate rest a st1 rrs soa st2 :
    pop_last cands = Some (candidate, rest) ->
    rhi rec stack locally candidate st = (Val (Some a), st1) ->
    qav (a, port) q mc st1 = (Val (Some (NRAnswer rrs soa)), st2) ->
    (forall r, In r rrs -> owned_elsewhere zs q r = false) ->          (* cut_at_local_authority cuts nothing *)
    cstep rec loop stack q combined mc cands next locally st
    = (Val (ROk (NonAuthoritative (prioritising_merge combined rrs) soa)), (cache_insert_all (fst st2) rrs, snd st2)).
  Proof.
    intros Ep Eh Eq Hno. unfold candidate_step. rewrite Ep. unfold rbind at 1. rewrite Eh.
    unfold rbind at 1. rewrite Eq. unfold resolve_with_nameserver_response. rewrite (cut_answer_same zs q rrs soa Hno). reflexivity.
  Qed.

  (* the loop goes on with the delegation the candidate's server gave *)
  Lemma cstep_delegation rec loop stack q mc cands next locally st candidate rest a st1 rrs d st2 :
    pop_last cands = Some (candidate, rest) ->
    rhi rec stack locally candidate st = (Val (Some a), st1) ->
    qav (a, port) q mc st1 = (Val (Some (NRDelegation rrs d)), st2) -> glue_answer [] rrs q = None ->
    cstep rec loop stack q [] mc cands next locally st
    = loop (ns_match_count d) (sort_names (ns_hostnames d)) [] true (cache_insert_all (fst st2) rrs, snd st2).
  Proof.
    intros Ep Eh Eq Hglue. unfold candidate_step. rewrite Ep. unfold rbind at 1. rewrite Eh. unfold rbind at 1. rewrite Eq.
    unfold resolve_with_nameserver_response, resolve_with_response_match, cut_at_local_authority, lift_res, rbind, insert_all, ret.
    rewrite Hglue. reflexivity.
  Qed.

  (* LAST HOP.  The loop is at a delegation no deeper than the zone [z] that owns the question name
     (no cut on the way, no alias at the name), the candidate it picks has an address [a] at which a
     server of [z] listens, and the transport delivers what [serve] prescribes.  Then the loop
     returns exactly the authoritative answer, having cached its records. *)
  Lemma last_hop R u z q rec loop stack mc cands next locally st candidate rest a st1 :
    delivers_with R o u port q -> owns_plainly u z q -> serves_owner u a z q ->
    q_type q <> RT_CNAME -> q_type q <> QT_Wildcard ->
    Forall (fun r => rr_is_unknown r = false) (zone_data z) ->
    rr_type (uz_soa z) = RT_SOA -> rr_name (uz_soa z) = uz_apex z -> mc <= llen (labels (uz_apex z)) ->
    pop_last cands = Some (candidate, rest) ->
    rhi rec stack locally candidate st = (Val (Some a), st1) -> ts_elapsed (snd st1) <= BUDGET_MS ->
    exists ts',
      cstep rec loop stack q [] mc cands next locally st
      = (Val (ROk (NonAuthoritative (aa_rrs (auth_answer u q)) (aa_soa (auth_answer u q)))),
         (cache_insert_all (fst st1) (aa_rrs (auth_answer u q)), ts'))
      /\ ts_elapsed ts' <= BUDGET_MS /\ R (a, port) q (snd st1) ts'.
  Proof.
    intros Hd Ho Hs Hq1 Hq2 Hknown Hsoat Hsoan Hmc Ep Eh Hbud.
    destruct (serve_answer u a z q mc Ho Hs Hq1 Hq2 Hknown Hsoat Hsoan Hmc) as (m & Hm).
    destruct (qav_delivered R u a q mc st1 Hd Hbud m _ Hm) as (ts' & Eq & Hbud' & HR).
    exists ts'. split; [|auto].
    rewrite (cstep_answer _ _ _ _ _ _ _ _ _ _ _ _ _ _ _ _ _ Ep Eh Eq), merge_nil_l; [reflexivity|].
    intros r Hr. apply owned_elsewhere_qname. exact (proj1 (proj2 (auth_rrs_in u z q r Ho Hq2 Hr))).
  Qed.

  (* A REFERRAL HOP.  A server at [a] whose best zone [z0] for the question name has a delegation
     point [c] on the way, deeper than the delegation in use; the transport delivers [serve]'s
     referral.  Then, in whatever state of the loop the popped candidate's address was found to be
     [a], the loop inserts the NS set of the cut and the glue for its hosts into the cache and
     continues with exactly the delegation [c], whose hosts are the targets of the NS records at [c]. *)
  Lemma referral_hop R u a z0 c q mc (st1 : rstate cache) :
    delivers_with R o u port q -> serves_owner u a z0 q ->
    cut_owner z0 (q_name q) = Some c ->
    Forall (fun r => exists h, is_ns_rr r = Some h) (uz_cuts z0) ->
    mc < llen (labels c) ->
    (forall r, In r (uz_glue z0 ++ uz_rrs z0) -> rr_name r <> q_name q) ->
    ts_elapsed (snd st1) <= BUDGET_MS ->
    exists names ts3,
      (forall h, In h names <-> exists r, In r (uz_cuts z0) /\ rr_name r = c /\ is_ns_rr r = Some h) /\ names <> []
      /\ ts_elapsed ts3 <= BUDGET_MS /\ R (a, port) q (snd st1) ts3
      /\ forall rec loop stack cands next locally st candidate rest,
           pop_last cands = Some (candidate, rest) ->
           rhi rec stack locally candidate st = (Val (Some a), st1) ->
           cstep rec loop stack q [] mc cands next locally st
           = loop (llen (labels c)) (sort_names names) [] true (cache_insert_all (fst st1) (referral_rrs z0 c names), ts3).
  Proof.
    intros Hd Hs Hcut Hnsty Hmc Hnoglue Hbud.
    destruct (serve_referral u a z0 c q mc Hs Hcut Hnsty Hmc Hnoglue) as (m & names & H1 & H2 & H3 & Hnames & Hglue).
    destruct (qav_delivered R u a q mc st1 Hd Hbud m _ (conj H1 (conj H2 H3))) as (ts3 & Eq & Hbud' & HR).
    exists names, ts3. split; [exact Hnames|]. split; [|split; [exact Hbud'|split; [exact HR|]]].
    { destruct (cut_owner_spec _ _ _ Hcut) as (_ & r0 & Hr0 & Hr0c). destruct (proj1 (Forall_forall _ _) Hnsty r0 Hr0) as [h0 Hh0].
      intro E. assert (Hx : In h0 names) by (apply Hnames; exists r0; auto). rewrite E in Hx. destruct Hx. }
    intros rec loop stack cands next locally st candidate rest Ep Eh.
    exact (cstep_delegation _ _ _ _ _ _ _ _ _ _ _ _ _ _ _ _ Ep Eh Eq Hglue).
  Qed.
End Hops.

Lemma request_wf q rd : wf_question q -> wf_message (make_request q rd).
Proof.
  intro Hq. unfold make_request, from_question, wf_message, wf_header. cbn [m_header m_questions m_answers m_authority m_additional h_id h_opcode h_rcode].
  split; [repeat split; vm_compute; reflexivity|]. split; [constructor; [exact Hq|constructor]|]. repeat split; constructor.
Qed.

(* the request for one question: the twelve header octets are fixed (id 0, no flag, one question) *)
Lemma encode_request_shape q : exists os, encode (make_request q false) = Ok ([0;0;0;0;0;1;0;0;0;0;0;0] ++ os).
Proof.
  unfold encode, make_request, from_question.
  cbn [m_questions m_answers m_authority m_additional m_header h_id h_qr h_opcode h_aa h_tc h_rd h_ra h_rcode].
  change (usize_to_u16 (llen [q])) with (@Ok serr N 1).
  change (usize_to_u16 (llen (@nil rr))) with (@Ok serr N 0).
  cbn [bind encode_rrs fold_left].
  unfold encode_question, write_u16. rewrite !octets_write_octets.
  set (B := write_octets (u16_bytes 0) (write_octets (u16_bytes 0) (write_octets (u16_bytes 0) (write_octets (u16_bytes 1)
              (encode_header {| h_id := REQUEST_ID; h_qr := false; h_opcode := OPCODE_Standard; h_aa := false;
                                h_tc := false; h_rd := false; h_ra := false; h_rcode := RCODE_NoError |} wb_empty))))).
  destruct (ext_encode_name (q_name q) true B) as [os Eos]. rewrite Eos.
  assert (HB : wb_octets B = [0;0;0;0;0;1;0;0;0;0;0;0]) by (vm_compute; reflexivity).
  rewrite HB. exists (os ++ u16_bytes (q_type q) ++ u16_bytes (q_class q)). rewrite <- !app_assoc. reflexivity.
Qed.

Lemma parses_id0 bs m : Parses bs m -> h_id (m_header m) = 0 -> exists t, bs = 0 :: 0 :: t.
Proof.
  intros ((f1 & f2 & (a & b & Ha & Hb & Hv) & _) & _) Hid. rewrite Hid in Hv.
  assert (a = 0 /\ b = 0) as [-> ->] by lia.
  unfold at_, nthN in Ha, Hb. cbn in Ha, Hb. destruct bs as [|x [|y t]]; cbn in Ha, Hb; try discriminate.
  inversion Ha; inversion Hb; subst. exists t. reflexivity.
Qed.

(* what is assumed of the universe for the question [q]: what its servers say about [q] are
   well-formed messages that fit a UDP datagram (decidable; names as the decoder produces them) *)
Definition serve_fits (u : universe) (q : question) : Prop :=
  forall a m, serve u a q = Some m -> wf_message m /\ exists bs, encode m = Ok bs /\ llen bs <= 512.

(* the exchange with the fault-free universe oracle: the request and the reply make the round trip
   through the wire codec (C04), the oracle recovers the request's question and patches the id in,
   the datagram fits the receive buffer; one UDP call is logged and no time passes *)
Lemma universe_oracle_exchange u port q :
  wf_question q ->
  (forall req, encode (make_request q false) = Ok req -> llen req <= 512) ->
  serve_fits u q ->
  forall a m ts, ts_elapsed ts <= BUDGET_MS -> serve u a q = Some m ->
    response_matches_request (make_request q false) m = true ->
    exists r, query_nameserver (universe_oracle u []) (a, port) q false ts
              = (Val (Some m), next_exchange (log_call KUdp (a, port) q false (ts_nexch ts) r ts)).
Proof.
  intros Hq Hreq Hfits a m ts Hbud Hs Hm.
  destruct (Hfits a m Hs) as (Hwf & bs & Ebs & Hlen).
  destruct (encode_request_shape q) as [os Ereq].
  set (req := [0;0;0;0;0;1;0;0;0;0;0;0] ++ os) in *.
  pose proof (Hreq req Ereq) as Hreqlen.
  pose proof (request_wf q false Hq) as Hrwf.
  assert (Hdreq : decode req = Ok (make_request q false)).
  { apply decode_complete; [exact (encode_bytes _ req Hrwf Ereq)|exact (encode_parses _ req Hrwf Ereq)]. }
  assert (Hdbs : decode bs = Ok m).
  { apply decode_complete; [exact (encode_bytes m bs Hwf Ebs)|exact (encode_parses m bs Hwf Ebs)]. }
  assert (Hid : h_id (m_header m) = 0).
  { unfold serve in Hs. destruct (zones_of_server u a); [|discriminate]. inversion Hs. reflexivity. }
  destruct (parses_id0 bs m (encode_parses m bs Hwf Ebs) Hid) as [t Ebst].
  assert (Hclear : clear_tc req = req) by reflexivity.
  assert (Hreq12 : (@llen byte req <? 12) = false).
  { apply N.ltb_ge. subst req. rewrite llen_app. unfold llen at 1. cbn [length N.of_nat]. lia. }
  assert (Hreq512 : (512 <? @llen byte req) = false) by (apply N.ltb_ge; exact Hreqlen).
  (* what the oracle answers *)
  assert (Hrq : request_question req = Some q).
  { unfold request_question. rewrite Hdreq. reflexivity. }
  assert (Horacle : forall n, universe_oracle u [] n Udp (a, port) req = mk_reply (Some bs) 0 true).
  { intro n. unfold universe_oracle. rewrite Hrq. cbn [fst]. rewrite Hs, Ebs.
    unfold reply_of. subst req. cbn [app option_map header_fault frame patch_id]. rewrite Ebst.
    cbn [patch_id]. reflexivity. }
  exists (mk_reply (Some bs) 0 true).
  unfold query_nameserver. cbv zeta. rewrite Ereq.
  unfold udp_exchange. rewrite Hreq512, Hreq12, Hclear, Horacle.
  unfold udp_outcome, mk_reply. cbn [t_refuse t_bytes t_delay_ms].
  replace (UDP_TIMEOUT_MS <? 0) with false by reflexivity.
  assert (Hfirst : firstn (N.to_nat UDP_RECV_BUF) bs = bs).
  { apply firstn_all2. unfold llen in Hlen. unfold UDP_RECV_BUF. lia. }
  rewrite Hfirst.
  unfold charge. cbn [ts_elapsed next_exchange log_call].
  assert (Hch : (BUDGET_MS <? ts_elapsed ts + 0) = false) by (apply N.ltb_ge; lia).
  rewrite Hch. unfold decode_opt. rewrite Hdbs. unfold gate. rewrite Hm.
  unfold next_exchange, log_call. cbn [ts_rlog ts_elapsed ts_nexch]. rewrite N.add_0_r. reflexivity.
Qed.
