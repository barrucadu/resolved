(* Resolver/RecursiveGlueless.v -- C07 with GLUELESS nameservers: delegations whose nameserver
   hosts have no usable glue in the parent ("out-of-bailiwick nameserver names").

   At such a cut the fast pass of the candidate loop finds no address for any candidate (unless the
   cache happens to hold one): every candidate is moved to next_candidate_hostnames; then the slow pass
   pops the first of them, [h], and resolve_hostname_to_ip calls resolve_recursive_notimeout on
   (h, A) (or AAAA, by the mode) with the question under way on the stack.  That nested resolution
   is itself a walk down the delegation chain of [h] from the root hints or the warm cache -- the
   theorem of RecursiveModes.v with a non-empty stack -- whose chain may again have glueless cuts.
   It yields the address records of [h] (from its owning zone, or from the cache), the first of which
   is the address of a server of the child zone; the query proceeds there.  The nested resolutions
   warm the cache; it stays consistent.

   Well-foundedness.  The nested resolution of [h] must not need [h] again, nor any name whose
   resolution is under way (the resolver would answer DuplicateQuestion, find no address and end
   with DeadEnd).  This is asked as a RANK function on nameserver host names: every nameserver host
   (with glue or without) of every zone on the delegation chain of a glueless host [h] has a rank
   below that of [h] ([plan_ok]).  Ranks are below 30: the stack of questions under way is limited to
   32 (RECURSION_LIMIT). *)
From Coq Require Import Permutation PeanoNat.
From RV Require Import Base.Prelude Name.NameModel Name.NameSpec Name.NameProofs Wire.WireTypes
     Zone.ZoneModel Zone.ZoneFlat Resolver.LocalModel Resolver.ValidateModel Resolver.TransportModel
     Resolver.RecursiveModel Resolver.ForwardingModel Resolver.RecursiveProofs Resolver.Universe
     Resolver.RecursiveCorrect Resolver.RecursiveDepth1 Resolver.RecursiveChain
     Resolver.RecursiveWarm Resolver.RecursiveModes Resolver.ResolverCacheInstance
     Resolver.UniverseCheck.

(* the exchanges about [q], in order one per zone of [used], each with a server whose closest zone
   for the question name is that zone -- interleaved with the exchanges of the nested resolutions,
   which are about nameserver host names *)
Inductive glog (u : universe) (port : N) (q : question) : list uzone -> list exchange -> Prop :=
| gl_nil : glog u port q [] []
| gl_host e es used : ns_host_name u (q_name (x_question e)) -> glog u port q used es -> glog u port q used (e :: es)
| gl_own z e es used : (exists a, query_toi port q a e /\ serves_owner u a z q) -> glog u port q used es ->
    glog u port q (z :: used) (e :: es).

Definition host_exchange (u : universe) (e : exchange) : Prop := ns_host_name u (q_name (x_question e)).

Lemma glog_all_host u port q used es : ns_host_name u (q_name q) -> glog u port q used es -> Forall (host_exchange u) es.
Proof.
  intros Hq H. induction H as [|e es used He _ IH|z e es used (a & (_ & _ & Hqe & _) & _) _ IH]; constructor; try assumption.
  unfold host_exchange. rewrite Hqe. exact Hq.
Qed.

(* without nested resolutions it is chain_logm *)
Lemma chain_logm_glog u port q used es : chain_logm u port q used es -> glog u port q used es.
Proof. intro H. induction H as [|z e l l' Hze _ IH]; [constructor|]. apply gl_own; assumption. Qed.

Section PlanDefs.
  Variable u : universe.
  Variable hints : list rr.
  Variable mode : protocol_mode.
  Variable multi : bool.
  Variable zroot : uzone.
  (* the glueless hosts; for each the zones of its delegation chain below the root and the zone that
     owns it; a rank *)
  Variable planned : dname -> Prop.
  Variable plan : dname -> list uzone * uzone.
  Variable hrank : dname -> nat.

  (* the zone owning [h] holds a record of type [t] for it *)
  Definition has_addr (h : dname) (t : N) : Prop :=
    exists r, In r (zone_data (snd (plan h))) /\ rr_name r = h /\ rr_type r = t.

  (* what is asked of a glueless host [h]:
     - for every record type [t] of the mode, the question (h, t) walks down the chain [plan h] (the
       hypotheses of C07_correct_modes that concern the walk, glueless cuts allowed for planned
       hosts), the last zone of the chain owns [h] plainly, requests and replies fit 512 octets;
     - the owning zone holds an address record of [h] of SOME type of the mode; its records of [h]
       are of class IN; no record of the universe owned by [h] is a CNAME;
     - every nameserver host (with glue or not) of every zone of the chain has a rank below [h]'s;
     - the rank is below 30 *)
  Definition plan_ok (h : dname) : Prop :=
    (forall t, mode_usable mode t ->
       walkm u hints mode multi planned (mkq h t RC_IN) zroot (fst (plan h)) (snd (plan h))
       /\ answering_zone u (snd (plan h)) (mkq h t RC_IN)
       /\ plain_question u (mkq h t RC_IN))
    /\ (exists t, mode_usable mode t /\ has_addr h t)
    /\ (forall r, u_record u r -> rr_name r = h -> rr_type r <> RT_CNAME)
    /\ (forall r, In r (zone_data (snd (plan h))) -> rr_name r = h -> rr_class r = RC_IN)
    /\ (forall h', chain_host u zroot (fst (plan h)) h' -> (hrank h' < hrank h)%nat)
    /\ (hrank h < 30)%nat.
End PlanDefs.

Lemma pop_last_snoc {A} (x : A) : forall l, pop_last (l ++ [x]) = Some (x, l).
Proof.
  induction l as [|y l IH]; cbn [app pop_last]; [reflexivity|]. rewrite IH. reflexivity.
Qed.

(* what the nested resolution of the host question (h, t), for every type of the mode, gives from
   any consistent cache: a result whose records are address records of [h] of that type with the data
   of records of the universe -- non-empty when the zone owning [h] has such a record ([haddr]) --, a
   consistent cache, a log of exchanges about nameserver host names *)
Definition nested_ok (cache : Type) (cache_get : cache -> dname -> N -> list rr) (cache_insert_all : cache -> list rr -> cache)
           (sort_names : list dname -> list dname) (zs : zones) (o : oracle) (mode : protocol_mode) (port : N)
           (u : universe) (hints : list rr) (planned : dname -> Prop) (haddr : dname -> N -> Prop)
           (stack : list question) (h : dname) : Prop :=
  forall t c ts,
    mode_usable mode t -> consistentm u hints mode planned cache cache_get c -> ts_elapsed ts <= BUDGET_MS ->
    exists f rrs soa c' ts' es,
      resolve_recursive_notimeout cache cache_get cache_insert_all sort_names zs o mode port f stack (mkq h t RC_IN) (c, ts)
      = (Val (ROk (NonAuthoritative rrs soa)), (c', ts'))
      /\ ts_rlog ts' = rev es ++ ts_rlog ts /\ ts_elapsed ts' <= BUDGET_MS
      /\ consistentm u hints mode planned cache cache_get c'
      /\ Forall (host_exchange u) es
      /\ (forall x, In x rrs -> rr_name x = h /\ rr_type x = t /\ rr_class x = RC_IN
                               /\ exists r, u_record u r /\ rr_name r = h /\ rr_type r = t /\ rr_data r = rr_data x)
      /\ (haddr h t -> rrs <> []).

Section GlueM.
  Variable cache : Type.
  Variable cache_get : cache -> dname -> N -> list rr.
  Variable cache_insert_all : cache -> list rr -> cache.
  Hypothesis LAWS : cache_laws cache cache_get cache_insert_all.

  Variable sort_names : list dname -> list dname.
  Hypothesis Hsort : forall l, Permutation (sort_names l) l.

  Variable zs : zones.
  Variable hints : list rr.
  Hypothesis Hz : hints_zones zs hints.
  Hypothesis Hh : Forall hint_okm hints.

  Variable o : oracle.
  Variable port : N.
  Variable u : universe.
  Hypothesis UNS : universe_ns_ok u.
  Variable mode : protocol_mode.
  Variable multi : bool.
  Variable planned : dname -> Prop.
  Variable haddr : dname -> N -> Prop.

  Variable q : question.
  Variable zroot : uzone.
  Variable rest0 : list uzone.
  Variable zk : uzone.
  Hypothesis WK : walkm u hints mode multi planned q zroot rest0 zk.
  Hypothesis Hdel : delivers_log o u port q.

  Variable stk : list question.
  Hypothesis Hstk_len : (length stk + 1 < 32)%nat.
  Hypothesis Hstk_q : is_duplicate_question stk q = false.
  Hypothesis Hstk : Forall (fun s => q_type s <> RT_NS) stk.
  Notation istk := (stk ++ [q]).
  Hypothesis Hfresh : forall s h, In s istk -> chain_host u zroot rest0 h -> q_name s <> h.

  Notation rrn := (resolve_recursive_notimeout cache cache_get cache_insert_all sort_names zs o mode port).
  Notation cloop := (candidate_loop cache cache_get cache_insert_all sort_names zs o mode port).
  Notation rhi := (resolve_hostname_to_ip cache cache_get zs mode).
  Notation hloop := (hostname_loop cache cache_get zs).
  Notation consistent := (consistentm u hints mode planned cache cache_get).
  Notation ready := (readym hints mode cache cache_get).
  Notation A := (auth_answer u q).
  Notation landsq := (lands u multi q).
  Notation chost := (chain_host u zroot rest0).
  Notation hostx := (host_exchange u).

  (* the nested resolutions of the planned hosts of the chain, with [q] on the stack *)
  Hypothesis NEST : forall h, planned h -> chost h ->
    nested_ok cache cache_get cache_insert_all sort_names zs o mode port u hints planned haddr istk h.
  Hypothesis HADDR : forall h, planned h -> exists t, mode_usable mode t /\ haddr h t.


  (* a host is ready, or no type of the mode has a hint or a cached RRset for it *)
  Lemma ready_dec c h : wf_name h ->
    ready c h \/ (forall t, In t (rtypes_of_mode mode) -> (forall x, ~ hint_match hints h t x) /\ cache_get c h t = []).
  Proof.
    intro Hwf. unfold readym, mode_usable.
    assert (H : forall types, Forall addr_type types ->
              (exists t, In t types /\ ((exists x, hint_match hints h t x) \/ cache_get c h t <> []))
              \/ (forall t, In t types -> (forall x, ~ hint_match hints h t x) /\ cache_get c h t = [])).
    { induction types as [|t types IH]; intro Hty; [right; intros t []|].
      inversion Hty as [|? ? Ht Hty']; subst.
      destruct (hint_match_dec zs hints Hz h t Hwf (ip_type_not_any t Ht)) as [Hx|Hno];
        [left; exists t; split; [left; reflexivity|left; exact Hx]|].
      destruct (cache_get c h t) as [|y l] eqn:E.
      - destruct (IH Hty') as [(t' & Hin & Hr)|Hnone]; [left; exists t'; split; [right; exact Hin|exact Hr]|].
        right. intros t' [<-|Hin]; [split; [exact Hno|exact E]|exact (Hnone t' Hin)].
      - left. exists t. split; [left; reflexivity|right; rewrite E; discriminate]. }
    destruct (H _ (rtypes_addr mode)) as [(t & Hin & Hr)|Hnone]; [left; split; [exact Hwf|exists t; auto]|right; exact Hnone].
  Qed.

  (* the fast pass finds nothing for a host that is not ready *)
  Lemma rhi_fast_none rec c ts h : consistent c -> wf_name h ->
    (forall r, u_record u r -> rr_name r = h -> rr_type r <> RT_CNAME) ->
    (forall t, In t (rtypes_of_mode mode) -> (forall x, ~ hint_match hints h t x) /\ cache_get c h t = []) ->
    rhi rec istk true h (c, ts) = (Val None, (c, ts)).
  Proof.
    intros HC Hwf Hnc Hnone. unfold resolve_hostname_to_ip.
    apply (hloop_fast_none cache cache_get zs hints Hz rec istk h (c, ts) (Hlim_in q stk Hstk_len) Hwf).
    - cbn [fst]. exact (no_cached_cname cache cache_get hints u mode planned c h HC Hnc).
    - apply rtypes_addr.
    - exact Hnone.
  Qed.

  (* one iteration of the fast pass over a candidate without a local address: it is moved to
     next_candidate_hostnames; after the last one the slow pass starts with them *)
  Lemma skip_step f mc cands next c ts h rest :
    pop_last cands = Some (h, rest) -> (forall rec, rhi rec istk true h (c, ts) = (Val None, (c, ts))) ->
    cloop (S f) istk q [] mc cands next true (c, ts)
    = if is_nil rest then cloop f istk q [] mc (next ++ [h]) [] false (c, ts)
      else cloop f istk q [] mc rest (next ++ [h]) true (c, ts).
  Proof.
    intros Ep Eh. rewrite cloop_S. unfold candidate_step. rewrite Ep. unfold rbind at 1. rewrite Eh.
    destruct (is_nil rest); reflexivity.
  Qed.

  Definition cand_facts (z : uzone) (below : list uzone) (c : cache) (h : dname) : Prop :=
    host_okm u hints multi q z below h /\ chost h /\ (ready c h \/ planned h).

  (* THE FAST PASS over a list of candidates (popped from the end): it stops at the first candidate
     that is ready, or moves them all to the slow pass, in the order popped; the state is unchanged *)
  Lemma scan z below c mc ts : consistent c -> forall l next, l <> [] -> (forall h, In h l -> cand_facts z below c h) ->
    (exists k pre cand next1, In cand l /\ ready c cand
        /\ forall f, cloop (k + f) istk q [] mc l next true (c, ts) = cloop f istk q [] mc (pre ++ [cand]) next1 true (c, ts))
    \/ (exists k, (forall h, In h l -> ~ ready c h)
        /\ forall f, cloop (k + f) istk q [] mc l next true (c, ts) = cloop f istk q [] mc (next ++ rev l) [] false (c, ts)).
  Proof.
    intro HC. induction l as [|h l IH] using rev_ind; intros next Hne Hfacts; [congruence|].
    destruct (Hfacts h ltac:(apply in_or_app; right; left; reflexivity)) as ((Hwf & _ & _ & Hnc) & Hch & _).
    destruct (ready_dec c h Hwf) as [Hr|Hnone].
    - left. exists 0%nat, l, h, next. split; [apply in_or_app; right; left; reflexivity|]. split; [exact Hr|]. intro f. reflexivity.
    - assert (Hnr : ~ ready c h).
      { intros (_ & t & Ht & Hx). destruct (Hnone t Ht) as [Hno Hc]. destruct Hx as [[x Hx]|Hx]; [exact (Hno x Hx)|exact (Hx Hc)]. }
      assert (Eh : forall rec, rhi rec istk true h (c, ts) = (Val None, (c, ts))).
      { intro rec. exact (rhi_fast_none rec c ts h HC Hwf Hnc Hnone). }
      pose proof (pop_last_snoc h l) as Ep.
      destruct l as [|y l'].
      + right. exists 1%nat. split.
        * intros h' [<-|[]]. exact Hnr.
        * intro f. cbn [Nat.add app] in *. rewrite (skip_step f mc [h] next c ts h [] Ep Eh). reflexivity.
      + destruct (IH (next ++ [h]) ltac:(discriminate)) as [(k & pre & cand & next1 & Hin & Hr & E)|(k & Hnone' & E)].
        { intros h' Hin. apply Hfacts. apply in_or_app. left. exact Hin. }
        * left. exists (S k), pre, cand, next1. split; [apply in_or_app; left; exact Hin|]. split; [exact Hr|].
          intro f. cbn [Nat.add]. rewrite (skip_step (k + f) mc _ next c ts h (y :: l') Ep Eh). cbn [is_nil]. apply E.
        * right. exists (S k). split.
          -- intros h' Hin. apply in_app_or in Hin as [Hin|[<-|[]]]; [exact (Hnone' h' Hin)|exact Hnr].
          -- intro f. cbn [Nat.add]. rewrite (skip_step (k + f) mc _ next c ts h (y :: l') Ep Eh). cbn [is_nil].
             rewrite E, rev_app_distr. cbn [rev app]. rewrite <- app_assoc. reflexivity.
  Qed.

  (* THE SLOW PASS on a planned host: the nested resolutions for the types of the mode, in order,
     until one returns address records; the first of them leads to a server of the zone *)
  Lemma slow_types z below h : planned h -> chost h -> host_okm u hints multi q z below h ->
    forall types, (forall t, In t types -> mode_usable mode t) -> (exists t, In t types /\ haddr h t) ->
    forall c ts, consistent c -> ts_elapsed ts <= BUDGET_MS ->
    exists f a c2 ts2 es, hloop (rrn f) istk false h types (c, ts) = (Val (Some a), (c2, ts2))
      /\ landsq a z below /\ consistent c2 /\ ts_elapsed ts2 <= BUDGET_MS /\ ts_rlog ts2 = rev es ++ ts_rlog ts /\ Forall hostx es.
  Proof.
    intros Hp Hch (Hwf & Hu & _ & _).
    induction types as [|t types IH]; intros Hmode (t0 & Hin0 & Ha0) c ts HC Hbud; [destruct Hin0|].
    destruct (NEST h Hp Hch t c ts (Hmode t (or_introl eq_refl)) HC Hbud)
      as (f1 & rrs & soa & c' & ts' & es1 & E1 & Hlog1 & Hbud1 & HC1 & Hhost1 & Hsound & Hne).
    pose proof (mode_usable_addr mode t (Hmode t (or_introl eq_refl))) as Ht.
    destruct rrs as [|x0 rrs0].
    - (* no records of this type: the next type *)
      assert (Hrest : exists t1, In t1 types /\ haddr h t1).
      { destruct Hin0 as [<-|Hin0]; [exfalso; exact (Hne Ha0 eq_refl)|exists t0; auto]. }
      destruct (IH (fun t1 H1 => Hmode t1 (or_intror H1)) Hrest c' ts' HC1 Hbud1) as (f2 & a & c2 & ts2 & es2 & E2 & Hl & HC2 & Hbud2 & Hlog2 & Hhost2).
      exists (Nat.max f1 f2), a, c2, ts2, (es1 ++ es2).
      split; [|split; [exact Hl|split; [exact HC2|split; [exact Hbud2|split]]]].
      + cbn [hostname_loop]. unfold rbind at 1. unfold hostname_try. unfold rbind at 1.
        rewrite (rrn_fuel_mono cache cache_get cache_insert_all sort_names zs o mode port f1 (Nat.max f1 f2) istk _ _ _ _ (PeanoNat.Nat.le_max_l _ _) E1).
        cbn [resolved_rrs]. change (get_ip [] h t) with (@Ok unit (option ip) None). cbn [lift_res]. unfold ret at 1.
        exact (hloop_mono cache cache_get zs (rrn f2) (rrn (Nat.max f1 f2)) (proj1 (fuel_mono cache cache_get cache_insert_all sort_names zs o mode port f2 _ (PeanoNat.Nat.le_max_r _ _))) istk false h types _ _ _ E2).
      + rewrite Hlog2, Hlog1, rev_app_distr, <- app_assoc. reflexivity.
      + apply Forall_app. split; assumption.
    - (* address records: the first one *)
      assert (Hfrom : forall x, In x (x0 :: rrs0) -> addr_rrm h t x /\ forall a, addr_of x a -> landsq a z below).
      { intros x Hx. destruct (Hsound x Hx) as (H1 & H2 & H3 & r & Hr & Hrn & Hrt & Hrd).
        destruct (Hu r Hr Hrn ltac:(rewrite Hrt; exact Ht)) as (a & Ha & Hl).
        assert (Hxa : addr_of x a) by (apply (rr_ip_same r x a); [congruence|congruence|exact Ha]).
        split; [unfold addr_rrm; repeat (split; [assumption|]); exists a; exact Hxa|].
        intros a' Ha'. rewrite (rr_ip_fun x a' a Ha' Hxa). exact Hl. }
      assert (Hall : Forall (addr_rrm h t) (x0 :: rrs0)) by (apply Forall_forall; intros x Hx; exact (proj1 (Hfrom x Hx))).
      destruct (get_ip_addrm h t (x0 :: rrs0) Ht ltac:(discriminate) Hall) as (x & a & Hx & Ha & Hip).
      exists f1, a, c', ts', es1.
      split; [|split; [exact (proj2 (Hfrom x Hx) a Ha)|split; [exact HC1|split; [exact Hbud1|split; [exact Hlog1|exact Hhost1]]]]].
      cbn [hostname_loop]. unfold rbind at 1. unfold hostname_try. unfold rbind at 1. rewrite E1. cbn [resolved_rrs]. rewrite Hip. reflexivity.
  Qed.

  (* AT ONE ZONE: from the fresh state of the loop -- candidates that are nameserver hosts of the zone,
     each ready or planned -- the loop comes, without changing the state, to an iteration in which
     the popped candidate's address is found: in the fast pass (a ready candidate), or, when none is
     ready, in the slow pass by the nested resolution of the first candidate *)
  Lemma zone_reach z below c mc cands ts :
    In z (zroot :: rest0) -> hosts_okm u hints multi q z below -> consistent c -> ts_elapsed ts <= BUDGET_MS ->
    cands <> [] -> (forall h, In h cands -> ns_host_any u (uz_apex z) h /\ (ready c h \/ planned h)) ->
    exists k cands1 next1 locally1 cand rest1 f0 a c2 ts2 es,
      pop_last cands1 = Some (cand, rest1)
      /\ (forall f, cloop (k + f) istk q [] mc cands [] true (c, ts) = cloop f istk q [] mc cands1 next1 locally1 (c, ts))
      /\ rhi (rrn f0) istk locally1 cand (c, ts) = (Val (Some a), (c2, ts2))
      /\ landsq a z below /\ consistent c2 /\ ts_elapsed ts2 <= BUDGET_MS /\ ts_rlog ts2 = rev es ++ ts_rlog ts /\ Forall hostx es
      /\ (False -> k = 0%nat /\ f0 = 0%nat /\ es = []).
  Proof.
    intros Hzin Hhosts HC Hbud Hne Hcands.
    assert (Hfacts : forall h, In h cands -> cand_facts z below c h).
    { intros h Hin. destruct (Hcands h Hin) as [Hany Hr]. split; [exact (Hhosts h Hany)|]. split; [exact (ex_intro _ z (conj Hzin Hany))|exact Hr]. }
    destruct (scan z below c mc ts HC cands [] Hne Hfacts) as [(k & pre & cand & next1 & Hin & Hr & E)|(k & Hnone & E)].
    - destruct (Hfacts cand Hin) as (Hok & Hch & _).
      destruct (host_cand_okm cache cache_get cache_insert_all LAWS zs hints Hz Hh u mode multi planned q zroot rest0 stk Hstk_len Hfresh
                  z below c cand HC Hok Hch Hr (rrn 0) ts) as (a & Eh & Hl).
      exists k, (pre ++ [cand]), next1, true, cand, pre, 0%nat, a, c, ts, [].
      split; [apply pop_last_snoc|]. split; [exact E|]. split; [exact Eh|]. split; [exact Hl|]. split; [exact HC|]. split; [exact Hbud|].
      split; [reflexivity|]. split; [constructor|intros []].
    - destruct cands as [|h1 l]; [congruence|]. cbn [app] in E.
      destruct (Hfacts h1 (or_introl eq_refl)) as (Hok & Hch & [Hr|Hp]); [destruct (Hnone h1 (or_introl eq_refl) Hr)|].
      destruct (HADDR h1 Hp) as (t0 & Ht0 & Ha0).
      destruct (slow_types z below h1 Hp Hch Hok (rtypes_of_mode mode) (fun t H => H) (ex_intro _ t0 (conj Ht0 Ha0)) c ts HC Hbud)
        as (f0 & a & c2 & ts2 & es & Eh & Hl & HC2 & Hbud2 & Hlog2 & Hhost2).
      exists k, (rev (h1 :: l)), [], false, h1, (rev l), f0, a, c2, ts2, es.
      split; [cbn [rev]; apply pop_last_snoc|]. split; [exact E|]. split; [exact Eh|]. repeat (split; [assumption|]). intros [].
  Qed.

  Lemma seglog_glog used es : seglog hostx (own_exchange port u q) used es -> glog u port q used es.
  Proof. intro H. induction H; [constructor|apply gl_host; assumption|apply gl_own; assumption]. Qed.

  (* the whole resolution when the cache holds no RRset for the question: the descent of
     RecursiveModes.v, with the candidates of a zone reached as above *)
  Theorem resolve_net_g c ts :
    answering_zone u zk q -> (~ ns_host_name u (q_name q) -> plain_at u q zk) ->
    (forall r, u_record u r -> rr_type r = RT_CNAME -> rr_name r <> q_name q) ->
    consistent c -> ts_elapsed ts <= BUDGET_MS -> cache_get c (q_name q) (q_type q) = [] ->
    exists f c' ts' es used,
      rrn f stk q (c, ts) = (Val (ROk (NonAuthoritative (aa_rrs A) (aa_soa A))), (c', ts'))
      /\ ts_rlog ts' = rev es ++ ts_rlog ts /\ ts_elapsed ts' <= BUDGET_MS
      /\ subseq used (zroot :: rest0) /\ (exists used0, used = used0 ++ [zk])
      /\ glog u port q used es /\ consistent c'.
  Proof.
    intros AZ HS3 Hnocn HC Hbud Eget.
    destruct (resolve_net cache cache_get cache_insert_all LAWS sort_names Hsort zs hints Hz Hh o port u UNS mode multi planned
                q zroot rest0 zk WK Hdel stk Hstk_len Hstk_q Hstk AZ HS3 Hnocn hostx False zone_reach c ts HC Hbud Eget)
      as (f & c' & ts' & es & used & E & Hlog & Hbud' & Hsub & Hused0 & _ & Hes & HC' & _).
    exists (S f), c', ts', es, used. auto 10 using seglog_glog.
  Qed.
End GlueM.

Section RankInd.
  Variable cache : Type.
  Variable cache_get : cache -> dname -> N -> list rr.
  Variable cache_insert_all : cache -> list rr -> cache.
  Hypothesis LAWS : cache_laws cache cache_get cache_insert_all.
  Variable sort_names : list dname -> list dname.
  Hypothesis Hsort : forall l, Permutation (sort_names l) l.
  Variable zs : zones.
  Variable hints : list rr.
  Hypothesis Hz : hints_zones zs hints.
  Hypothesis Hh : Forall hint_okm hints.
  Variable o : oracle.
  Variable port : N.
  Variable u : universe.
  Hypothesis UNS : universe_ns_ok u.
  Variable mode : protocol_mode.
  Variable multi : bool.
  Variable zroot : uzone.
  Variable planned : dname -> Prop.
  Variable plan : dname -> list uzone * uzone.
  Variable hrank : dname -> nat.
  Hypothesis PL : forall h, planned h -> plan_ok u hints mode multi zroot planned plan hrank h.
  Hypothesis DEL : forall h t, planned h -> mode_usable mode t -> delivers_log o u port (mkq h t RC_IN).

  Notation rrn := (resolve_recursive_notimeout cache cache_get cache_insert_all sort_names zs o mode port).
  Notation consistent := (consistentm u hints mode planned cache cache_get).
  Notation haddr := (has_addr plan).
  Notation nested := (nested_ok cache cache_get cache_insert_all sort_names zs o mode port u hints planned haddr).

  (* the questions under way when the host [h] is resolved: none for NS; each about a name that is not
     a nameserver host (the question asked of the resolver) or about a host of a higher rank; few
     enough for the recursion limit *)
  Definition stack_ok (stk : list question) (h : dname) : Prop :=
    Forall (fun s => q_type s <> RT_NS /\ (~ ns_host_name u (q_name s) \/ (hrank h < hrank (q_name s))%nat)) stk
    /\ (length stk + hrank h + 1 < 32)%nat.

  Theorem nested_all : forall n h stk, (hrank h < n)%nat -> planned h -> ns_host_name u h -> stack_ok stk h -> nested stk h.
  Proof.
    induction n as [|n IH]; intros h stk Hr Hp Hhost (Hstk & Hlen) t c ts Hmode HC Hbud; [lia|].
    destruct (PL h Hp) as (Hq & _ & Hnocn & Hclass & Hrank & H30).
    destruct (Hq t Hmode) as (WK & AZ & PQ).
    pose proof (mode_usable_addr mode t Hmode) as Ht.
    set (q := mkq h t RC_IN) in *.
    assert (Hlim : at_recursion_limit stk = false) by (apply limit_false; lia).
    assert (Hdup : is_duplicate_question stk q = false).
    { apply not_dup_names. intros s Hs E. cbn [q mkq q_name] in E.
      destruct (proj1 (Forall_forall _ _) Hstk s Hs) as (_ & [Hn|Hlt]); [apply Hn; rewrite E; exact Hhost|rewrite E in Hlt; lia]. }
    assert (Hqwf : wf_name (q_name q)) by exact (wm_wf _ _ _ _ _ _ _ _ _ WK).
    destruct (cache_get c h t) as [|y0 l0] eqn:Eget.
    - (* over the network: resolve_net_g, the nested resolutions by the induction hypothesis *)
      destruct (resolve_net_g cache cache_get cache_insert_all LAWS sort_names Hsort zs hints Hz Hh o port u UNS mode multi planned haddr
                  q zroot (fst (plan h)) (snd (plan h)) WK (DEL h t Hp Hmode) stk ltac:(lia) Hdup
                  (Forall_impl _ (fun s H => proj1 H) Hstk))
        with (c := c) (ts := ts) as (f & c' & ts' & es & used & E & Hlog & Hbud' & _ & _ & Hes & HC'); try assumption.
      { (* no candidate host is the name of a question under way *)
        intros s h' Hs Hch E. subst h'. pose proof (Hrank _ Hch) as Hlt.
        apply in_app_or in Hs as [Hs|[<-|[]]].
        - destruct (proj1 (Forall_forall _ _) Hstk s Hs) as (_ & [Hn|Hlt']); [exact (Hn (chain_host_name _ _ _ _ Hch))|lia].
        - cbn [q mkq q_name] in Hlt. lia. }
      { (* the nested resolutions of the planned hosts of the chain *)
        intros h' Hp' Hch'. pose proof (Hrank _ Hch') as Hlt.
        apply (IH h' (stk ++ [q]) ltac:(lia) Hp' (chain_host_name _ _ _ _ Hch')). split.
        - apply Forall_app. split.
          + eapply Forall_impl; [|exact Hstk]. intros s (H1 & [H2|H2]); (split; [exact H1|]); [left; exact H2|right; lia].
          + constructor; [|constructor]. cbn [q mkq q_name q_type]. split; [destruct Ht as [-> | ->]; discriminate|right; exact Hlt].
        - rewrite app_length. cbn [length]. lia. }
      { intros h' Hp'. exact (proj1 (proj2 (PL h' Hp'))). }
      { intro Hn. destruct (Hn Hhost). }
      { intros r Hur Hrt Hrn. exact (Hnocn r Hur Hrn Hrt). }
      exists f, (aa_rrs (auth_answer u q)), (aa_soa (auth_answer u q)), c', ts', es.
      split; [exact E|]. split; [exact Hlog|]. split; [exact Hbud'|]. split; [exact HC'|].
      split; [exact (glog_all_host u port q used es Hhost Hes)|]. split.
      + intros x Hx. destruct (answer_in u q (snd (plan h)) (ip_type_concrete t Ht) AZ x Hx) as (Hin & Hn & Hty).
        cbn [q mkq q_name q_type] in Hn, Hty. split; [exact Hn|]. split; [exact Hty|]. split; [exact (Hclass x Hin Hn)|].
        exists x. split; [|auto]. exists (snd (plan h)). split; [exact (owner_in u q _ AZ)|].
        apply in_or_app. right. apply in_or_app. right. exact Hin.
      + intros (r & Hin & Hn & Hty) Enil.
        eapply in_nil. rewrite <- Enil. exact (in_answer u q _ (ip_type_concrete t Ht) AZ r Hin Hn Hty).
    - (* cached: the cached RRset, whose records have the data of records of the universe *)
      assert (Hne : cache_get c h t <> []) by (rewrite Eget; discriminate).
      exists 1%nat, (cache_get c h t), None, c, ts, []. split.
      + exact (rrn_cached cache cache_get zs hints Hz cache_insert_all sort_names o mode port 0 stk q c ts Hlim Hdup Hqwf
                 (ip_type_not_any t Ht) (Hq_nohintm hints u mode multi planned q zroot _ _ WK) Hne).
      + split; [reflexivity|]. split; [exact Hbud|]. split; [exact HC|]. split; [constructor|]. split; [|intros _; exact Hne].
        intros x Hx. destruct (L_shape _ _ _ LAWS c h t x (ip_type_concrete t Ht) Hx) as (H1 & H2 & H3).
        destruct (proj1 HC h t x (ip_type_concrete t Ht) Hx) as (r & Hur & Hrn & Hrt & Hrd).
        repeat (split; [assumption|]). exists r. auto.
  Qed.

  (* the question asked of the resolver: not about a nameserver host; its chain may have glueless
     cuts whose hosts are planned *)
  Variable q : question.
  Variable rest : list uzone.
  Variable zk : uzone.
  Hypothesis WQ : warm_questionm u hints mode multi planned q zroot rest zk.
  Hypothesis Hdel : delivers_log o u port q.

  Theorem glueless_resolve c ts :
    consistent c -> ts_elapsed ts <= BUDGET_MS ->
    exists f rrs c' ts' es,
      rrn f [] q (c, ts) = (Val (ROk (NonAuthoritative rrs (aa_soa (auth_answer u q)))), (c', ts'))
      /\ ts_rlog ts' = rev es ++ ts_rlog ts /\ ts_elapsed ts' <= BUDGET_MS /\ consistent c'
      /\ ((es = [] /\ c' = c /\ rrs = cache_get c (q_name q) (q_type q) /\ rrs <> [] /\ same_data rrs (aa_rrs (auth_answer u q)))
          \/ (rrs = aa_rrs (auth_answer u q) /\ cache_get c (q_name q) (q_type q) = []
              /\ exists used, subseq used (zroot :: rest) /\ (exists used0, used = used0 ++ [zk]) /\ glog u port q used es)).
  Proof.
    intros HC Hbud. destruct WQ as (WK & PA & Hnot).
    pose proof (wm_wf _ _ _ _ _ _ _ _ _ WK) as Hqwf.
    destruct (cache_get c (q_name q) (q_type q)) as [|y0 l0] eqn:Eget.
    - destruct (resolve_net_g cache cache_get cache_insert_all LAWS sort_names Hsort zs hints Hz Hh o port u UNS mode multi planned haddr
                  q zroot rest zk WK Hdel [] ltac:(cbn; lia) eq_refl (Forall_nil _))
        with (c := c) (ts := ts) as (f & c' & ts' & es & used & E & Hlog & Hbud' & Hsub & Hused0 & Hes & HC'); try assumption.
      { intros s h [<-|[]] Hch E. apply Hnot. rewrite E. exact (chain_host_name _ _ _ _ Hch). }
      { intros h Hp Hch. destruct (PL h Hp) as (_ & _ & _ & _ & _ & H30).
        apply (nested_all (S (hrank h)) h [q] ltac:(lia) Hp (chain_host_name _ _ _ _ Hch)). split.
        - constructor; [|constructor]. split; [exact (proj1 (proj2 (wm_type _ _ _ _ _ _ _ _ _ WK)))|left; exact Hnot].
        - cbn [length]. lia. }
      { intros h' Hp'. exact (proj1 (proj2 (PL h' Hp'))). }
      { exact (pa_owner _ _ _ PA). }
      { intros _. exact PA. }
      { exact (pa_nocname _ _ _ PA). }
      exists f, (aa_rrs (auth_answer u q)), c', ts', es. split; [exact E|]. split; [exact Hlog|]. split; [exact Hbud'|]. split; [exact HC'|].
      right. split; [reflexivity|]. split; [reflexivity|]. exists used. auto.
    - assert (Hne : cache_get c (q_name q) (q_type q) <> []) by (rewrite Eget; discriminate).
      rewrite <- Eget.
      destruct (cached_same_datam cache cache_get cache_insert_all LAWS hints u UNS mode multi planned q zroot rest zk WK PA Hnot c HC Hne)
        as (Hsame & Hsoa).
      exists 1%nat, (cache_get c (q_name q) (q_type q)), c, ts, []. rewrite Hsoa. split.
      + exact (rrn_cached cache cache_get zs hints Hz cache_insert_all sort_names o mode port 0 [] q c ts eq_refl eq_refl Hqwf
                 (Hq_anym hints u mode multi planned q zroot rest zk WK) (Hq_nohintm hints u mode multi planned q zroot rest zk WK) Hne).
      + split; [reflexivity|]. split; [exact Hbud|]. split; [exact HC|]. left. auto.
  Qed.
End RankInd.

Section FinalG.
  Variable cache : Type.
  Variable cache_get : cache -> dname -> N -> list rr.
  Variable cache_insert_all : cache -> list rr -> cache.
  Hypothesis LAWS : cache_laws cache cache_get cache_insert_all.
  Variable sort_names : list dname -> list dname.
  Hypothesis Hsort : forall l, Permutation (sort_names l) l.
  Variable port : N.
  Variable u : universe.
  Hypothesis UNS : universe_ns_ok u.
  Variable hints : list rr.
  Variable hz : zone.
  Hypothesis Hbuilt : zone_build root_domain None (hint_ops hints) = Ok hz.
  Variable mode : protocol_mode.
  Variable multi : bool.
  Variable zroot : uzone.
  Variable planned : dname -> Prop.
  Variable plan : dname -> list uzone * uzone.
  Variable hrank : dname -> nat.
  Hypothesis PL : forall h, planned h -> plan_ok u hints mode multi zroot planned plan hrank h.

  Notation consistent := (consistentm u hints mode planned cache cache_get).

  (* what a resolution of [q] from the cache [c] must look like when cuts may be glueless *)
  Definition outcomeg (q : question) (rest : list uzone) (zk : uzone) (c : cache) (r : res rerror resolved * rstate cache) : Prop :=
    exists rrs c' ts',
      r = (Ok (NonAuthoritative rrs (aa_soa (auth_answer u q))), (c', ts'))
      /\ consistent c'
      /\ ((ts_log ts' = [] /\ c' = c /\ rrs = cache_get c (q_name q) (q_type q) /\ rrs <> []
           /\ same_data rrs (aa_rrs (auth_answer u q)))
          \/ (rrs = aa_rrs (auth_answer u q) /\ cache_get c (q_name q) (q_type q) = []
              /\ exists used, subseq used (zroot :: rest) /\ (exists used0, used = used0 ++ [zk])
                   /\ glog u port q used (ts_log ts'))).

  Theorem glueless_correct q rest zk c :
    warm_questionm u hints mode multi planned q zroot rest zk -> plain_question u q -> consistent c ->
    exists F, forall fuel, (F <= fuel)%nat ->
      outcomeg q rest zk c
        (resolve cache cache_get cache_insert_all sort_names (ModeRecursive mode) port (zones_insert [] hz)
                 (universe_oracle u []) fuel q (c, tstate_init)).
  Proof.
    intros WQ Hq HC. pose proof WQ as (WK & _).
    pose proof (wm_hints _ _ _ _ _ _ _ _ _ WK) as (Hok & _).
    destruct Hq as (Hwf & Hq1 & Hq2 & Hreq & Hfits).
    destruct (glueless_resolve cache cache_get cache_insert_all LAWS sort_names Hsort (zones_insert [] hz) hints
                (shaped_zones_built hints hz (hint_okms_shape _ Hok) Hbuilt) Hok (universe_oracle u []) port u UNS mode multi zroot planned plan hrank PL)
      with (q := q) (rest := rest) (zk := zk) (c := c) (ts := tstate_init)
      as (f & rrs & c' & ts' & es & E & Hlog & _ & HC' & Hcases); try assumption.
    { intros h t Hp Ht. destruct (PL h Hp) as (Hall & _). destruct (Hall t Ht) as (_ & _ & (Hwf' & _ & _ & Hreq' & Hfits')).
      exact (universe_oracle_delivers_log u port _ Hwf' Hreq' Hfits'). }
    { exact (universe_oracle_delivers_log u port q Hwf Hreq Hfits). }
    { cbn. lia. }
    exists f. intros fuel Hfuel. exists rrs, c', ts'.
    destruct (resolve_of_rrn _ _ _ _ _ _ _ _ _ _ _ _ _ _ es (rrn_fuel_mono cache cache_get cache_insert_all sort_names _ _ mode port f fuel [] q _ _ _ Hfuel E) Hlog) as [Er Hl].
    split; [exact Er|split; [exact HC'|]].
    rewrite Hl. destruct Hcases as [(H1 & H2)|(H1 & H2 & H3)]; [left; auto|right; auto].
  Qed.
End FinalG.

(* plan_ok as a boolean function (Resolver/UniverseCheck.v, RecursiveWarm.v, RecursiveModes.v) *)

Section PlanCheck.
  Variable u : universe.
  Variable hints : list rr.
  Variable mode : protocol_mode.
  Variable multi : bool.
  Variable zroot : uzone.
  Variable planned : dname -> Prop.
  Variable plannedb : dname -> bool.
  Hypothesis Hplanned : forall h, plannedb h = true -> planned h.
  Variable plan : dname -> list uzone * uzone.
  Variable hrank : dname -> nat.

  Definition plan_okb (h : dname) : bool :=
    forallb (fun t => walkmb u hints mode multi plannedb (mkq h t RC_IN) zroot (fst (plan h)) (snd (plan h))
                      && answering_zoneb u (snd (plan h)) (mkq h t RC_IN) && plain_questionb u (mkq h t RC_IN)) (rtypes_of_mode mode)
    && existsb (fun t => existsb (fun r => owned_by_name h r && (rr_type r =? t)) (zone_data (snd (plan h)))) (rtypes_of_mode mode)
    && no_cname_atb u h
    && forallb (fun r => implb (owned_by_name h r) (rr_class r =? RC_IN)) (zone_data (snd (plan h)))
    && forallb (fun zi => ns_hosts_allb (u_all u) (uz_apex zi) (fun h' => Nat.ltb (hrank h') (hrank h))) (zroot :: fst (plan h))
    && Nat.ltb (hrank h) 30.

  Lemma plan_okb_sound h : plan_okb h = true -> plan_ok u hints mode multi zroot planned plan hrank h.
  Proof.
    unfold plan_okb. rewrite !andb_true_iff, !forallb_forall, existsb_exists, Nat.ltb_lt.
    intros (((((H1 & t & Ht & H2) & H3) & H4) & H5) & H6).
    split; [|split; [|split; [exact (no_cname_atb_sound u h H3)|split; [|split; [|exact H6]]]]].
    - intros t' Ht'. specialize (H1 t' Ht'). rewrite !andb_true_iff in H1. destruct H1 as ((W & A) & P).
      split; [exact (walkmb_sound u hints mode multi planned plannedb Hplanned _ _ _ _ W)|].
      split; [apply answering_zoneb_sound, A|apply plain_questionb_sound, P].
    - exists t. split; [exact Ht|]. apply existsb_exists in H2 as (r & Hr & E). apply andb_true_iff in E as [E1 E2].
      exists r. split; [exact Hr|]. split; [apply dname_eqb_eq, E1|apply N.eqb_eq, E2].
    - intros r Hr E. specialize (H4 r Hr). rewrite (owned_by_name_eq _ _ E) in H4. apply N.eqb_eq, H4.
    - intros h' (zi & Hzi & r & Hr & Hh'). apply u_record_all in Hr.
      apply Nat.ltb_lt. exact (ns_hosts_allb_sound _ _ _ (H5 zi Hzi) h' (ex_intro _ r (conj Hr Hh'))).
  Qed.
End PlanCheck.

(* a worked universe: the depth-3 chain with a zone hosted on a nameserver named in another
   branch, without glue
        .             -> com. (ns.com. 10.0.0.2, glue)  -> example.com. -> sub.example.com. (as before)
        com.          -> hosted.com.   NS ns.hoster.net.   NO GLUE
        .             -> net. (ns.net. 10.0.0.6, glue)
        net.          -> hoster.net. (ns1.hoster.net. 10.0.0.7, glue)
        hoster.net.   holds  ns.hoster.net. A 10.0.0.8 , the server of hosted.com. *)

Definition g_l_net : label := [110; 101; 116].
Definition g_l_hoster : label := [104; 111; 115; 116; 101; 114].
Definition g_l_hosted : label := [104; 111; 115; 116; 101; 100].
Definition g_l_ns1 : label := [110; 115; 49].
Definition g_n_net := c3_nm [g_l_net].
Definition g_n_ns_net := c3_nm [c3_l_ns; g_l_net].
Definition g_n_hoster := c3_nm [g_l_hoster; g_l_net].
Definition g_n_ns1_hoster := c3_nm [g_l_ns1; g_l_hoster; g_l_net].
Definition g_n_ns_hoster := c3_nm [c3_l_ns; g_l_hoster; g_l_net].
Definition g_n_hosted := c3_nm [g_l_hosted; c3_l_com].
Definition g_n_www_hosted := c3_nm [c3_l_www; g_l_hosted; c3_l_com].
Definition g_ip5 : N := 167772166.      (* 10.0.0.6 *)
Definition g_ip6 : N := 167772167.
Definition g_ip7 : N := 167772168.

Definition g_root : uzone :=
  {| uz_apex := root_domain; uz_soa := uz_soa c3_root; uz_rrs := uz_rrs c3_root;
     uz_cuts := uz_cuts c3_root ++ [c3_rr g_n_net RT_NS 3600 (RD_Name g_n_ns_net)];
     uz_glue := uz_glue c3_root ++ [c3_rr g_n_ns_net RT_A 3600 (RD_A g_ip5)] |}.
Definition g_com : uzone :=
  {| uz_apex := c3_n_com; uz_soa := uz_soa c3_com; uz_rrs := uz_rrs c3_com;
     uz_cuts := uz_cuts c3_com ++ [c3_rr g_n_hosted RT_NS 3600 (RD_Name g_n_ns_hoster)];
     uz_glue := uz_glue c3_com |}.
Definition g_net : uzone :=
  {| uz_apex := g_n_net; uz_soa := c3_soa g_n_net g_n_ns_net;
     uz_rrs := [c3_rr g_n_net RT_NS 3600 (RD_Name g_n_ns_net); c3_rr g_n_ns_net RT_A 3600 (RD_A g_ip5)];
     uz_cuts := [c3_rr g_n_hoster RT_NS 3600 (RD_Name g_n_ns1_hoster)];
     uz_glue := [c3_rr g_n_ns1_hoster RT_A 3600 (RD_A g_ip6)] |}.
Definition g_hoster : uzone :=
  {| uz_apex := g_n_hoster; uz_soa := c3_soa g_n_hoster g_n_ns1_hoster;
     uz_rrs := [c3_rr g_n_hoster RT_NS 3600 (RD_Name g_n_ns1_hoster); c3_rr g_n_ns1_hoster RT_A 3600 (RD_A g_ip6);
                c3_rr g_n_ns_hoster RT_A 3600 (RD_A g_ip7)];
     uz_cuts := []; uz_glue := [] |}.
Definition g_hosted : uzone :=
  {| uz_apex := g_n_hosted; uz_soa := c3_soa g_n_hosted g_n_ns_hoster;
     uz_rrs := [c3_rr g_n_hosted RT_NS 3600 (RD_Name g_n_ns_hoster); c3_rr g_n_www_hosted RT_A 300 (RD_A 3221225991)];
     uz_cuts := []; uz_glue := [] |}.

Definition g_universe : universe :=
  {| u_zones := [g_root; g_com; c3_ex; c3_sub; g_net; g_hoster; g_hosted];
     u_servers := [(inl c3_ip0, [root_domain]); (inl c3_ip1, [c3_n_com]); (inl c3_ip2, [c3_n_ex]); (inl c3_ip3, [c3_n_sub]);
                   (inl g_ip5, [g_n_net]); (inl g_ip6, [g_n_hoster]); (inl g_ip7, [g_n_hosted])] |}.

(* www.hosted.com. A, and the host question the slow pass asks *)
Definition g_q : question := {| q_name := g_n_www_hosted; q_type := RT_A; q_class := RC_IN |}.
Definition g_qh : question := mkq g_n_ns_hoster RT_A RC_IN.

Lemma g_consistent : consistentb g_universe = true.
Proof. vm_compute. reflexivity. Qed.

Notation g_run fuel q c :=
  (resolve scache sc_get sc_insert_all sort_names_ord (ModeRecursive OnlyV4) 53 (zones_insert [] c3_hz)
           (universe_oracle g_universe []) fuel q (c, tstate_init)).

(* the plan: one glueless host, ns.hoster.net., whose chain is . > net. > hoster.net.; rank 1, all
   other names rank 0 *)
Definition g_planned (h : dname) : Prop := h = g_n_ns_hoster.
Definition g_plan (h : dname) : list uzone * uzone := ([g_net; g_hoster], g_hoster).
Definition g_rank (h : dname) : nat := if dname_eqb h g_n_ns_hoster then 1%nat else 0%nat.

Lemma g_universe_ns_ok : universe_ns_ok g_universe.
Proof. apply universe_ns_okb_sound. vm_compute. reflexivity. Qed.

Lemma g_plain_question q : (q = g_q \/ q = g_qh) -> plain_question g_universe q.
Proof. intros [-> | ->]; apply plain_questionb_sound; vm_compute; reflexivity. Qed.

Definition g_plannedb (h : dname) : bool := dname_eqb h g_n_ns_hoster.

Lemma g_plannedb_sound h : g_plannedb h = true -> g_planned h.
Proof. apply dname_eqb_eq. Qed.

Lemma g_warm_question : warm_questionm g_universe c3_hints OnlyV4 false g_planned g_q g_root [g_com; g_hosted] g_hosted.
Proof. apply (warm_questionmb_sound _ _ _ _ _ g_plannedb g_plannedb_sound). vm_compute. reflexivity. Qed.

(* the plan is sound: ns.hoster.net. A walks down . > net. > hoster.net. (with glue), hoster.net. holds its
   address, the hosts of that chain (a., ns.net., ns1.hoster.net.) have rank 0 < 1 *)
Lemma g_plan_ok : forall h, g_planned h -> plan_ok g_universe c3_hints OnlyV4 false g_root g_planned g_plan g_rank h.
Proof. intros h ->. apply (plan_okb_sound _ _ _ _ _ _ g_plannedb g_plannedb_sound). vm_compute. reflexivity. Qed.

(* the hypotheses are satisfiable, and what the theorem then says: www.hosted.com. A from the empty
   cache, in a universe where hosted.com. is served by ns.hoster.net. without glue *)
Example glueless_example : exists F, forall fuel, (F <= fuel)%nat ->
  outcomeg scache sc_get 53 g_universe c3_hints OnlyV4 g_root g_planned g_q [g_com; g_hosted] g_hosted sc_empty (g_run fuel g_q sc_empty).
Proof.
  exact (glueless_correct scache sc_get sc_insert_all sc_cache_laws sort_names_ord sort_names_ord_perm 53 g_universe g_universe_ns_ok
           c3_hints c3_hz c3_hz_built OnlyV4 false g_root g_planned g_plan g_rank g_plan_ok g_q [g_com; g_hosted] g_hosted sc_empty
           g_warm_question (g_plain_question _ (or_introl eq_refl)) (emptym_consistent _ _ _ _ _ _ sc_empty sc_empty_get)).
Qed.

(* the same run evaluated inside Coq (fuel 20): the root and com. are asked about www.hosted.com.; then
   the nested resolution asks the root, net. and hoster.net. about ns.hoster.net.; then hosted.com.'s
   server 10.0.0.8 answers; asked again from the cache left, no exchange *)
Example glueless_example_eval :
  let r := g_run 20%nat g_q sc_empty in
  let r' := g_run 20%nat g_q (fst (snd r)) in
  fst r = Ok (NonAuthoritative [c3_rr g_n_www_hosted RT_A 300 (RD_A 3221225991)] None)
  /\ map (fun e => (x_addr e, x_question e)) (ts_log (snd (snd r)))
     = [((inl c3_ip0, 53), g_q); ((inl c3_ip1, 53), g_q);
        ((inl c3_ip0, 53), g_qh); ((inl g_ip5, 53), g_qh); ((inl g_ip6, 53), g_qh);
        ((inl g_ip7, 53), g_q)]
  /\ fst r' = fst r /\ ts_log (snd (snd r')) = []
  /\ consistentb g_universe = true.
Proof. vm_compute. repeat split. Qed.
