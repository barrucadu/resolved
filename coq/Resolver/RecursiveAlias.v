(* ALIASES: a question whose authoritative answer is a CNAME chain n0 -> n1 -> ... -> nk (each link
   held by the zone owning its owner; the chain may cross zones) followed by the final RRset at nk, or
   NODATA / NXDOMAIN there.  The reply filter keeps a run of CNAME records from the question name,
   followed or not by the final RRset; a server of the zone owning an alias replies with the chain as
   far as its zones go, then the final RRset if it holds it; resolve_local follows the cached part of
   a chain; the induction is over the chain, on resolve_recursive_notimeout for the question of any
   of its names with the alias questions above it on the stack, from a consistent cache. *)
From Coq Require Import Permutation.
From RV Require Import Base.Prelude Name.NameModel Name.NameSpec Name.NameProofs Wire.WireTypes
     Zone.ZoneModel Zone.ZoneFlat Zone.ZoneProofs Resolver.LocalModel Resolver.LocalProofs
     Resolver.ValidateModel Resolver.ValidateSpec Resolver.ValidateProofs Resolver.TransportModel
     Resolver.RecursiveModel Resolver.ForwardingModel Resolver.RecursiveProofs Resolver.Universe
     Resolver.ResolverFacts Resolver.RecursiveCorrect Resolver.RecursiveDepth1
     Resolver.RecursiveChain Resolver.RecursiveWarm Resolver.UniverseCheck
     Resolver.RecursiveSequence.

(* cs are CNAME records c1..ck: c1 owned by n, each next owned by the target of the one before,
   the last pointing at f *)
Inductive cchain : dname -> list rr -> dname -> Prop :=
| cc_nil n : cchain n [] n
| cc_cons n c t cs f : rr_name c = n -> rr_type c = RT_CNAME -> rr_data c = RD_Name t -> cchain t cs f ->
                       cchain n (c :: cs) f.

(* the targets of a list of CNAME records *)
Definition ctargets (cs : list rr) : list dname :=
  flat_map (fun c => match rr_data c with RD_Name t => [t] | _ => [] end) cs.

Lemma cchain_app n pre post f : cchain n (pre ++ post) f -> exists m, cchain n pre m /\ cchain m post f.
Proof.
  revert n. induction pre as [|c pre IH]; intros n H; cbn [app] in H.
  - exists n. split; [constructor|exact H].
  - inversion H as [|? ? t ? ? H1 H2 H3 H4]; subst. destruct (IH t H4) as (m & Hp & Hq).
    exists m. split; [econstructor; eauto|exact Hq].
Qed.

Lemma ctargets_app a b : ctargets (a ++ b) = ctargets a ++ ctargets b.
Proof. unfold ctargets. apply flat_map_app. Qed.

(* the owners are the names but the last *)
Lemma cchain_owners n cs f : cchain n cs f -> map rr_name cs ++ [f] = n :: ctargets cs.
Proof.
  induction 1 as [n|n c t cs f H1 H2 H3 H4 IH]; [reflexivity|].
  cbn [map app ctargets flat_map]. rewrite H3. cbn [app]. fold (ctargets cs). rewrite IH, H1. reflexivity.
Qed.

Lemma cchain_nodup_owners n cs f : cchain n cs f -> NoDup (n :: ctargets cs) -> NoDup (map rr_name cs) /\ ~ In f (map rr_name cs).
Proof.
  intros H Hnd. rewrite <- (cchain_owners n cs f H) in Hnd. apply NoDup_remove in Hnd. rewrite app_nil_r in Hnd. exact Hnd.
Qed.

Lemma cchain_target_in n cs f : cchain n cs f -> forall c, In c cs ->
  rr_type c = RT_CNAME /\ exists t, rr_data c = RD_Name t.
Proof.
  induction 1 as [n|n c0 t cs f H1 H2 H3 H4 IH]; intros c Hc; [destruct Hc|].
  destruct Hc as [<-|Hc]; [eauto|exact (IH c Hc)].
Qed.

Lemma find_unique {A} (p : A -> bool) (c : A) : forall l, In c l -> p c = true ->
  (forall y, In y l -> p y = true -> y = c) -> find p l = Some c.
Proof.
  induction l as [|x l IH]; intros Hin Hp Hu; [destruct Hin|]. cbn [find].
  destruct (p x) eqn:E.
  - f_equal. apply Hu; [left; reflexivity|exact E].
  - destruct Hin as [->|Hin]; [congruence|]. apply IH; [exact Hin|exact Hp|]. intros y Hy. apply Hu. right. exact Hy.
Qed.

Section FilterAlias.
  Variable q : question.
  Hypothesis Hqc : concrete (q_type q).
  Hypothesis Hqcn : q_type q <> RT_CNAME.
  Variable cs fin : list rr.
  Variable f : dname.
  Hypothesis Hcs : cs <> [].
  Hypothesis Hchain : cchain (q_name q) cs f.
  Hypothesis Hnd : NoDup (q_name q :: ctargets cs).
  Hypothesis Hknown : Forall (fun r => rr_is_unknown r = false) (cs ++ fin).
  (* the final records: owned by f, of the asked type *)
  Hypothesis Hfin : Forall (fun r => rr_name r = f /\ rr_type r = q_type q) fin.

  Let answers := cs ++ fin.
  Let m := snd (cname_scan answers (q_name q) (q_type q) false []).

  Lemma fa_cname_in r k t : In r answers -> cname_rr r k t -> In r cs.
  Proof.
    intros Hin (Hn & Ht & Hd). apply in_app_or in Hin as [Hin|Hin]; [exact Hin|]. exfalso.
    rewrite Forall_forall in Hfin. destruct (Hfin r Hin) as [_ Ht']. congruence.
  Qed.

  Lemma fa_owner_unique r c : In r cs -> In c cs -> rr_name r = rr_name c -> r = c.
  Proof.
    intros Hr Hc E. destruct (cchain_nodup_owners _ _ _ Hchain Hnd) as [Hno _].
    clear - Hr Hc E Hno. induction cs as [|x l IH]; [destruct Hr|]. cbn [map] in Hno. inversion Hno; subst.
    destruct Hr as [->|Hr], Hc as [->|Hc]; try reflexivity.
    - exfalso. apply H1. rewrite E. apply in_map, Hc.
    - exfalso. apply H1. rewrite <- E. apply in_map, Hr.
    - apply IH; assumption.
  Qed.

  Lemma fa_lookup c t : In c cs -> rr_data c = RD_Name t -> alookup dname_eqb (rr_name c) m = Some t.
  Proof.
    intros Hc Hd. destruct (cchain_target_in _ _ _ Hchain c Hc) as (Hct & _).
    assert (Hk : known c) by (rewrite Forall_forall in Hknown; apply Hknown, in_or_app; left; exact Hc).
    destruct (alookup dname_eqb (rr_name c) m) as [t'|] eqn:E.
    - destruct (scan_map_sound _ _ _ _ _ _ _ E) as [H|(r & Hr & _ & Hcr)]; [discriminate|].
      pose proof (fa_cname_in r _ _ Hr Hcr) as Hrc. destruct Hcr as (Hn & _ & Hd').
      assert (r = c) by (apply fa_owner_unique; assumption). subst r. congruence.
    - exfalso. revert E. apply scan_map_complete. right. exists c, t. split; [apply in_or_app; left; exact Hc|].
      split; [exact Hk|]. split; [reflexivity|auto].
  Qed.

  Lemma fa_final_none : alookup dname_eqb f m = None.
  Proof.
    destruct (alookup dname_eqb f m) as [t|] eqn:E; [|reflexivity]. exfalso.
    destruct (scan_map_sound _ _ _ _ _ _ _ E) as [H|(r & Hr & _ & Hcr)]; [discriminate|].
    pose proof (fa_cname_in r _ _ Hr Hcr) as Hrc. destruct Hcr as (Hn & _).
    destruct (cchain_nodup_owners _ _ _ Hchain Hnd) as [_ Hnot]. apply Hnot. rewrite <- Hn. apply in_map, Hrc.
  Qed.

  Lemma fa_len : (length cs <= length m)%nat.
  Proof.
    destruct (cchain_nodup_owners _ _ _ Hchain Hnd) as [Hno _].
    rewrite <- (map_length rr_name cs), <- (map_length fst m). apply NoDup_incl_length; [exact Hno|].
    intros k Hk. apply in_map_iff in Hk as (c & <- & Hc).
    destruct (cchain_target_in _ _ _ Hchain c Hc) as (_ & t & Hd).
    pose proof (fa_lookup c t Hc Hd) as E. apply alookup_some in E. apply (in_map fst) in E. exact E.
  Qed.

  (* the walk follows the chain *)
  Lemma fa_walk : forall l n seen fuel o, cchain n l f -> (forall c, In c l -> In c cs) ->
    NoDup (seen ++ ctargets l) -> cname_walk fuel m seen n = Ok o -> o = Some (f, seen ++ ctargets l).
  Proof.
    induction l as [|c l IH]; intros n seen fuel o Hch Hsub Hnd' Hw; destruct fuel as [|fuel]; try discriminate Hw;
      cbn [cname_walk] in Hw; inversion Hch; subst.
    - rewrite fa_final_none in Hw. inversion Hw. cbn [ctargets flat_map]. rewrite app_nil_r. reflexivity.
    - rewrite (fa_lookup c t (Hsub c (or_introl eq_refl)) H4) in Hw.
      cbn [ctargets flat_map] in Hnd'. rewrite H4 in Hnd'. cbn [app] in Hnd'. fold (ctargets l) in Hnd'.
      assert (Hmem : set_mem t seen = false).
      { apply set_mem_false. intro Hin. apply NoDup_remove_2 in Hnd'. apply Hnd'. apply in_or_app. left. exact Hin. }
      rewrite Hmem in Hw.
      rewrite (IH t (seen ++ [t]) fuel o H6 (fun x Hx => Hsub x (or_intror Hx))) in *; try assumption.
      + cbn [ctargets flat_map]. rewrite H4. cbn [app]. fold (ctargets l). rewrite <- app_assoc. reflexivity.
      + rewrite <- app_assoc. exact Hnd'.
      + rewrite <- app_assoc. exact Hnd'.
  Qed.

  Lemma fa_follow : follow_cnames answers (q_name q) (q_type q) = Ok (Some (f, m)).
  Proof.
    unfold follow_cnames. fold answers.
    rewrite (surjective_pairing (cname_scan answers (q_name q) (q_type q) false [])). fold m.
    pose proof Hqcn as Hq'. apply N.eqb_neq in Hq'. rewrite Hq'.
    destruct (walk_ok m (S (S (length m))) [] (q_name q)) as [[o Hw]|Hw].
    - rewrite Hw.
      assert (Hnd0 : NoDup ([] ++ ctargets cs)) by (cbn [app]; apply NoDup_cons_iff in Hnd; exact (proj2 Hnd)).
      pose proof (fa_walk cs (q_name q) [] (S (S (length m))) o Hchain (fun c H => H) Hnd0 Hw) as Eo. subst o.
      cbn [app]. destruct (ctargets cs) as [|t l] eqn:Et.
      + exfalso. destruct cs as [|c l']; [congruence|]. inversion Hchain; subst.
        cbn [ctargets flat_map] in Et. rewrite H4 in Et. discriminate Et.
      + cbn [is_nil negb]. rewrite orb_true_r. reflexivity.
    - exfalso. revert Hw. apply walk_terminates; [constructor|intros x []|cbn [length]; lia].
  Qed.

  Lemma fa_path : forall l n fuel, cchain n l f -> (forall c, In c l -> In c cs) -> (length l < fuel)%nat ->
    path_cnames fuel answers m f n = l.
  Proof.
    induction l as [|c l IH]; intros n fuel Hch Hsub Hlen; (destruct fuel as [|fuel]; [cbn in Hlen; lia|]);
      cbn [path_cnames]; inversion Hch; subst.
    - rewrite dname_eqb_refl. reflexivity.
    - assert (Hc : In c cs) by (apply Hsub; left; reflexivity).
      assert (Hne : dname_eqb (rr_name c) f = false).
      { apply dname_eqb_neq. intro E. destruct (cchain_nodup_owners _ _ _ Hchain Hnd) as [_ Hnot]. apply Hnot.
        rewrite <- E. apply in_map, Hc. }
      rewrite Hne, (fa_lookup c t Hc H4). fold (path_pred (rr_name c) t).
      assert (Hk : known c) by (rewrite Forall_forall in Hknown; apply Hknown, in_or_app; left; exact Hc).
      rewrite (find_unique (path_pred (rr_name c) t) c answers).
      + cbn [app]. f_equal. apply IH; [exact H6|intros x Hx; apply Hsub; right; exact Hx|cbn [length] in Hlen; lia].
      + apply in_or_app. left. exact Hc.
      + apply path_pred_spec. split; [exact Hk|]. split; [reflexivity|auto].
      + intros y Hy Hp. apply path_pred_spec in Hp as [_ Hcr]. pose proof (fa_cname_in y _ _ Hy Hcr) as Hyc.
        apply fa_owner_unique; [exact Hyc|exact Hc|exact (proj1 Hcr)].
  Qed.

  Lemma fa_finals : filter (final_pred q f) answers = fin.
  Proof.
    unfold answers. rewrite filter_app.
    assert (H1 : filter (final_pred q f) cs = []).
    { apply filter_none, Forall_forall. intros c Hc. unfold final_pred.
      destruct (cchain_target_in _ _ _ Hchain c Hc) as (Ht & _). rewrite Ht.
      assert (Hm : rtype_matches RT_CNAME (q_type q) = false).
      { destruct (rtype_matches RT_CNAME (q_type q)) eqn:E; [|reflexivity]. exfalso. apply Hqcn. symmetry.
        exact (concrete_matches _ _ Hqc E). }
      rewrite Hm, andb_false_r. reflexivity. }
    rewrite H1. cbn [app]. clear H1.
    assert (Hk : Forall (fun r => rr_is_unknown r = false) fin) by (apply Forall_app in Hknown; exact (proj2 Hknown)).
    clear - Hfin Hk Hqc. induction fin as [|r l IH]; [reflexivity|].
    inversion Hfin as [|? ? [Hn Ht] Hl]; inversion Hk as [|? ? Hkr Hkl]; subst.
    cbn [filter]. unfold final_pred at 1. rewrite Hkr, Ht, (concrete_matches_refl _ Hqc), dname_eqb_refl. cbn [negb andb].
    f_equal. apply IH; assumption.
  Qed.

  (* the filter keeps the chain and the final records, in order *)
  Theorem validate_alias aa rcode au ad mc :
    validate_nameserver_response q (msg q aa rcode (cs ++ fin) au ad) mc
    = Ok (Some (if is_nil fin then NRCname cs f else NRAnswer (cs ++ fin) None)).
  Proof.
    pose proof (validate_answer_eq q (msg q aa rcode (cs ++ fin) au ad) mc f m fa_follow) as E. cbv zeta in E.
    change (m_answers (msg q aa rcode (cs ++ fin) au ad)) with answers in E.
    rewrite fa_finals in E.
    rewrite (fa_path cs (q_name q) (S (length m)) Hchain (fun c H => H)) in E by (pose proof fa_len; lia).
    rewrite E. destruct fin; cbn [is_nil negb]; [rewrite app_nil_r|]; reflexivity.
  Qed.
End FilterAlias.

Lemma cname_at_spec z n t cr tg : cname_at (rrs_at z n) t = Some (cr, tg) ->
  In cr (zone_data z) /\ rr_name cr = n /\ rr_type cr = RT_CNAME /\ rr_data cr = RD_Name tg.
Proof.
  intro H. pose proof (cname_at_in _ _ _ _ H) as Hin. apply rrs_at_in in Hin as [Hin Hn]. apply dname_eqb_eq in Hn.
  unfold cname_at in H. destruct (rtype_matches RT_CNAME t); [discriminate|].
  destruct (find _ (rrs_at z n)) as [r|] eqn:Ef; [|discriminate].
  destruct (cname_target r) as [c|] eqn:Ec; [|discriminate]. inversion H; subst.
  unfold cname_target in Ec. destruct (rr_type cr =? RT_CNAME) eqn:Et; [|discriminate]. apply N.eqb_eq in Et.
  destruct (rr_data cr); try discriminate. inversion Ec; subst. auto.
Qed.

Section UniverseAlias.
  Variable u : universe.
  Variable t cl : N.
  Notation Q n := (mkq n t cl).

  (* the alias chain as the zones of the universe hold it: each name is owned (longest apex, no cut
     on the way) by a zone whose data at the name is a CNAME to the next *)
  Inductive achain : dname -> list rr -> dname -> Prop :=
  | ac_nil n : achain n [] n
  | ac_cons n z cr tg cs f : best_zone (u_zones u) n None = Some z -> cut_owner z n = None ->
      cname_at (rrs_at z n) t = Some (cr, tg) -> achain tg cs f -> achain n (cr :: cs) f.

  Lemma achain_cchain n cs f : achain n cs f -> cchain n cs f.
  Proof.
    induction 1 as [n|n z cr tg cs f Hb Hc Hn Ha IH]; [constructor|].
    destruct (cname_at_spec _ _ _ _ _ Hn) as (_ & H1 & H2 & H3). econstructor; eauto.
  Qed.

  Lemma achain_nil_inv n f : achain n [] f -> f = n.
  Proof. intro H. inversion H. reflexivity. Qed.

  Lemma achain_cons_inv n cr cs f : achain n (cr :: cs) f ->
    exists z tg, best_zone (u_zones u) n None = Some z /\ cut_owner z n = None
                 /\ cname_at (rrs_at z n) t = Some (cr, tg) /\ achain tg cs f.
  Proof. intro H. inversion H; subst. eauto 8. Qed.

  Variable f : dname.
  Variable zf : uzone.
  Hypothesis Hf : owns_plainly u zf (Q f).
  Notation finals := (aa_rrs (auth_answer u (Q f))).

  Lemma auth_plain fuel seen : auth_chain (S fuel) u f t seen = auth_answer u (Q f).
  Proof.
    destruct Hf as (Hb & Hc & Hn). unfold auth_answer. change CHAIN_FUEL with (S 63).
    rewrite !(auth_chain_plain _ u zf _ _ _ Hb Hc Hn). reflexivity.
  Qed.

  Lemma finals_eq : finals = filter (fun r => rtype_matches (rr_type r) t) (rrs_at zf f).
  Proof. exact (auth_rrs_plain u zf (Q f) Hf). Qed.

  (* auth_answer of an alias question: the chain, then the final answer *)
  Lemma auth_chain_alias : forall cs n seen fuel, achain n cs f ->
    NoDup (n :: ctargets cs) -> (forall x, In x seen -> ~ In x (n :: ctargets cs)) ->
    let a := auth_chain (length cs + S fuel) u n t seen in
    aa_rrs a = cs ++ finals /\ aa_soa a = aa_soa (auth_answer u (Q f)) /\ aa_defined a = aa_defined (auth_answer u (Q f)).
  Proof.
    induction cs as [|cr cs IH]; intros n seen fuel Ha Hnd Hseen.
    - apply achain_nil_inv in Ha. subst n. cbn [length Nat.add app]. cbv zeta. rewrite auth_plain. auto.
    - apply achain_cons_inv in Ha as (z & tg & H1 & H2 & H4 & H7).
      cbn [length Nat.add]. cbv zeta. rewrite auth_chain_S, H1, H2. cbv zeta. rewrite H4.
      destruct (cname_at_spec _ _ _ _ _ H4) as (_ & _ & _ & Hd).
      cbn [ctargets flat_map] in Hnd, Hseen. rewrite Hd in Hnd, Hseen. cbn [app] in Hnd, Hseen. fold (ctargets cs) in Hnd, Hseen.
      assert (Hloop : existsb (dname_eqb tg) (n :: seen) = false).
      { destruct (existsb (dname_eqb tg) (n :: seen)) eqn:E; [|reflexivity]. exfalso.
        apply existsb_exists in E as (x & Hx & Hxe). apply dname_eqb_eq in Hxe. subst x. destruct Hx as [<-|Hx].
        - inversion Hnd as [|? ? Hnotin _]. apply Hnotin. left. reflexivity.
        - apply (Hseen tg Hx). right. left. reflexivity. }
      rewrite Hloop.
      destruct (IH tg (n :: seen) fuel H7) as (E1 & E2 & E3).
      + inversion Hnd; assumption.
      + intros x [<-|Hx] Hin; [inversion Hnd as [|? ? Hnotin _]; exact (Hnotin Hin)|]. apply (Hseen x Hx). right. exact Hin.
      + cbv zeta in E1, E2, E3. cbn [aa_rrs aa_soa aa_defined app]. rewrite E1, E2, E3. auto.
  Qed.

  Lemma auth_answer_alias n cs : achain n cs f -> NoDup (n :: ctargets cs) -> (length cs < 64)%nat ->
    aa_rrs (auth_answer u (Q n)) = cs ++ finals /\ aa_soa (auth_answer u (Q n)) = aa_soa (auth_answer u (Q f)).
  Proof.
    intros Ha Hnd Hlen. unfold auth_answer at 1 3. cbn [mkq q_name q_type].
    replace CHAIN_FUEL with (length cs + S (63 - length cs))%nat by (unfold CHAIN_FUEL; lia).
    destruct (auth_chain_alias cs n [] (63 - length cs) Ha Hnd ltac:(intros x [])) as (E1 & E2 & _). auto.
  Qed.

  (* a server that considers itself authoritative for a name of the chain (a zone of its enclosing the
     name, no delegation point of that zone on the way) has the zone that owns the name *)
  Definition srv_auth_ok (zsA : list uzone) (names : list dname) : Prop :=
    forall n' z', In n' names -> best_zone zsA n' None = Some z' -> cut_owner z' n' = None ->
                  best_zone (u_zones u) n' None = Some z'.

  (* what a server adds after the first alias: the chain as far as its zones go, then the final RRset
     if it has it *)
  Lemma serve_tail zsA : forall cs n fuel, achain n cs f -> srv_auth_ok zsA (n :: ctargets cs) -> (length cs < fuel)%nat ->
    exists pre post F, sr_answers (serve_name fuel zsA n t false) = pre ++ F /\ cs = pre ++ post
                       /\ (F = [] \/ (post = [] /\ F = finals /\ finals <> [])).
  Proof.
    induction cs as [|cr cs IH]; intros n fuel Ha Hsrv Hlen; (destruct fuel as [|fuel]; [cbn in Hlen; lia|]);
      rewrite serve_name_S; [apply achain_nil_inv in Ha; subst n|apply achain_cons_inv in Ha as (z & tg & H1 & H2 & H4 & H7)].
    - destruct (best_zone zsA f None) as [z'|] eqn:Eb; [|exists [], [], []; cbv beta iota; cbn [sr_plain sr_answers app]; auto].
      destruct (cut_owner z' f) eqn:Ec; [exists [], [], []; cbv beta iota; cbn [sr_plain sr_answers app]; auto|].
      pose proof (Hsrv f z' (or_introl eq_refl) Eb Ec) as Hb'.
      destruct Hf as (Hb & Hc & Hn). cbn [mkq q_name q_type] in Hb, Hc, Hn. assert (z' = zf) by congruence. subst z'.
      cbv zeta. rewrite Hn. rewrite <- finals_eq.
      destruct finals as [|r0 l0] eqn:Ef; cbn [is_nil negb]; [exists [], [], []; cbv beta iota; cbn [sr_plain sr_answers app]; auto|].
      exists [], [], (r0 :: l0). cbn [sr_plain sr_answers app]. split; [reflexivity|]. split; [reflexivity|].
      right. split; [reflexivity|]. split; [reflexivity|discriminate].
    - destruct (best_zone zsA n None) as [z'|] eqn:Eb; [|exists [], (cr :: cs), []; cbv beta iota; cbn [sr_plain sr_answers app]; auto].
      destruct (cut_owner z' n) eqn:Ec; [exists [], (cr :: cs), []; cbv beta iota; cbn [sr_plain sr_answers app]; auto|].
      pose proof (Hsrv n z' (or_introl eq_refl) Eb Ec) as Hb'. assert (z' = z) by congruence. subst z'.
      cbv zeta. rewrite H4. cbn [sr_answers].
      destruct (cname_at_spec _ _ _ _ _ H4) as (_ & _ & _ & Hd).
      destruct (IH tg fuel H7) as (pre & post & F & E1 & E2 & E3).
      + intros n' z' Hin. apply Hsrv. right. cbn [ctargets flat_map]. rewrite Hd. exact Hin.
      + cbn [length] in Hlen. lia.
      + exists (cr :: pre), post, F. cbn [app]. rewrite E1, E2. auto.
  Qed.

  (* the reply of a server whose closest zone for the alias name is its owner *)
  Lemma serve_alias a n z cr cs :
    achain n (cr :: cs) f -> serves_owner u a z (Q n) -> best_zone (u_zones u) n None = Some z ->
    (forall zsA, zones_of_server u a = Some zsA -> srv_auth_ok zsA (ctargets (cr :: cs))) ->
    (length cs < 63)%nat ->
    exists pre post F,
      serve u a (Q n) = Some (msg (Q n) true RCODE_NoError ((cr :: pre) ++ F) [] [])
      /\ cs = pre ++ post /\ (F = [] \/ (post = [] /\ F = finals /\ finals <> [])).
  Proof.
    intros Ha (zsA & Hz & Hbz) Hown Hsrv Hlen. cbn [mkq q_name] in Hbz.
    apply achain_cons_inv in Ha as (z0 & tg & H1 & H2 & H5 & H8). assert (z0 = z) by congruence. subst z0.
    destruct (cname_at_spec _ _ _ _ _ H5) as (_ & _ & _ & Hd).
    destruct (serve_tail zsA cs tg 63 H8) as (pre & post & F & E1 & E2 & E3).
    { intros n' z' Hin. apply (Hsrv zsA Hz). cbn [ctargets flat_map]. rewrite Hd. exact Hin. }
    { exact Hlen. }
    exists pre, post, F. split; [|auto].
    unfold serve. rewrite Hz. change CHAIN_FUEL with (S 63). cbn [mkq q_name q_type].
    rewrite serve_name_S, Hbz, H2. cbv zeta. rewrite H5. unfold msg. cbn [app]. rewrite E1. reflexivity.
  Qed.
End UniverseAlias.

Section AliasDefs.
  Variable u : universe.
  Variable hints : list rr.
  Variable t cl : N.
  Notation Q n := (mkq n t cl).

  (* the alias at [n]: the zone [zk] owns n and holds the CNAME [cr] -> [tg] there; the universe holds
     no other record (cut, glue or data) owned by n; the CNAME has a positive TTL and is of a known
     class *)
  Record alias_at (n : dname) (zk : uzone) (cr : rr) (tg : dname) : Prop := {
    al_zone : best_zone (u_zones u) n None = Some zk;
    al_nocut : cut_owner zk n = None;
    al_cname : cname_at (rrs_at zk n) t = Some (cr, tg);
    al_sole : forall r, u_record u r -> rr_name r = n -> r = cr;
    al_ttl : 0 < rr_ttl cr;
    al_known : rr_is_unknown cr = false }.

  (* the alias chain from [n] to [f], every name with its delegation chain; the index bounds the fuel
     the resolution needs *)
  Inductive alias_path : nat -> dname -> list rr -> dname -> Prop :=
  | ap_end f zroot rest zk :
      warm_question u hints (Q f) zroot rest zk -> plain_question u (Q f) ->
      alias_path (length rest + 2) f [] f
  | ap_link k n cr tg cs f zroot rest zk :
      walk_question u hints (Q n) zroot rest zk -> alias_at n zk cr tg -> plain_question u (Q n) ->
      alias_path k tg cs f ->
      alias_path (length rest + 2 + k) n (cr :: cs) f.

  Lemma alias_path_achain k n cs f : alias_path k n cs f -> achain u t n cs f.
  Proof.
    induction 1 as [f zroot rest zk WQ PQ|k n cr tg cs f zroot rest zk WK AL PQ Hp IH]; [constructor|].
    econstructor; [exact (al_zone _ _ _ _ AL)|exact (al_nocut _ _ _ _ AL)|exact (al_cname _ _ _ _ AL)|exact IH].
  Qed.

  Lemma alias_path_final k n cs f : alias_path k n cs f ->
    exists zroot rest zk, warm_question u hints (Q f) zroot rest zk /\ plain_question u (Q f).
  Proof. induction 1; eauto. Qed.

  (* the part of the path after a prefix of the chain *)
  Lemma alias_path_split : forall pre k n post f m, alias_path k n (pre ++ post) f -> cchain n pre m ->
    exists k', (k' <= k)%nat /\ alias_path k' m post f.
  Proof.
    induction pre as [|c pre IH]; intros k n post f m Hp Hc; cbn [app] in Hp.
    - inversion Hc; subst. exists k. split; [lia|exact Hp].
    - inversion Hc as [|? ? t' ? ? H1 H2 H3 H4]; subst. inversion Hp as [|k0 ? ? tg ? ? zroot rest zk WK AL PQ Hp']; subst.
      destruct (cname_at_spec _ _ _ _ _ (al_cname _ _ _ _ AL)) as (_ & _ & _ & Hd).
      assert (tg = t') by congruence. subst tg.
      destruct (IH _ _ _ _ _ Hp' H4) as (k' & Hk & Hq). exists k'. split; [lia|exact Hq].
  Qed.

  (* every link of the path is an alias of the universe *)
  Lemma alias_path_links k n cs f : alias_path k n cs f ->
    Forall (fun cr => exists n' zk tg, alias_at n' zk cr tg /\ ~ ns_host_name u n') cs.
  Proof.
    induction 1 as [|k n cr tg cs f zroot rest zk WK AL PQ Hp IH]; constructor; [|exact IH].
    exists n, zk, tg. split; [exact AL|exact (wk_nothost _ _ _ _ _ _ WK)].
  Qed.
End AliasDefs.

Lemma rr_sim_sym a b : rr_sim a b -> rr_sim b a.
Proof. intros (H1 & H2 & H3). repeat split; congruence. Qed.

Section LocalAlias.
  Variable cache : Type.
  Variable cache_get : cache -> dname -> N -> list rr.
  Variable cache_insert_all : cache -> list rr -> cache.
  Hypothesis LAWS : cache_laws cache cache_get cache_insert_all.
  Variable zs : zones.
  Variable hints : list rr.
  Hypothesis Hz : hints_zones zs hints.
  Variable u : universe.
  Variable t cl : N.
  Notation Q n := (mkq n t cl).
  Variable c : cache.
  Hypothesis HC : cache_consistent u hints cache cache_get c.
  Notation cget := (cache_get c).

  (* at an alias name the cache holds nothing of the asked type, and only the alias as CNAME *)
  Lemma alias_cache n zk cr tg : alias_at u t n zk cr tg -> concrete t -> t <> RT_CNAME ->
    cget n t = [] /\ forall x, In x (cget n RT_CNAME) -> rr_type x = RT_CNAME /\ rr_data x = RD_Name tg /\ rr_sim x cr.
  Proof.
    intros AL Hc Hcn. destruct HC as (S1 & _).
    destruct (cname_at_spec _ _ _ _ _ (al_cname _ _ _ _ _ _ AL)) as (_ & Hrn & Hrt & Hrd). split.
    - destruct (cget n t) as [|x l] eqn:E; [reflexivity|]. exfalso.
      destruct (S1 n t x Hc) as (r & Hr & Hn & Ht & _); [rewrite E; left; reflexivity|].
      rewrite (al_sole _ _ _ _ _ _ AL r Hr Hn) in Ht. congruence.
    - intros x Hx. destruct (L_shape _ _ _ LAWS c n RT_CNAME x concrete_CNAME Hx) as (Hxn & Hxt & _).
      destruct (S1 n RT_CNAME x concrete_CNAME Hx) as (r & Hr & Hn & Ht & Hd).
      rewrite (al_sole _ _ _ _ _ _ AL r Hr Hn) in Hd. split; [exact Hxt|]. split; [congruence|].
      repeat split; congruence.
  Qed.

  Definition local_miss_at (n : dname) (cs : list rr) : Prop :=
    match cs with [] => cget n t = [] | _ :: _ => cget n RT_CNAME = [] end.

  (* resolve_local follows the cached part of the chain: an error when the question is refused (stack)
     or nothing is cached at the name; the whole answer when the chain and the final RRset are cached;
     otherwise the cached prefix and the question for the first name that is not *)
  Lemma local_alias : forall k n cs f, alias_path u hints t cl k n cs f -> concrete t -> t <> RT_CNAME ->
    forall fuel stack, (length cs < fuel)%nat ->
    let R := resolve_local zs cget fuel stack (Q n) in
    ((exists e, R = Err e) /\ (at_recursion_limit stack = true \/ is_duplicate_question stack (Q n) = true \/ local_miss_at n cs))
    \/ (exists xs, R = Ok (LDone (NonAuthoritative (xs ++ cget f t) None)) /\ Forall2 rr_sim xs cs /\ cget f t <> [])
    \/ (exists xs pre post m, R = Ok (LCname xs (Q m)) /\ cs = pre ++ post /\ pre <> [] /\ Forall2 rr_sim xs pre /\ cchain n pre m).
  Proof.
    intros k n cs f Hp Hc Hcn.
    assert (Hwild : t <> QT_Wildcard) by exact (proj1 Hc).
    induction Hp as [f zroot rest zk (WK & PA) PQ|k n cr tg cs f zroot rest zk WK AL PQ Hp IH];
      intros fuel stack Hlen; (destruct fuel as [|fuel]; [cbn in Hlen; lia|]); cbv zeta.
    - (* the final name *)
      destruct (at_recursion_limit stack) eqn:Elim; [left; split; [rewrite resolve_local_eq, Elim; eauto|auto]|].
      destruct (is_duplicate_question stack (Q f)) eqn:Edup; [left; split; [rewrite resolve_local_eq, Elim, Edup; eauto|auto]|].
      pose proof (hints_no_match u zroot hints (Q f) (wk_hints _ _ _ _ _ _ WK)) as Hno.
      destruct (cget f t) as [|x l] eqn:E.
      + left. split; [|right; right; exact E]. eexists.
        apply (rl_miss zs hints Hz cget fuel stack (Q f) Elim Edup (wk_wf _ _ _ _ _ _ WK) Hwild Hno E).
        exact (plain_no_cached_alias cache cache_get hints u (Q f) zk PA c HC).
      + right. left. exists []. split; [|split; [apply Forall2_nil|discriminate]].
        cbn [app]. rewrite <- E.
        apply (rl_cache zs hints Hz cget fuel stack (Q f) Elim Edup (wk_wf _ _ _ _ _ _ WK) Hwild Hno).
        cbn [mkq q_name q_type]. rewrite E. discriminate.
    - (* an alias *)
      destruct (at_recursion_limit stack) eqn:Elim; [left; split; [rewrite resolve_local_eq, Elim; eauto|auto]|].
      destruct (is_duplicate_question stack (Q n)) eqn:Edup; [left; split; [rewrite resolve_local_eq, Elim, Edup; eauto|auto]|].
      pose proof (hints_no_match u zroot hints (Q n) (wk_hints _ _ _ _ _ _ WK)) as Hno.
      destruct (alias_cache n zk cr tg AL Hc Hcn) as (Hnone & Hcached).
      rewrite resolve_local_eq, Elim, Edup. unfold local_step.
      rewrite (zone_phase_miss zs hints Hz (Q n) _ (wk_wf _ _ _ _ _ _ WK) Hwild Hno).
      unfold cache_phase, cache_part. cbn [mkq q_name q_type]. rewrite Hnone. cbn [is_nil andb].
      assert (Ecn : negb (t =? RT_CNAME) = true) by (apply negb_true_iff, N.eqb_neq; exact Hcn). rewrite Ecn.
      destruct (cget n RT_CNAME) as [|x l] eqn:E.
      + left. split; [eexists; reflexivity|right; right; exact E].
      + destruct (Hcached x (or_introl eq_refl)) as (Hxt & Hxd & Hxs).
        rewrite Hxt, N.eqb_refl, Hxd.
        change (subq (Q n) tg) with (Q tg).
        assert (Hw : (t =? QT_Wildcard) = false) by (apply N.eqb_neq; exact Hwild).
        destruct (IH fuel (stack ++ [Q n]) ltac:(cbn [length] in Hlen; lia)) as [((e & ->) & _)|[(xs & -> & Hys & Hne)|(xs & pre & post & m & -> & Hsplit & Hpre & Hys & Hcc)]];
          unfold ccombine; cbn [resolved_rrs]; rewrite merge_nil_l; cbn [app is_nil q_name mkq].
        * right. right. exists [x], [cr], cs, tg. split; [reflexivity|]. split; [reflexivity|]. split; [discriminate|].
          split; [constructor; [exact Hxs|constructor]|].
          destruct (cname_at_spec _ _ _ _ _ (al_cname _ _ _ _ _ _ AL)) as (_ & Hrn & Hrt & Hrd).
          econstructor; [exact Hrn|exact Hrt|exact Hrd|constructor].
        * right. left. exists (x :: xs). rewrite Hw. split; [reflexivity|]. split; [constructor; [exact Hxs|exact Hys]|exact Hne].
        * right. right. exists (x :: xs), (cr :: pre), post, m. split; [reflexivity|]. split; [rewrite Hsplit; reflexivity|].
          split; [discriminate|]. split; [constructor; [exact Hxs|exact Hys]|].
          destruct (cname_at_spec _ _ _ _ _ (al_cname _ _ _ _ _ _ AL)) as (_ & Hrn & Hrt & Hrd).
          econstructor; [exact Hrn|exact Hrt|exact Hrd|exact Hcc].
  Qed.
End LocalAlias.

Lemma NoDup_app_inv {A} (a b : list A) : NoDup (a ++ b) -> NoDup a /\ NoDup b /\ forall x, In x a -> ~ In x b.
Proof.
  induction a as [|y a IH]; cbn [app]; intro H; [split; [constructor|split; [exact H|intros x []]]|].
  inversion H as [|? ? Hy Ha]; subst. destruct (IH Ha) as (H1 & H2 & H3). split; [|split; [exact H2|]].
  - constructor; [|exact H1]. intro Hin. apply Hy, in_or_app. left. exact Hin.
  - intros x [->|Hin] Hb; [apply Hy, in_or_app; right; exact Hb|exact (H3 x Hin Hb)].
Qed.

(* the names of a chain split at a name of it *)
Lemma names_split n cr tg pre post m : rr_data cr = RD_Name tg -> cchain tg pre m ->
  n :: ctargets (cr :: pre ++ post) = (n :: map rr_name pre) ++ m :: ctargets post.
Proof.
  intros Hd Hc. cbn [ctargets flat_map]. rewrite Hd. cbn [app]. fold (ctargets (pre ++ post)).
  rewrite ctargets_app. pose proof (cchain_owners tg pre m Hc) as E.
  f_equal. change (tg :: ctargets pre ++ ctargets post) with ((tg :: ctargets pre) ++ ctargets post).
  rewrite <- E, <- app_assoc. reflexivity.
Qed.

Section AliasResolve.
  Variable cache : Type.
  Variable cache_get : cache -> dname -> N -> list rr.
  Variable cache_insert_all : cache -> list rr -> cache.
  Hypothesis LAWS : cache_laws cache cache_get cache_insert_all.
  Variable sort_names : list dname -> list dname.
  Hypothesis Hsort : forall l, Permutation (sort_names l) l.
  Variable port : N.
  Variable u : universe.
  Hypothesis UNS : universe_ns_ok u.
  Variable hints : list rr.
  Hypothesis Hh : Forall hint_ok hints.
  Variable hz : zone.
  Hypothesis Hbuilt : zone_build root_domain None (hint_ops hints) = Ok hz.
  Variable t cl : N.
  Hypothesis Hc : concrete t.
  Hypothesis Hcn : t <> RT_CNAME.
  Hypothesis Hns : t <> RT_NS.

  Notation Q n := (mkq n t cl).
  Notation zs := (zones_insert [] hz).
  Notation o := (universe_oracle u []).
  Notation rrn := (resolve_recursive_notimeout cache cache_get cache_insert_all sort_names zs o OnlyV4 port).
  Notation cstep := (candidate_step cache cache_get cache_insert_all sort_names zs o OnlyV4 port).
  Notation rhi := (resolve_hostname_to_ip cache cache_get zs OnlyV4).
  Notation qav := (query_and_validate cache o).
  Notation consistent := (cache_consistent u hints cache cache_get).
  Notation finals f := (aa_rrs (auth_answer u (Q f))).

  Let Hz : hints_zones zs hints := shaped_zones_built hints hz (hint_oks_shape _ Hh) Hbuilt.

  (* every server that considers itself authoritative for a name of the chain has the zone owning it *)
  Definition servers_ok (names : list dname) : Prop :=
    forall a zsA, zones_of_server u a = Some zsA -> srv_auth_ok u zsA names.

  Definition stack_ok (stk : list question) : Prop :=
    Forall (fun s => q_type s <> RT_NS /\ ~ ns_host_name u (q_name s)
                     /\ forall x, ~ hint_match hints (q_name s) (q_type s) x) stk.

  Lemma servers_ok_sub a b : (forall x, In x b -> In x a) -> servers_ok a -> servers_ok b.
  Proof. intros Hsub H ad zsA Hzs n' z' Hin. apply (H ad zsA Hzs). apply Hsub, Hin. Qed.

  (* the loop ends with the continuation of an alias *)
  Lemma cstep_cname rec loop stack q combined mc cands next locally st candidate rest a st1 rrs cname st2 :
    pop_last cands = Some (candidate, rest) ->
    rhi rec stack locally candidate st = (Val (Some a), st1) ->
    qav (a, port) q mc st1 = (Val (Some (NRCname rrs cname)), st2) ->
    cstep rec loop stack q combined mc cands next locally st
    = match rec stack (mkq cname (q_type q) (q_class q)) (cache_insert_all (fst st2) rrs, snd st2) with
      | (Val (ROk resolved), st3) =>
        (Val (ROk (NonAuthoritative (prioritising_merge combined rrs ++ resolved_rrs resolved) (resolved_soa_rr resolved))), st3)
      | (Val (RErr _), st3) => (Val (RErr (EDeadEnd (mkq cname (q_type q) (q_class q)))), st3)
      | (Abort w, st3) => (Abort w, st3)
      end.
  Proof.
    intros Ep Eh Eq. unfold candidate_step. rewrite Ep. unfold rbind at 1. rewrite Eh.
    unfold rbind at 1. rewrite Eq.
    unfold resolve_with_nameserver_response.
    rewrite (cut_no_auth zs q (NRCname rrs cname) (proj1 Hz)).
    unfold lift_res, resolve_with_response_match, resolve_combined_recursive, rbind, insert_all, ret. cbn [fst snd].
    destruct (rec stack (mkq cname (q_type q) (q_class q)) (cache_insert_all (fst st2) rrs, snd st2)) as [[[r|e]|w] st3]; reflexivity.
  Qed.

  (* the finals of a plain name: records of its zone, owned by it, of the asked type, known *)
  Lemma finals_facts f zroot rest zk : warm_question u hints (Q f) zroot rest zk ->
    forall r, In r (finals f) -> In r (zone_data zk) /\ rr_name r = f /\ rr_type r = t /\ rr_is_unknown r = false.
  Proof.
    intros (WK & PA) r Hr. rewrite (auth_rrs_plain u zk (Q f) (proj1 (pa_owner _ _ _ PA))) in Hr. apply filter_In in Hr as [Hr Hm].
    apply rrs_at_in in Hr as [Hr Hn]. apply dname_eqb_eq in Hn. cbn [mkq q_name q_type] in Hn, Hm.
    destruct (pa_owner _ _ _ PA) as (_ & Hknown & _). rewrite Forall_forall in Hknown.
    repeat split; [exact Hr|exact Hn|exact (concrete_matches _ _ Hc Hm)|exact (Hknown r Hr)].
  Qed.

  (* consistency is kept by the insert_all of an alias answer: links of the chain, then nothing or
     the final RRset *)
  Lemma consistent_insert_alias c links F f zroot rest zk :
    consistent c ->
    Forall (fun cr => exists n' zk' tg, alias_at u t n' zk' cr tg /\ ~ ns_host_name u n') links ->
    warm_question u hints (Q f) zroot rest zk -> (F = [] \/ F = finals f) ->
    consistent (cache_insert_all c (links ++ F)).
  Proof.
    intros HC Hlinks WQ HF. pose proof (finals_facts f zroot rest zk WQ) as Hfin. destruct WQ as (WK & PA).
    rewrite Forall_forall in Hlinks.
    assert (HFin : forall r, In r F -> In r (finals f)) by (destruct HF as [-> | ->]; [intros r []|auto]).
    apply (consistent_with_insert cache cache_get cache_insert_all LAWS u _ (ready_mono cache cache_get cache_insert_all LAWS hints) c (links ++ F) HC).
    - intros r Hr. apply in_app_or in Hr as [Hr|Hr].
      + destruct (Hlinks r Hr) as (n' & zk' & tg & AL & _).
        destruct (cname_at_spec _ _ _ _ _ (al_cname _ _ _ _ _ _ AL)) as (Hin & _).
        exists zk'. split; [|apply in_or_app; right; apply in_or_app; right; exact Hin].
        pose proof (al_zone _ _ _ _ _ _ AL) as Hb. apply best_zone_spec in Hb as [Hb|[Hb _]]; [discriminate|exact Hb].
      + exists zk. split; [exact (owner_in u (Q f) zk (pa_owner _ _ _ PA))|]. apply in_or_app; right; apply in_or_app; right.
        exact (proj1 (Hfin r (HFin r Hr))).
    - intros r h Hr Hh'. exfalso. apply is_ns_rr_spec in Hh' as [Ht _]. apply in_app_or in Hr as [Hr|Hr].
      + destruct (Hlinks r Hr) as (n' & zk' & tg & AL & _).
        destruct (cname_at_spec _ _ _ _ _ (al_cname _ _ _ _ _ _ AL)) as (_ & _ & Ht' & _). rewrite Ht in Ht'. discriminate Ht'.
      + destruct (Hfin r (HFin r Hr)) as (_ & _ & Ht' & _). congruence.
    - intros r Hr _ _ _ z r' Hz' Hr' Hn' Ht'. apply in_app_or in Hr as [Hr|Hr].
      + destruct (Hlinks r Hr) as (n' & zk' & tg & AL & _).
        destruct (cname_at_spec _ _ _ _ _ (al_cname _ _ _ _ _ _ AL)) as (_ & Hrn & _).
        assert (r' = r).
        { apply (al_sole _ _ _ _ _ _ AL); [|congruence]. exists z. split; [exact Hz'|]. apply in_or_app; right; apply in_or_app; right; exact Hr'. }
        subst r'. split; [apply in_or_app; left; exact Hr|exact (al_ttl _ _ _ _ _ _ AL)].
      + destruct (Hfin r (HFin r Hr)) as (_ & Hn & Ht & _).
        assert (Hzk : In r' (zone_data zk)) by (apply (pa_sole _ _ _ PA z r' Hz' Hr'); cbn [mkq q_name]; congruence).
        split; [|apply (pa_ttl _ _ _ PA r' Hzk); cbn [mkq q_name q_type]; congruence].
        apply in_or_app. right. destruct HF as [-> | ->]; [destruct Hr|].
        apply (in_answer u (Q f) zk Hc (pa_owner _ _ _ PA)); cbn [mkq q_name q_type]; congruence.
  Qed.

  (* the final, plain name of the chain, with the alias questions on the stack *)
  Lemma resolve_final f zroot rest zk stk c fuel ts :
    warm_question u hints (Q f) zroot rest zk -> plain_question u (Q f) ->
    stack_ok stk -> (forall s, In s stk -> q_name s <> f) -> (length stk + 1 < 32)%nat ->
    consistent c -> ts_elapsed ts <= BUDGET_MS -> (length rest + 2 <= fuel)%nat ->
    exists fr c' ts',
      rrn fuel stk (Q f) (c, ts) = (Val (ROk (NonAuthoritative fr (aa_soa (auth_answer u (Q f))))), (c', ts'))
      /\ same_data fr (finals f) /\ consistent c'.
  Proof.
    intros (WK & PA) (Hwf & Hq1 & Hq2 & Hreq & Hfits) Hstk Hnames Hlen HC Hbud Hfuel.
    destruct fuel as [|f1]; [lia|].
    destruct (warm_resolve cache cache_get cache_insert_all LAWS sort_names Hsort zs hints Hz Hh o port u UNS (Q f) zroot rest zk WK
                (universe_oracle_delivers_log u port (Q f) Hwf Hreq Hfits) stk Hlen (not_dup_names stk (Q f) Hnames) Hstk PA c f1 ts HC Hbud ltac:(lia))
      as (rrs & c' & ts' & es & E & _ & HC' & Hcases).
    exists rrs, c', ts'. split; [exact E|]. split; [|exact HC'].
    destruct Hcases as [(_ & _ & _ & _ & Hs)|(-> & _)]; [exact Hs|apply same_data_refl].
  Qed.

  Lemma Forall2_sim_refl l : Forall2 rr_sim l l.
  Proof. induction l; constructor; [apply rr_sim_refl|assumption]. Qed.

  (* THE INDUCTION: the question of any name of an alias chain, the alias questions above it on the
     stack, from a consistent cache: the chain from there (the records' data; TTLs are the server's
     or the cache's) in order, then the final answer *)
  Theorem alias_resolve : forall bound k n cs f,
    alias_path u hints t cl k n cs f -> (length cs <= bound)%nat ->
    forall stk c fuel ts,
    NoDup (n :: ctargets cs) -> servers_ok (n :: ctargets cs) ->
    stack_ok stk -> (forall s, In s stk -> ~ In (q_name s) (n :: ctargets cs)) ->
    (length stk + length cs + 1 < 32)%nat ->
    consistent c -> ts_elapsed ts <= BUDGET_MS -> (k <= fuel)%nat ->
    exists xs fr c' ts',
      rrn fuel stk (Q n) (c, ts) = (Val (ROk (NonAuthoritative (xs ++ fr) (aa_soa (auth_answer u (Q f))))), (c', ts'))
      /\ Forall2 rr_sim xs cs /\ same_data fr (finals f) /\ consistent c'.
  Proof.
    induction bound as [|bound IHb]; intros k n cs f Hp Hbound stk c fuel ts Hnd Hsrv Hstk Hnames Hlen HC Hbud Hfuel;
      destruct Hp as [f zroot rest zk WQ PQ|k n cr tg cs f zroot rest zk WK AL PQ Hp];
      try (cbn [length] in Hbound; lia).
    (* the chain is empty, whatever the bound *)
    1-2: (destruct (resolve_final f zroot rest zk stk c fuel ts WQ PQ Hstk) as (fr & c' & ts' & E & Hs & HC'); try assumption;
          [intros s Hs E; apply (Hnames s Hs); left; exact (eq_sym E)|lia|];
          exists [], fr, c', ts'; cbn [app]; auto using Forall2_nil).
    (* an alias *)
      set (q := Q n) in *.
      destruct (alias_path_final _ _ _ _ _ _ _ _ Hp) as (zrootf & restf & zkf & WQf & PQf).
      pose proof WQf as (WKf & PAf).
      destruct (cname_at_spec _ _ _ _ _ (al_cname _ _ _ _ _ _ AL)) as (Hcrin & Hcrn & Hcrt & Hcrd).
      pose proof (alias_path_achain _ _ _ _ _ _ _ _ Hp) as Hach0.
      pose proof (ap_link u hints t cl k n cr tg cs f zroot rest zk WK AL PQ Hp) as HpAll.
      pose proof (alias_path_achain _ _ _ _ _ _ _ _ HpAll) as Hach.
      destruct PQ as (Hwf & Hq1 & Hq2 & Hreq & Hfits).
      pose proof (universe_oracle_delivers_log u port q Hwf Hreq Hfits) as Hdel.
      assert (Hstk_len : (length stk + 1 < 32)%nat) by lia.
      assert (Hlim_stk : at_recursion_limit stk = false) by (apply limit_false; lia).
      assert (Hstk_q : is_duplicate_question stk q = false).
      { apply not_dup_names. intros s Hs E. apply (Hnames s Hs). left. exact (eq_sym E). }
      pose proof (hints_no_match u zroot hints q (wk_hints _ _ _ _ _ _ WK)) as Hnoh.
      assert (Hstk' : stack_ok (stk ++ [q])).
      { apply Forall_app. split; [exact Hstk|]. constructor; [|constructor].
        split; [exact Hns|]. split; [exact (wk_nothost _ _ _ _ _ _ WK)|exact Hnoh]. }
      destruct (alias_cache cache cache_get cache_insert_all LAWS hints u t c HC n zk cr tg AL Hc Hcn) as (Hnone & Hcached).
      destruct fuel as [|f1]; [lia|].
      (* the resolution goes on at a later name [m] of the chain, with [q] on the stack: the induction
         hypothesis, whose side conditions follow from those of the whole chain *)
      assert (Hcont : forall pre post m c2 f2 ts2, cs = pre ++ post -> cchain tg pre m ->
                consistent c2 -> ts_elapsed ts2 <= BUDGET_MS -> (k <= f2)%nat ->
                exists xs' fr c' ts',
                  rrn f2 (stk ++ [q]) (Q m) (c2, ts2)
                  = (Val (ROk (NonAuthoritative (xs' ++ fr) (aa_soa (auth_answer u (Q f))))), (c', ts'))
                  /\ Forall2 rr_sim xs' post /\ same_data fr (finals f) /\ consistent c').
      { intros pre post m c2 f2 ts2 Ecs Hcc HC2 Hbud2 Hf2.
        destruct (alias_path_split u hints t cl pre k tg post f m ltac:(rewrite <- Ecs; exact Hp) Hcc) as (k' & Hk' & Hp').
        pose proof (names_split n cr tg pre post m Hcrd Hcc) as Enames. rewrite <- Ecs in Enames.
        rewrite Enames in Hnd, Hsrv, Hnames.
        apply (IHb k' m post f Hp'); try assumption.
        - cbn [length] in Hbound. rewrite Ecs, app_length in Hbound. lia.
        - exact (proj1 (proj2 (NoDup_app_inv _ _ Hnd))).
        - apply (servers_ok_sub _ _ (fun x Hx => in_or_app _ _ x (or_intror Hx)) Hsrv).
        - intros s Hs Hin. apply in_app_or in Hs as [Hs|[<-|[]]].
          + apply (Hnames s Hs). apply in_or_app. right. exact Hin.
          + cbn [q mkq q_name] in Hin. exact (proj2 (proj2 (NoDup_app_inv _ _ Hnd)) n (or_introl eq_refl) Hin).
        - rewrite app_length. cbn [length] in *. rewrite Ecs, app_length in Hlen. lia.
        - lia. }
      destruct (cache_get c n RT_CNAME) as [|x0 l0] eqn:Ecn.
      + (* the alias is not cached: over the network *)
        destruct (warm_reach cache cache_get cache_insert_all LAWS sort_names Hsort zs hints Hz Hh o port u UNS q zroot rest zk WK Hdel
                    stk Hstk_len Hstk_q Hstk c f1 ts HC Hbud ltac:(lia) Hnone Ecn)
          as (f0 & c1 & ts1 & es & mc1 & cands1 & pre0 & visited & E & Hf0 & _ & _ & _ & HC1 & Hne1 & Hok1 & Hmc1 & Hbud1).
        rewrite E. clear E. destruct f0 as [|f2]; [lia|].
        destruct (pop_last_some _ Hne1) as (cand & rest1 & Ep & Hcand).
        destruct (Hok1 cand Hcand (rrn f2) ts1) as (a & Eh & Hsrvo).
        rewrite cloop_S.
        destruct (serve_alias u t cl f zkf (proj1 (pa_owner _ _ _ PAf)) (inl a) n zk cr cs Hach Hsrvo (al_zone _ _ _ _ _ _ AL))
          as (pre & post & F & Hserve & Hsplit & HF).
        { intros zsA Hzs n' z' Hin. apply (Hsrv (inl a) zsA Hzs). right. exact Hin. }
        { cbn [length] in Hlen. lia. }
        destruct (cchain_app tg pre post f ltac:(rewrite <- Hsplit; exact (achain_cchain u t _ _ _ Hach0))) as (m & Hcc & Hpost).
        assert (Hccn : cchain (q_name q) (cr :: pre) m) by (econstructor; [exact Hcrn|exact Hcrt|exact Hcrd|exact Hcc]).
        pose proof (alias_path_links _ _ _ _ _ _ _ _ HpAll) as Hlinks. rewrite Hsplit in Hlinks.
        apply (Forall_app _ (cr :: pre) post) in Hlinks as [Hlinks _].
        assert (HFf : F = [] \/ F = finals f) by (destruct HF as [->|(_ & -> & _)]; auto).
        assert (Hv : validate_nameserver_response q (msg q true RCODE_NoError ((cr :: pre) ++ F) [] []) mc1
                     = Ok (Some (if is_nil F then NRCname (cr :: pre) m else NRAnswer ((cr :: pre) ++ F) None))).
        { apply (validate_alias q Hc Hcn (cr :: pre) F m); [discriminate|exact Hccn| | |].
          - rewrite Hsplit in Hnd. change (cr :: pre ++ post) with ((cr :: pre) ++ post) in Hnd. rewrite ctargets_app in Hnd.
            exact (proj1 (NoDup_app_inv (n :: ctargets (cr :: pre)) (ctargets post) Hnd)).
          - apply Forall_app. split.
            + eapply Forall_impl; [|exact Hlinks]. intros r (n' & zk' & tg0 & AL0 & _). exact (al_known _ _ _ _ _ _ AL0).
            + apply Forall_forall. intros r Hr. destruct HFf as [-> | ->]; [destruct Hr|].
              exact (proj2 (proj2 (proj2 (finals_facts f zrootf restf zkf WQf r Hr)))).
          - apply Forall_forall. intros r Hr. destruct HF as [->|(Hpost0 & -> & _)]; [destruct Hr|].
            subst post. assert (m = f) as -> by (inversion Hpost; congruence).
            destruct (finals_facts f zrootf restf zkf WQf r Hr) as (_ & H1 & H2 & _). cbn [q mkq q_type]. auto. }
        destruct (qav_delivered cache o port one_udp u (inl a) q mc1 (c1, ts1) Hdel Hbud1 _ _
                    (conj Hserve (conj (msg_matches _ _ _ _ _ _ (or_introl eq_refl)) Hv)))
          as (ts2 & Eq & Hbud2 & _).
        cbn [fst snd] in Eq.
        destruct HF as [->|(Hpost0 & -> & Hfne)].
        * (* the reply ends inside the chain: the continuation *)
          cbn [is_nil] in Eq. rewrite app_nil_r in *.
          rewrite (cstep_cname _ _ _ _ _ _ _ _ _ _ _ _ _ _ _ _ _ Ep Eh Eq). rewrite merge_nil_l. cbn [fst snd].
          change (mkq m (q_type q) (q_class q)) with (Q m).
          assert (HC2 : consistent (cache_insert_all c1 (cr :: pre))).
          { rewrite <- (app_nil_r (cr :: pre)). apply (consistent_insert_alias c1 (cr :: pre) [] f zrootf restf zkf HC1 Hlinks WQf). left. reflexivity. }
          destruct (Hcont pre post m (cache_insert_all c1 (cr :: pre)) f2 ts2 Hsplit Hcc HC2 Hbud2 ltac:(lia))
            as (xs' & fr & c' & ts' & E' & Hxs' & Hfr & HC').
          rewrite E'. cbn [resolved_rrs resolved_soa_rr].
          exists ((cr :: pre) ++ xs'), fr, c', ts'. split; [rewrite <- app_assoc; reflexivity|].
          split; [|auto]. rewrite Hsplit. change (cr :: pre ++ post) with ((cr :: pre) ++ post).
          apply Forall2_app; [apply Forall2_sim_refl|exact Hxs'].
        * (* the reply holds the rest of the chain and the final RRset *)
          subst post. rewrite app_nil_r in Hsplit. subst pre.
          assert (Enil : is_nil (finals f) = false) by (destruct (finals f); [congruence|reflexivity]).
          rewrite Enil in Eq.
          rewrite (cstep_answer cache cache_get cache_insert_all sort_names zs o OnlyV4 port _ _ _ _ _ _ _ _ _ _ _ _ _ _ _ _ _ Ep Eh Eq) by (intros; apply owned_elsewhere_no_auth, (proj1 Hz)).
          rewrite merge_nil_l. cbn [fst snd].
          rewrite (auth_soa_plain u zkf (Q f) (proj1 (pa_owner _ _ _ PAf)) Hfne).
          exists (cr :: cs), (finals f). eexists. eexists. split; [reflexivity|].
          split; [apply Forall2_sim_refl|]. split; [apply same_data_refl|].
          apply (consistent_insert_alias c1 (cr :: cs) (finals f) f zrootf restf zkf HC1 Hlinks WQf). right. reflexivity.
      + (* the alias is cached: resolve_local follows the cached part of the chain *)
        cbn [resolve_recursive_notimeout]. unfold recursive_body.
        rewrite Hlim_stk, Hstk_q.
        unfold rbind at 1. unfold local. cbn [fst].
        pose proof (local_alias cache cache_get cache_insert_all LAWS zs hints Hz u t cl c HC _ n (cr :: cs) f HpAll Hc Hcn
                      LOCAL_FUEL stk ltac:(rewrite local_fuel_value; cbn [length] in *; lia)) as HR.
        cbv zeta in HR. fold q in HR.
        destruct HR as [((e & HR) & [Hl|[Hd|Hm]])|[(xs & HR & Hxs & Hne)|(xs & pre & post & m & HR & Hsplit & Hpre & Hxs & Hcc)]].
        * rewrite Hlim_stk in Hl. discriminate Hl.
        * rewrite Hstk_q in Hd. discriminate Hd.
        * cbn [local_miss_at] in Hm. rewrite Ecn in Hm. discriminate Hm.
        * (* everything is cached *)
          rewrite HR. unfold ret.
          destruct (cached_same_data cache cache_get cache_insert_all LAWS u _ (Q f) zkf Hc Hns (pa_owner _ _ _ PAf) c UNS PAf
                      (wk_nothost _ _ _ _ _ _ WKf) HC Hne) as (Hs & Hsoa).
          cbn [mkq q_name q_type] in Hs. rewrite Hsoa.
          exists xs, (cache_get c f t), c, ts. auto.
        * (* a prefix is cached: the nested resolution of the first name that is not *)
          rewrite HR. unfold resolve_combined_recursive. unfold rbind at 1.
          destruct pre as [|cr' pre']; [congruence|]. cbn [app] in Hsplit. inversion Hsplit as [[Ecr Ecs]]. subst cr'.
          inversion Hcc as [|? ? tg' ? ? H1 H2 H3 H4]; subst. assert (tg' = tg) by congruence. subst tg'.
          destruct (Hcont pre' post m c f1 ts eq_refl H4 HC Hbud ltac:(lia))
            as (xs' & fr & c' & ts' & E' & Hxs' & Hfr & HC').
          fold q. rewrite E'. cbn [resolved_rrs resolved_soa_rr]. unfold ret.
          exists (xs ++ xs'), fr, c', ts'. split; [rewrite <- app_assoc; reflexivity|].
          split; [|auto]. change (cr :: pre' ++ post) with ((cr :: pre') ++ post). apply Forall2_app; assumption.
  Qed.
End AliasResolve.

Section FinalAlias.
  Variable cache : Type.
  Variable cache_get : cache -> dname -> N -> list rr.
  Variable cache_insert_all : cache -> list rr -> cache.
  Hypothesis LAWS : cache_laws cache cache_get cache_insert_all.
  Variable sort_names : list dname -> list dname.
  Hypothesis Hsort : forall l, Permutation (sort_names l) l.
  Variable port : N.
  Variable u : universe.
  Hypothesis UNS : universe_ns_ok u.
  Variable hints : list rr.
  Variable hz : zone.
  Hypothesis Hbuilt : zone_build root_domain None (hint_ops hints) = Ok hz.
  Variable t cl : N.
  Notation Q n := (mkq n t cl).

  (* what the resolution of the alias question must look like: the authoritative answer is the chain
     followed by the final answer, and so is the result -- the chain's records in order (owner,
     type, data; the TTLs are the server's or the cache's), then records with exactly the data of
     the final RRset (or none), with the SOA of the final answer *)
  Definition alias_outcome (n : dname) (cs : list rr) (f : dname) (c : cache)
             (r : res rerror resolved * rstate cache) : Prop :=
    aa_rrs (auth_answer u (Q n)) = cs ++ aa_rrs (auth_answer u (Q f))
    /\ aa_soa (auth_answer u (Q n)) = aa_soa (auth_answer u (Q f))
    /\ exists xs fr c' ts',
         r = (Ok (NonAuthoritative (xs ++ fr) (aa_soa (auth_answer u (Q n)))), (c', ts'))
         /\ Forall2 rr_sim xs cs /\ same_data fr (aa_rrs (auth_answer u (Q f)))
         /\ cache_consistent u hints cache cache_get c'.

  Theorem alias_correct k n cs f c fuel :
    concrete t -> t <> RT_CNAME -> t <> RT_NS ->
    alias_path u hints t cl k n cs f -> NoDup (n :: ctargets cs) -> servers_ok u (n :: ctargets cs) ->
    (length cs + 1 < 32)%nat ->
    cache_consistent u hints cache cache_get c -> (k <= fuel)%nat ->
    alias_outcome n cs f c
      (resolve cache cache_get cache_insert_all sort_names (ModeRecursive OnlyV4) port (zones_insert [] hz)
               (universe_oracle u []) fuel (Q n) (c, tstate_init)).
  Proof.
    intros Hc Hcn Hns Hp Hnd Hsrv Hlen HC Hfuel.
    destruct (alias_path_final _ _ _ _ _ _ _ _ Hp) as (zrootf & restf & zkf & (WKf & PAf) & PQf).
    pose proof (wk_hints _ _ _ _ _ _ WKf) as Hhints. destruct Hhints as (Hh & _).
    destruct (auth_answer_alias u t cl f zkf (proj1 (pa_owner _ _ _ PAf)) n cs (alias_path_achain _ _ _ _ _ _ _ _ Hp) Hnd ltac:(lia))
      as (E1 & E2).
    split; [exact E1|]. split; [exact E2|].
    destruct (alias_resolve cache cache_get cache_insert_all LAWS sort_names Hsort port u UNS hints Hh hz Hbuilt t cl Hc Hcn Hns
                (length cs) k n cs f Hp (le_n _) [] c fuel tstate_init Hnd Hsrv (Forall_nil _) ltac:(intros s [])
                ltac:(cbn [length]; lia) HC ltac:(cbn; lia) Hfuel) as (xs & fr & c' & ts' & E & Hxs & Hfr & HC').
    exists xs, fr, c', ts'. split; [|auto]. unfold resolve, resolve_recursive. rewrite E, E2. reflexivity.
  Qed.
End FinalAlias.

(* alias_at and servers_ok as boolean functions (Resolver/UniverseCheck.v) *)

Definition alias_atb (u : universe) (t : N) (n : dname) (zk : uzone) (cr : rr) (tg : dname) : bool :=
  is_zone (best_zone (u_zones u) n None) zk && is_none (cut_owner zk n)
  && match cname_at (rrs_at zk n) t with Some (cr', tg') => rr_eqb cr' cr && dname_eqb tg' tg | None => false end
  && forallb (fun r => implb (owned_by_name n r) (rr_eqb r cr)) (u_all u)
  && (0 <? rr_ttl cr) && negb (rr_is_unknown cr).

Lemma alias_atb_sound u t n zk cr tg : alias_atb u t n zk cr tg = true -> alias_at u t n zk cr tg.
Proof.
  unfold alias_atb. rewrite !andb_true_iff, N.ltb_lt, negb_true_iff. intros (((((H1 & H2) & H3) & H4) & H5) & H6).
  constructor; [apply is_zone_eq, H1|apply is_none_eq, H2| | |exact H5|exact H6].
  - destruct (cname_at _ t) as [[cr' tg']|]; [|discriminate]. apply andb_true_iff in H3 as [E1 E2].
    rewrite (rr_eqb_eq _ _ E1). apply dname_eqb_eq in E2. rewrite E2. reflexivity.
  - intros r Hr E. pose proof (u_all_forallb u _ H4 r Hr) as H. cbv beta in H.
    rewrite (owned_by_name_eq _ _ E) in H. apply rr_eqb_eq, H.
Qed.

Definition servers_okb (u : universe) (names : list dname) : bool :=
  forallb (fun s => forallb (fun n' => match best_zone (server_zones u s) n' None with
                                       | Some z' => implb (is_none (cut_owner z' n')) (is_zone (best_zone (u_zones u) n' None) z')
                                       | None => true
                                       end) names) (u_servers u).

Lemma servers_okb_sound u names : servers_okb u names = true -> servers_ok u names.
Proof.
  unfold servers_okb. rewrite forallb_forall. intros H a zsA Hz n' z' Hn Hb Hc.
  apply zones_of_server_in in Hz as (s & Hs & ->). specialize (H s Hs). rewrite forallb_forall in H. specialize (H n' Hn).
  rewrite Hb, Hc in H. apply is_zone_eq, H.
Qed.

(* a worked cross-zone alias in the universe c4 of RecursiveWarm.v:
   ext.com. CNAME alias.example.com. CNAME www.sub.example.com. A *)

Lemma c4_alias_at_alias : alias_at c4_universe RT_A c4_n_alias c4_ex c4_cn_alias c3_n_www.
Proof. apply alias_atb_sound. vm_compute. reflexivity. Qed.

Lemma c4_alias_at_ext : alias_at c4_universe RT_A c4_n_ext c4_com c4_cn_ext c4_n_alias.
Proof. apply alias_atb_sound. vm_compute. reflexivity. Qed.

Lemma c4_path_www : alias_path c4_universe c3_hints RT_A RC_IN 5 c3_n_www [] c3_n_www.
Proof.
  exact (ap_end c4_universe c3_hints RT_A RC_IN c3_n_www c4_root [c4_com; c4_ex; c4_sub] c4_sub
           (c4_warm_question c3_q (or_introl eq_refl)) (c4_plain_question c3_q (or_introl eq_refl))).
Qed.

Lemma c4_path_alias : alias_path c4_universe c3_hints RT_A RC_IN 9 c4_n_alias [c4_cn_alias] c3_n_www.
Proof.
  refine (ap_link c4_universe c3_hints RT_A RC_IN 5 c4_n_alias c4_cn_alias c3_n_www [] c3_n_www c4_root [c4_com; c4_ex] c4_ex
            _ c4_alias_at_alias _ c4_path_www).
  - apply (c4_walk c4_q_alias). cbn. auto.
  - apply (c4_plain_question_in c4_q_alias). cbn. auto.
Qed.

Lemma c4_path_ext : alias_path c4_universe c3_hints RT_A RC_IN 12 c4_n_ext [c4_cn_ext; c4_cn_alias] c3_n_www.
Proof.
  refine (ap_link c4_universe c3_hints RT_A RC_IN 9 c4_n_ext c4_cn_ext c4_n_alias [c4_cn_alias] c3_n_www c4_root [c4_com] c4_com
            _ c4_alias_at_ext _ c4_path_alias).
  - apply (c4_walk c4_q_ext). cbn. auto 6.
  - apply (c4_plain_question_in c4_q_ext). cbn. auto 6.
Qed.

Lemma c4_names_nodup : NoDup (c4_n_ext :: ctargets [c4_cn_ext; c4_cn_alias]).
Proof.
  vm_compute. repeat (constructor; [intro H; cbn [In] in H; repeat (destruct H as [H|H]; [discriminate H|]); exact H|]). constructor.
Qed.

Lemma c4_servers_ok : servers_ok c4_universe (c4_n_ext :: ctargets [c4_cn_ext; c4_cn_alias]).
Proof. apply servers_okb_sound. vm_compute. reflexivity. Qed.

Notation c4_arun q c :=
  (resolve scache sc_get sc_insert_all sort_names_ord (ModeRecursive OnlyV4) 53 (zones_insert [] c3_hz)
           (universe_oracle c4_universe []) 12%nat q (c, tstate_init)).

(* the hypotheses are satisfiable: ext.com. A from the empty cache, and from the cache left by
   www.sub.example.com. A (RecursiveWarm.c4_cache1) *)
Example alias_example :
  alias_outcome scache sc_get c4_universe c3_hints RT_A RC_IN c4_n_ext [c4_cn_ext; c4_cn_alias] c3_n_www sc_empty
    (c4_arun c4_q_ext sc_empty)
  /\ alias_outcome scache sc_get c4_universe c3_hints RT_A RC_IN c4_n_ext [c4_cn_ext; c4_cn_alias] c3_n_www c4_cache1
       (c4_arun c4_q_ext c4_cache1).
Proof.
  pose proof (fun c HC => alias_correct scache sc_get sc_insert_all sc_cache_laws sort_names_ord sort_names_ord_perm 53 c4_universe
                c4_universe_ns_ok c3_hints c3_hz c3_hz_built RT_A RC_IN 12 c4_n_ext [c4_cn_ext; c4_cn_alias] c3_n_www c 12%nat concrete_A ltac:(discriminate) ltac:(discriminate)
                c4_path_ext c4_names_nodup c4_servers_ok ltac:(cbn; lia) HC (le_n _)) as W.
  exact (conj (W sc_empty (sc_empty_consistent _ _)) (W c4_cache1 (proj1 warm_example_depth3))).
Qed.

(* the same runs evaluated inside Coq: from the empty cache six exchanges (root and com. for
   ext.com., com. and example.com. for alias.example.com., example.com. and sub.example.com. for
   www.sub.example.com.); the chain in order, then the address; asked again, from the cache *)
Example alias_example_eval :
  let r := c4_arun c4_q_ext sc_empty in
  let r' := c4_arun c4_q_ext (fst (snd r)) in
  fst r = Ok (NonAuthoritative [c4_cn_ext; c4_cn_alias; c3_rr c3_n_www RT_A 300 (RD_A 3221225985)] None)
  /\ map x_addr (ts_log (snd (snd r)))
     = [(inl c3_ip0, 53); (inl c3_ip1, 53); (inl c3_ip1, 53); (inl c3_ip2, 53); (inl c3_ip2, 53); (inl c3_ip3, 53)]
  /\ aa_rrs (auth_answer c4_universe c4_q_ext) = [c4_cn_ext; c4_cn_alias; c3_rr c3_n_www RT_A 300 (RD_A 3221225985)]
  /\ fst r' = fst r /\ ts_log (snd (snd r')) = [].
Proof. vm_compute. repeat split. Qed.

(* the records hold the authoritative answer: a chain part with the chain's records in order (owner,
   type, data), then a part with exactly the data of the final RRset *)
Definition chain_answer (rrs auth : list rr) : Prop :=
  exists xs fr cs fin, rrs = xs ++ fr /\ auth = cs ++ fin /\ Forall2 rr_sim xs cs /\ same_data fr fin.

Definition answer_is_auth_chain (u : universe) (q : question) (r : res rerror resolved) : Prop :=
  exists rrs, r = Ok (NonAuthoritative rrs (aa_soa (auth_answer u q))) /\ chain_answer rrs (aa_rrs (auth_answer u q)).

(* a question the alias theorem covers: a chain of k >= 0 aliases (k = 0: a plain question) *)
Definition alias_question (u : universe) (hints : list rr) (fuel : nat) (q : question) : Prop :=
  concrete (q_type q) /\ q_type q <> RT_CNAME /\ q_type q <> RT_NS /\
  exists k cs f, alias_path u hints (q_type q) (q_class q) k (q_name q) cs f /\ NoDup (q_name q :: ctargets cs)
                 /\ servers_ok u (q_name q :: ctargets cs) /\ (length cs + 1 < 32)%nat /\ (k <= fuel)%nat.

Lemma mkq_eta q : mkq (q_name q) (q_type q) (q_class q) = q.
Proof. destruct q; reflexivity. Qed.

Section AliasSequence.
  Variable cache : Type.
  Variable cache_get : cache -> dname -> N -> list rr.
  Variable cache_insert_all : cache -> list rr -> cache.
  Hypothesis LAWS : cache_laws cache cache_get cache_insert_all.
  Variable sort_names : list dname -> list dname.
  Hypothesis Hsort : forall l, Permutation (sort_names l) l.
  Variable port : N.
  Variable u : universe.
  Hypothesis UNS : universe_ns_ok u.
  Variable hints : list rr.
  Variable hz : zone.
  Hypothesis Hbuilt : zone_build root_domain None (hint_ops hints) = Ok hz.
  Variable fuel : nat.

  Notation consistent := (cache_consistent u hints cache cache_get).
  Notation rseq := (resolve_seq cache cache_get cache_insert_all sort_names port (zones_insert [] hz) (universe_oracle u []) fuel).

  Theorem alias_sequence_correct : forall qs c, Forall (alias_question u hints fuel) qs -> consistent c ->
    Forall2 (fun q out => answer_is_auth_chain u q (fst out)) qs (fst (rseq qs c)) /\ consistent (snd (rseq qs c)).
  Proof.
    induction qs as [|q qs IH]; intros c Hqs HC; cbn [resolve_seq fst snd]; [split; [constructor|exact HC]|].
    inversion Hqs as [|? ? (Hc & Hcn & Hns & k & cs & f & Hp & Hnd & Hsrv & Hlen & Hk) Hrest]; subst.
    destruct (alias_correct cache cache_get cache_insert_all LAWS sort_names Hsort port u UNS hints hz Hbuilt
                (q_type q) (q_class q) k (q_name q) cs f c fuel Hc Hcn Hns Hp Hnd Hsrv Hlen HC Hk)
      as (E1 & E2 & xs & fr & c' & ts' & E & Hxs & Hfr & HC').
    rewrite mkq_eta in *. rewrite E. cbn [fst snd].
    destruct (IH c' Hrest HC') as [H1 H2]. split; [|exact H2]. constructor; [|exact H1].
    cbn [fst]. exists (xs ++ fr). split; [reflexivity|]. exists xs, fr, cs, (aa_rrs (auth_answer u (mkq f (q_type q) (q_class q)))). auto.
  Qed.
End AliasSequence.
