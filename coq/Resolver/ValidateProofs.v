(* Resolver/ValidateProofs.v -- proofs about Resolver/ValidateModel.v and
   Resolver/GateModel.v against Resolver/ValidateSpec.v (C06); at the end: get_ip is total, and
   vchain_ok is chain_ok of LocalSpec.v (for C10). *)
From RV Require Import Zone.ZoneProofs Resolver.LocalProofs.
From RV Require Import Base.Prelude Name.NameModel Name.NameSpec Name.NameProofs
     Wire.WireTypes Wire.WireModel Resolver.LocalModel Resolver.LocalSpec
     Resolver.ValidateModel Resolver.GateModel Resolver.ValidateSpec.

Lemma dname_eqb_neq a b : dname_eqb a b = false <-> a <> b.
Proof. split; [apply (keqb_false dname_eqb dname_eqb_eq)|apply (keqb_neq dname_eqb dname_eqb_eq)]. Qed.

Lemma set_mem_in n s : set_mem n s = true <-> In n s.
Proof.
  unfold set_mem. rewrite existsb_exists. split.
  - intros [x [Hin E]]. apply dname_eqb_eq in E. subst. exact Hin.
  - intro H. exists n. split; [exact H | apply dname_eqb_refl].
Qed.

Lemma set_mem_false n s : set_mem n s = false <-> ~ In n s.
Proof. rewrite <- set_mem_in. symmetry. apply not_true_iff_false. Qed.

Lemma set_insert_in n x s : In x (set_insert n s) <-> x = n \/ In x s.
Proof.
  unfold set_insert. fold (set_mem n s). destruct (set_mem n s) eqn:E.
  - apply set_mem_in in E. split; [auto|]. intros [->|H]; assumption.
  - rewrite in_app_iff. cbn [In]. split.
    + intros [H|[H|[]]]; [right; exact H | left; symmetry; exact H].
    + intros [->|H]; [right; left; reflexivity | left; exact H].
Qed.

Lemma is_cname_rr_spec r c : is_cname_rr r = Some c <-> cname_rr r (rr_name r) c.
Proof.
  unfold is_cname_rr, cname_rr. destruct (rr_type r =? RT_CNAME) eqn:E.
  - apply N.eqb_eq in E. split.
    + destruct (rr_data r); intro H; inversion H; subst; auto.
    + intros [_ [_ H]]. rewrite H. reflexivity.
  - apply N.eqb_neq in E. split; [discriminate|]. intros [_ [H _]]. contradiction.
Qed.

Lemma is_ns_rr_spec r h : is_ns_rr r = Some h <-> ns_rr r h.
Proof.
  unfold is_ns_rr, ns_rr. destruct (rr_type r =? RT_NS) eqn:E.
  - apply N.eqb_eq in E. split.
    + destruct (rr_data r); intro H; inversion H; subst; auto.
    + intros [_ H]. rewrite H. reflexivity.
  - apply N.eqb_neq in E. split; [discriminate|]. intros [H _]. contradiction.
Qed.

(* every entry of the map comes from the accumulator or from a known CNAME record *)
Lemma scan_map_sound tgt qt : forall rrs got m k t,
  alookup dname_eqb k (snd (cname_scan rrs tgt qt got m)) = Some t ->
  alookup dname_eqb k m = Some t \/ exists r, In r rrs /\ known r /\ cname_rr r k t.
Proof.
  induction rrs as [|r rrs IH]; intros got m k t H; cbn [cname_scan] in H.
  - left. exact H.
  - destruct (rr_is_unknown r) eqn:U.
    + destruct (IH _ _ _ _ H) as [H1|[r' [Hin H1]]]; [left; exact H1 | right; exists r'; split; [right; exact Hin | exact H1]].
    + destruct (IH _ _ _ _ H) as [H1|[r' [Hin H1]]].
      * destruct (is_cname_rr r) as [c|] eqn:C; [|left; exact H1].
        rewrite (alookup_ainsert dname_eqb dname_eqb_eq) in H1. destruct (dname_eqb k (rr_name r)) eqn:E; [|left; exact H1].
        apply dname_eqb_eq in E. subst k. inversion H1; subst c. right. exists r.
        split; [left; reflexivity|]. split; [exact U|]. apply is_cname_rr_spec. exact C.
      * right. exists r'. split; [right; exact Hin | exact H1].
Qed.

(* every known CNAME record's owner is a key of the map (with some target) *)
Lemma scan_map_complete tgt qt : forall rrs got m k,
  (alookup dname_eqb k m <> None \/ exists r t, In r rrs /\ known r /\ cname_rr r k t) ->
  alookup dname_eqb k (snd (cname_scan rrs tgt qt got m)) <> None.
Proof.
  induction rrs as [|r rrs IH]; intros got m k H; cbn [cname_scan].
  - destruct H as [H|[r [t [[] _]]]]. exact H.
  - destruct H as [H|[r' [t [[->|Hin] [Hk [<- Hc]]]]]].
    + destruct (rr_is_unknown r); apply IH; left; [exact H|].
      destruct (is_cname_rr r); [|exact H]. rewrite (alookup_ainsert dname_eqb dname_eqb_eq).
      destruct (dname_eqb k (rr_name r)); [discriminate | exact H].
    + rewrite Hk. apply IH. left. rewrite (proj2 (is_cname_rr_spec r' t) (conj eq_refl Hc)).
      rewrite (alookup_ainsert dname_eqb dname_eqb_eq), dname_eqb_refl. discriminate.
    + destruct (rr_is_unknown r); apply IH; right; exists r', t; cbn [In]; unfold cname_rr; auto.
Qed.

(* a path in the map: n -> t1 -> ... -> f, the list is [t1; ...; f] *)
Inductive mpath (m : list (dname * dname)) : dname -> list dname -> dname -> Prop :=
| mp_nil n : mpath m n [] n
| mp_cons n t l f : alookup dname_eqb n m = Some t -> mpath m t l f -> mpath m n (t :: l) f.

Lemma mpath_nil_inv m n f : mpath m n [] f -> f = n.
Proof. intro H; inversion H; reflexivity. Qed.
Lemma mpath_cons_inv m n t l f : mpath m n (t :: l) f -> alookup dname_eqb n m = Some t /\ mpath m t l f.
Proof. intro H; inversion H; auto. Qed.

Lemma walk_terminates m : forall fuel seen n,
  NoDup seen -> incl seen (map snd m) -> (length m < fuel + length seen)%nat ->
  cname_walk fuel m seen n <> OutOfFuel.
Proof.
  induction fuel as [|fuel IH]; intros seen n Hnd Hincl Hlen.
  - exfalso. pose proof (NoDup_incl_length Hnd Hincl) as H. rewrite map_length in H. lia.
  - cbn [cname_walk]. destruct (alookup dname_eqb n m) as [t|] eqn:E; [|discriminate].
    destruct (set_mem t seen) eqn:S; [discriminate|].
    apply set_mem_false in S.
    assert (Hin : In t (map snd m)).
    { apply alookup_some in E. apply (in_map snd) in E. exact E. }
    apply IH; [apply NoDup_snoc; assumption| |].
    + intros x Hx. apply in_app_iff in Hx. destruct Hx as [Hx|[<-|[]]]; [apply Hincl, Hx | exact Hin].
    + rewrite app_length. cbn [length].
      assert (length seen < length m)%nat.
      { destruct (Compare_dec.le_lt_dec (length m) (length seen)) as [Hle|Hlt]; [|exact Hlt].
        exfalso. apply S. rewrite <- (map_length snd m) in Hle.
        exact (NoDup_length_incl Hnd Hle Hincl t Hin). }
      lia.
Qed.

Lemma walk_ok m : forall fuel seen n, (exists o, cname_walk fuel m seen n = Ok o) \/ cname_walk fuel m seen n = OutOfFuel.
Proof.
  induction fuel as [|fuel IH]; intros seen n; cbn [cname_walk]; [right; reflexivity|].
  destruct (alookup dname_eqb n m) as [t|]; [|left; eexists; reflexivity].
  destruct (set_mem t seen); [left; eexists; reflexivity | apply IH].
Qed.

Lemma walk_path m : forall fuel seen n f seen',
  cname_walk fuel m seen n = Ok (Some (f, seen')) ->
  exists l, seen' = seen ++ l /\ mpath m n l f /\ alookup dname_eqb f m = None /\ (NoDup seen -> NoDup seen').
Proof.
  induction fuel as [|fuel IH]; intros seen n f seen' H; cbn [cname_walk] in H; [discriminate|].
  destruct (alookup dname_eqb n m) as [t|] eqn:E.
  - destruct (set_mem t seen) eqn:S; [discriminate|]. apply set_mem_false in S.
    destruct (IH _ _ _ _ H) as [l [Hs [Hp [Hn Hnd]]]].
    exists (t :: l). split; [rewrite Hs, <- app_assoc; reflexivity|].
    split; [constructor; assumption|]. split; [exact Hn|].
    intro Hd. apply Hnd. apply NoDup_snoc; assumption.
  - inversion H; subst. exists []. rewrite app_nil_r. repeat split; [constructor | exact E | auto].
Qed.

(* follow_cnames: the fuel S (S (length map)) always suffices, and nothing else can go wrong *)
Lemma follow_total rrs tgt qt : exists o, follow_cnames rrs tgt qt = Ok o.
Proof.
  unfold follow_cnames. destruct (cname_scan rrs tgt qt false []) as [got m].
  destruct (qt =? RT_CNAME); [destruct got; eexists; reflexivity|].
  destruct (walk_ok m (S (S (length m))) [] tgt) as [[o H]|H].
  - rewrite H. destruct o as [[f seen]|]; [|eexists; reflexivity].
    destruct (got || negb (is_nil seen)); eexists; reflexivity.
  - exfalso. revert H. apply walk_terminates; [constructor | intros x [] | cbn [length]; lia].
Qed.

Lemma scan_got tgt qt : forall rrs got m,
  fst (cname_scan rrs tgt qt got m) = true ->
  got = true \/ exists r, In r rrs /\ known r /\ rr_name r = tgt /\ rtype_matches (rr_type r) qt = true.
Proof.
  induction rrs as [|r rrs IH]; intros got m H; cbn [cname_scan] in H; [left; exact H|].
  destruct (rr_is_unknown r) eqn:U.
  - destruct (IH _ _ H) as [H1|[r' [Hin H1]]]; [left; exact H1 | right; exists r'; split; [right; exact Hin | exact H1]].
  - destruct (IH _ _ H) as [H1|[r' [Hin H1]]]; [|right; exists r'; split; [right; exact Hin | exact H1]].
    apply orb_true_iff in H1. destruct H1 as [H1|H1]; [left; exact H1|].
    apply andb_true_iff in H1. destruct H1 as [H1 H2]. apply dname_eqb_eq in H1.
    right. exists r. split; [left; reflexivity|]. split; [exact U|]. split; assumption.
Qed.

(* a known record of the asked type at the target *)
Definition match_witness (rrs : list rr) (tgt : dname) (qt : N) : Prop :=
  exists r, In r rrs /\ known r /\ rr_name r = tgt /\ rtype_matches (rr_type r) qt = true.

(* the two ways follow_cnames says Some:
   - a CNAME question: nothing is followed, a record of the asked type is at the target;
   - otherwise: a loop-free path in the map from the target to a name no CNAME leaves,
     and a reason (the path is not empty, or a record of the asked type is at the target) *)
Lemma follow_cases rrs tgt qt f m :
  follow_cnames rrs tgt qt = Ok (Some (f, m)) ->
  m = snd (cname_scan rrs tgt qt false []) /\
  ((qt = RT_CNAME /\ f = tgt /\ match_witness rrs tgt qt) \/
   (qt <> RT_CNAME /\ exists l, mpath m tgt l f /\ alookup dname_eqb f m = None /\ NoDup l /\
                               (l <> [] \/ match_witness rrs tgt qt))).
Proof.
  unfold follow_cnames. destruct (cname_scan rrs tgt qt false []) as [got m0] eqn:Sc.
  assert (Hgot : got = true -> match_witness rrs tgt qt).
  { intro G. pose proof (scan_got tgt qt rrs false []) as Hg. rewrite Sc in Hg. cbn [fst] in Hg.
    destruct (Hg G) as [Hx|Hx]; [discriminate | exact Hx]. }
  destruct (qt =? RT_CNAME) eqn:Eq.
  - apply N.eqb_eq in Eq. destruct got; [|discriminate]. intro H; inversion H; subst f m0.
    split; [reflexivity|]. left. auto.
  - apply N.eqb_neq in Eq.
    destruct (cname_walk (S (S (length m0))) m0 [] tgt) as [[[f' seen]|]| | |] eqn:W; try discriminate.
    destruct (got || negb (is_nil seen)) eqn:G; [|discriminate].
    intro H; inversion H; subst f' m0. split; [reflexivity|]. right. split; [exact Eq|].
    destruct (walk_path _ _ _ _ _ _ W) as [l [Hs [Hp [Hn Hnd]]]]. cbn [app] in Hs. subst seen.
    exists l. split; [exact Hp|]. split; [exact Hn|]. split; [apply Hnd; constructor|].
    destruct l as [|t l]; [right | left; discriminate].
    cbn [is_nil negb] in G. rewrite orb_false_r in G. auto.
Qed.

(* the map of follow_cnames describes the known CNAME records of the section *)
Lemma follow_map_sound rrs tgt qt f m k t :
  follow_cnames rrs tgt qt = Ok (Some (f, m)) -> alookup dname_eqb k m = Some t ->
  exists r, In r rrs /\ known r /\ cname_rr r k t.
Proof.
  intros H L. apply follow_cases in H. destruct H as [-> _].
  destruct (scan_map_sound _ _ _ _ _ _ _ L) as [H|H]; [discriminate | exact H].
Qed.

Lemma map_none_terminal rrs tgt qt f :
  alookup dname_eqb f (snd (cname_scan rrs tgt qt false [])) = None -> terminal rrs f.
Proof.
  intros Hn r t Hin Hk Hc. revert Hn. apply scan_map_complete. right. exists r, t. auto.
Qed.

Definition path_pred (name target : dname) (an : rr) : bool :=
  negb (rr_is_unknown an) && dname_eqb (rr_name an) name
  && (rr_type an =? RT_CNAME) && rdata_eqb (rr_data an) (RD_Name target).

Lemma path_pred_spec name target an :
  path_pred name target an = true <-> known an /\ cname_rr an name target.
Proof.
  unfold path_pred, known, cname_rr.
  rewrite !andb_true_iff, negb_true_iff, dname_eqb_eq, N.eqb_eq, rdata_eqb_eq. tauto.
Qed.

(* cs are CNAME records c1..ck with owners n, t1, .., t(k-1) and targets l = t1..tk, as the map says *)
Fixpoint chain_rel (m : list (dname * dname)) (n : dname) (cs : list rr) (l : list dname) : Prop :=
  match cs, l with
  | [], [] => True
  | c :: cs', t :: l' => cname_rr c n t /\ alookup dname_eqb n m = Some t /\ chain_rel m t cs' l'
  | _, _ => False
  end.

Lemma path_cnames_spec answers m :
  (forall k t, alookup dname_eqb k m = Some t -> exists r, In r answers /\ known r /\ cname_rr r k t) ->
  forall l n f, mpath m n l f -> alookup dname_eqb f m = None ->
  forall fuel, (length l < fuel)%nat ->
  chain_rel m n (path_cnames fuel answers m f n) l /\
  Forall (fun c => In c answers /\ known c) (path_cnames fuel answers m f n).
Proof.
  intros Hm. induction 1 as [n|n t l f E Hp IH]; intros Hn fuel Hf.
  - destruct fuel as [|fuel]; [cbn in Hf; lia|]. cbn [path_cnames]. rewrite dname_eqb_refl. cbn. auto.
  - destruct fuel as [|fuel]; [cbn in Hf; lia|]. cbn [path_cnames].
    assert (Hne : dname_eqb n f = false) by (apply dname_eqb_neq; intro; subst; congruence).
    rewrite Hne, E.
    fold (path_pred n t).
    destruct (find (path_pred n t) answers) as [an|] eqn:F.
    + apply find_some in F. destruct F as [Hin Hpred]. apply path_pred_spec in Hpred.
      destruct Hpred as [Hk Hc]. cbn [app length] in *.
      destruct (IH Hn fuel ltac:(lia)) as [H1 H2].
      split; [cbn [chain_rel]; auto | constructor; auto].
    + exfalso. destruct (Hm _ _ E) as [r [Hin [Hk Hc]]].
      pose proof (find_none _ _ F r Hin) as Hx.
      assert (path_pred n t r = true) by (apply path_pred_spec; auto). congruence.
Qed.

(* the fuel of the path loop is never the reason it stops: any larger fuel gives the same list *)
Lemma path_cnames_fuel_irrelevant answers m : forall l n f, mpath m n l f -> alookup dname_eqb f m = None ->
  forall fuel1 fuel2, (length l < fuel1)%nat -> (length l < fuel2)%nat ->
  path_cnames fuel1 answers m f n = path_cnames fuel2 answers m f n.
Proof.
  induction 1 as [n|n t l f E Hp IH]; intros Hn fuel1 fuel2 H1 H2;
    (destruct fuel1 as [|fuel1]; [cbn in H1; lia|]); (destruct fuel2 as [|fuel2]; [cbn in H2; lia|]);
    cbn [path_cnames].
  - rewrite dname_eqb_refl. reflexivity.
  - assert (Hne : dname_eqb n f = false) by (apply dname_eqb_neq; intro; subst; congruence).
    rewrite Hne, E. f_equal. cbn [length] in H1, H2. apply (IH Hn); lia.
Qed.

Lemma path_cnames_at_final fuel answers m f : path_cnames (S fuel) answers m f f = [].
Proof. cbn [path_cnames]. rewrite dname_eqb_refl. reflexivity. Qed.

Lemma chain_rel_chain_from m : forall l n f cs,
  mpath m n l f -> chain_rel m n cs l -> chain_from n cs = Some f.
Proof.
  induction l as [|t l IH]; intros n f cs Hp Hc.
  - apply mpath_nil_inv in Hp. subst. destruct cs; [reflexivity | destruct Hc].
  - apply mpath_cons_inv in Hp. destruct Hp as [_ Hp]. destruct cs as [|c cs]; [destruct Hc|].
    destruct Hc as [[Hn [Ht Hd]] [_ Hc]]. cbn [chain_from].
    rewrite Hn, dname_eqb_refl, Ht, N.eqb_refl, Hd. cbn [andb]. apply (IH _ _ _ Hp Hc).
Qed.

(* an owner determines its target (the map is a function), one of the path *)
Lemma chain_rel_fun m : forall l n cs, chain_rel m n cs l ->
  forall x, In x cs -> exists t, cname_rr x (rr_name x) t /\ alookup dname_eqb (rr_name x) m = Some t /\ In t l.
Proof.
  induction l as [|t l IH]; intros n [|c cs] H; cbn [chain_rel] in H; try contradiction.
  destruct H as [[Hn [Ht Hd]] [E H]]. intros x [<-|Hin].
  - exists t. rewrite Hn. unfold cname_rr. cbn [In]. auto.
  - destruct (IH t cs H x Hin) as [t' [Hc [Ht' Hl]]]. exists t'. cbn [In]. auto.
Qed.

Lemma chain_rel_owners_nodup m : forall l n cs, chain_rel m n cs l -> NoDup l -> NoDup (map rr_name cs).
Proof.
  induction l as [|t l IH]; intros n [|c cs] H Hnd; cbn [chain_rel] in H; try contradiction; [constructor|].
  destruct H as [[Hn _] [E H]]. apply NoDup_cons_iff in Hnd. destruct Hnd as [Hnt Hnd].
  cbn [map]. constructor; [|exact (IH _ _ H Hnd)].
  intro Hin. apply in_map_iff in Hin. destruct Hin as [x [Hx Hin]].
  destruct (chain_rel_fun _ _ _ _ H x Hin) as [t' [_ [Fx Ht']]]. rewrite Hx, Hn, E in Fx. inversion Fx; subst t'. contradiction.
Qed.

(* every owner on the chain, and its end, is reached from the start *)
Lemma chain_rel_reached answers q m : forall l n cs f,
  mpath m n l f -> chain_rel m n cs l -> Forall (fun c => In c answers /\ known c) cs ->
  reached answers q n ->
  Forall (fun c => reached answers q (rr_name c)) cs /\ reached answers q f.
Proof.
  induction l as [|t l IH]; intros n cs f Hp Hc Hf Hr.
  - apply mpath_nil_inv in Hp. subst. destruct cs; [split; [constructor | exact Hr] | destruct Hc].
  - apply mpath_cons_inv in Hp. destruct Hp as [_ Hp]. destruct cs as [|c cs]; [destruct Hc|].
    destruct Hc as [Hcn [_ Hc]]. apply Forall_cons_iff in Hf. destruct Hf as [[Hin Hk] Hf].
    assert (Hr' : reached answers q t) by (eapply reached_step; eauto).
    destruct (IH _ _ _ Hp Hc Hf Hr') as [H5 H6].
    split; [constructor; [destruct Hcn as [-> _]; exact Hr | exact H5] | exact H6].
Qed.

Lemma mpath_length_le m : forall n l f, mpath m n l f -> NoDup l -> (length l <= length m)%nat.
Proof.
  intros n l f Hp Hnd. rewrite <- (map_length snd m). apply NoDup_incl_length; [exact Hnd|].
  induction Hp as [|n t l f E Hp IH]; [intros x []|].
  inversion Hnd; subst. intros x [<-|Hx]; [|apply IH; assumption].
  apply alookup_some in E. apply (in_map snd) in E. exact E.
Qed.

Definition final_pred (q : question) (f : dname) (an : rr) : bool :=
  negb (rr_is_unknown an) && rtype_matches (rr_type an) (q_type q) && dname_eqb (rr_name an) f.

(* what the answer branch computes, in the two cases of follow_cases *)
Lemma answer_branch_parts q resp f m :
  follow_cnames (m_answers resp) (q_name q) (q_type q) = Ok (Some (f, m)) ->
  let answers := m_answers resp in
  let cn := path_cnames (S (length m)) answers m f (q_name q) in
  let fin := filter (final_pred q f) answers in
  vchain_ok (q_name q) (q_type q) cn fin f /\ Forall (allowed_answer q resp) (cn ++ fin) /\
  (exists r, In r answers /\ known r) /\ (cn <> [] \/ fin <> []).
Proof.
  intros Hf answers cn fin.
  assert (Hfin : forall x, In x fin -> In x answers /\ known x /\ rtype_matches (rr_type x) (q_type q) = true /\ rr_name x = f).
  { intros x Hx. unfold fin in Hx. apply filter_In in Hx. destruct Hx as [Hin Hx].
    unfold final_pred in Hx. rewrite !andb_true_iff, negb_true_iff, dname_eqb_eq in Hx.
    unfold known. tauto. }
  assert (Hwit : match_witness answers (q_name q) (q_type q) -> f = q_name q ->
                 (exists r, In r answers /\ known r) /\ fin <> []).
  { intros [r [Hin [Hk [Hname Hmatch]]]] Hfq. split; [exists r; auto|].
    assert (In r fin).
    { unfold fin. apply filter_In. split; [exact Hin|].
      unfold final_pred. rewrite Hk, Hmatch, Hname, Hfq, dname_eqb_refl. reflexivity. }
    intro E. rewrite E in H. exact H. }
  destruct (follow_cases _ _ _ _ _ Hf) as [Hmeq [[Hq [Hfq W]]|[Hq [l [Hp [Hn [Hnd Hwhy]]]]]]].
  - (* a CNAME question: no path *)
    assert (Hcn : cn = []) by (unfold cn; rewrite Hfq; apply path_cnames_at_final).
    rewrite Hcn. cbn [app]. destruct (Hwit W Hfq) as [Hex Hne].
    split; [|split; [|split; [exact Hex | right; exact Hne]]].
    + split; [cbn [chain_from]; rewrite Hfq; reflexivity|]. split; [constructor|]. split; [|auto].
      apply Forall_forall. intros x Hx. destruct (Hfin x Hx) as [_ [_ [Hm' Hn']]].
      split; [exact Hn'|]. split; [exact Hm'|]. intro Hc. contradiction.
    + apply Forall_forall. intros x Hx. destruct (Hfin x Hx) as [Hin [Hk [Hm' Hn']]].
      split; [exact Hin|]. split; [exact Hk|]. left. split; [exact Hq|]. split; [rewrite Hn'; exact Hfq|].
      rewrite Hq in Hm'. apply rtype_matches_concrete; [discriminate | exact Hm'].
  - (* any other question: the path of the map *)
    assert (Hm : forall k t, alookup dname_eqb k m = Some t -> exists r, In r answers /\ known r /\ cname_rr r k t)
      by (intros k t; apply (follow_map_sound _ _ _ _ _ _ _ Hf)).
    assert (Hlen : (length l < S (length m))%nat)
      by (pose proof (mpath_length_le _ _ _ _ Hp Hnd); lia).
    destruct (path_cnames_spec answers m Hm l (q_name q) f Hp Hn _ Hlen) as [Hrel Hall]. fold cn in Hrel, Hall.
    destruct (chain_rel_reached answers (q_name q) m l (q_name q) cn f Hp Hrel Hall (reached_start _ _)) as [Hreach Hrf].
    assert (Hterm : terminal answers f) by (rewrite Hmeq in Hn; exact (map_none_terminal _ _ _ _ Hn)).
    split; [|split; [|split]].
    + split; [exact (chain_rel_chain_from _ _ _ _ _ Hp Hrel)|].
      split; [exact (chain_rel_owners_nodup _ _ _ _ Hrel Hnd)|]. split; [|intro; contradiction].
      apply Forall_forall. intros x Hx. destruct (Hfin x Hx) as [Hin [Hk [Hm' Hn']]].
      split; [exact Hn'|]. split; [exact Hm'|]. intros _ [t Hc]. exact (Hterm x t Hin Hk Hc).
    + apply Forall_app. split.
      * rewrite Forall_forall in *. intros x Hx. destruct (Hall x Hx) as [Hin Hk].
        split; [exact Hin|]. split; [exact Hk|]. right. split; [exact Hq|]. split; [exact (Hreach x Hx)|].
        left. destruct (chain_rel_fun _ _ _ _ Hrel x Hx) as [t [Hc _]]. exists t. exact Hc.
      * apply Forall_forall. intros x Hx. destruct (Hfin x Hx) as [Hin [Hk [Hm' Hn']]].
        split; [exact Hin|]. split; [exact Hk|]. right. split; [exact Hq|]. rewrite Hn'. split; [exact Hrf|].
        right. split; [exact Hm' | exact Hterm].
    + destruct Hwhy as [Hl|W].
      * destruct l as [|t l']; [contradiction|]. apply mpath_cons_inv in Hp. destruct Hp as [Ht _].
        destruct (Hm _ _ Ht) as [r [Hin [Hk _]]]. exists r. auto.
      * destruct W as [r [Hin [Hk _]]]. exists r. auto.
    + destruct l as [|t l'].
      * right. apply mpath_nil_inv in Hp. destruct Hwhy as [Hl|W]; [contradiction|]. apply (Hwit W Hp).
      * left. destruct cn; [destruct Hrel | discriminate].
Qed.

(* the two `None` arms inside the answer branch ("all RRs unknown", "expected RRs")
   are dead code: whenever follow_cnames finds a name the branch produces a result *)
Lemma validate_answer_eq q resp mc f m :
  follow_cnames (m_answers resp) (q_name q) (q_type q) = Ok (Some (f, m)) ->
  let cn := path_cnames (S (length m)) (m_answers resp) m f (q_name q) in
  let fin := filter (final_pred q f) (m_answers resp) in
  validate_nameserver_response q resp mc =
  if negb (is_nil fin) then Ok (Some (NRAnswer (cn ++ fin) None)) else Ok (Some (NRCname (cn ++ fin) f)).
Proof.
  intros Hf cn fin. destruct (answer_branch_parts q resp f m Hf) as [_ [_ [[r [Hin Hk]] Hne]]].
  fold cn fin in Hne.
  unfold validate_nameserver_response. rewrite Hf. fold (final_pred q f). fold cn fin.
  assert (Hau : forallb rr_is_unknown (m_answers resp) = false).
  { destruct (forallb rr_is_unknown (m_answers resp)) eqn:E; [|reflexivity].
    rewrite forallb_forall in E. specialize (E r Hin). unfold known in Hk. congruence. }
  rewrite Hau.
  assert (Hnil : is_nil (cn ++ fin) = false).
  { destruct Hne as [Hne|Hne]; [destruct cn; [contradiction | reflexivity]|].
    destruct cn; [|reflexivity]. destruct fin; [contradiction | reflexivity]. }
  rewrite Hnil. reflexivity.
Qed.

Lemma validate_answer_live q resp mc f m :
  follow_cnames (m_answers resp) (q_name q) (q_type q) = Ok (Some (f, m)) ->
  exists r, validate_nameserver_response q resp mc = Ok (Some r).
Proof.
  intro Hf. rewrite (validate_answer_eq q resp mc f m Hf).
  match goal with |- context [negb (is_nil ?l)] => destruct (negb (is_nil l)) end; eexists; reflexivity.
Qed.

Lemma validate_answer_shape q resp mc r f m :
  follow_cnames (m_answers resp) (q_name q) (q_type q) = Ok (Some (f, m)) ->
  validate_nameserver_response q resp mc = Ok (Some r) ->
  exists cn fin,
    vchain_ok (q_name q) (q_type q) cn fin f /\ Forall (allowed_answer q resp) (cn ++ fin) /\
    ((r = NRAnswer (cn ++ fin) None /\ fin <> []) \/ (r = NRCname cn f /\ fin = [] /\ cn <> [])).
Proof.
  intros Hf Hv. rewrite (validate_answer_eq q resp mc f m Hf) in Hv.
  destruct (answer_branch_parts q resp f m Hf) as [Hch [Hall [_ Hne]]].
  set (cn := path_cnames (S (length m)) (m_answers resp) m f (q_name q)) in *.
  set (fin := filter (final_pred q f) (m_answers resp)) in *.
  exists cn, fin. split; [exact Hch|]. split; [exact Hall|].
  destruct fin as [|x fin'] eqn:Efin; cbn [is_nil negb] in Hv.
  - right. inversion Hv. rewrite app_nil_r. split; [reflexivity|]. split; [reflexivity|].
    destruct Hne as [Hne|Hne]; [exact Hne | contradiction].
  - left. inversion Hv. split; [reflexivity | discriminate].
Qed.

Definition cand (tgt : dname) (r : rr) (h : dname) : Prop :=
  is_ns_rr r = Some h /\ is_subdomain_of tgt (rr_name r) = true.

(* what the loop guarantees, from the state (cnt, mn, names) it starts in: the final count [cnt'] bounds
   every candidate; the final names are hosts of candidates at that count (or were there already, if the
   count did not move); and either nothing better was found, or the match name is a candidate at [cnt'] *)
Definition bnl_post tgt (rrs : list rr) cnt (mn : option dname) (names : list dname) mn' names' : Prop :=
  exists cnt',
    cnt <= cnt' /\
    (forall r h, In r rrs -> cand tgt r h -> nlabels (rr_name r) <= cnt') /\
    (forall h, In h names' ->
       (cnt' = cnt /\ In h names) \/ exists r, In r rrs /\ cand tgt r h /\ nlabels (rr_name r) = cnt') /\
    ((cnt' = cnt /\ mn' = mn /\ incl names names') \/
     (cnt < cnt' /\ names' <> [] /\
      exists r h, In r rrs /\ cand tgt r h /\ mn' = Some (rr_name r) /\ nlabels (rr_name r) = cnt')).

(* a record that is no candidate, or too shallow a one, changes nothing *)
Lemma bnl_post_skip tgt r rrs cnt mn names mn' names' :
  (forall h, cand tgt r h -> nlabels (rr_name r) < cnt) ->
  bnl_post tgt rrs cnt mn names mn' names' -> bnl_post tgt (r :: rrs) cnt mn names mn' names'.
Proof.
  intros Hno (cnt' & H1 & H2 & H3 & H4). exists cnt'. split; [exact H1|]. split; [|split].
  - intros r0 h [<-|Hin] Hc; [specialize (Hno h Hc); lia | exact (H2 _ _ Hin Hc)].
  - intros h Hh. destruct (H3 h Hh) as [Hl|[r0 [Hin Hr]]]; [left; exact Hl | right; exists r0; split; [right; exact Hin | exact Hr]].
  - destruct H4 as [Hl|[Hlt [Hne [r0 [h [Hin Hr]]]]]]; [left; exact Hl|].
    right. split; [exact Hlt|]. split; [exact Hne|]. exists r0, h. split; [right; exact Hin | exact Hr].
Qed.

Lemma bnl_inv tgt : forall rrs cnt mn names mn' names',
  better_ns_loop rrs tgt cnt mn names = (mn', names') -> bnl_post tgt rrs cnt mn names mn' names'.
Proof.
  induction rrs as [|r rrs IH]; intros cnt mn names mn' names' H; cbn [better_ns_loop] in H.
  - inversion H; subst. exists cnt. split; [lia|]. split; [intros r h []|]. split; [intros h Hh; left; auto|].
    left. split; [reflexivity|]. split; [reflexivity | apply incl_refl].
  - destruct (is_ns_rr r) as [nsd|] eqn:Ens; [|apply bnl_post_skip, IH, H; intros h [Hc _]; congruence].
    destruct (is_subdomain_of tgt (rr_name r)) eqn:Esub; [|apply bnl_post_skip, IH, H; intros h [_ Hc]; congruence].
    fold (nlabels (rr_name r)) in H.
    assert (Hcand : cand tgt r nsd) by (split; assumption).
    destruct (cnt <? nlabels (rr_name r)) eqn:Elt.
    + apply N.ltb_lt in Elt. destruct (IH _ _ _ _ _ H) as [cnt' [H1 [H2 [H3 H4]]]]. exists cnt'.
      split; [lia|]. split; [|split].
      * intros r0 h [<-|Hin] Hc; [exact H1 | exact (H2 _ _ Hin Hc)].
      * intros h Hh. right. destruct (H3 h Hh) as [[Heq [<-|[]]]|[r0 [Hin Hr]]].
        -- exists r. split; [left; reflexivity|]. split; [exact Hcand | symmetry; exact Heq].
        -- exists r0. split; [right; exact Hin | exact Hr].
      * right. split; [lia|]. destruct H4 as [[Heq [Hmn Hincl]]|[Hlt [Hne [r0 [h [Hin Hr]]]]]].
        -- split; [intro E; specialize (Hincl nsd (or_introl eq_refl)); rewrite E in Hincl; exact Hincl|].
           exists r, nsd. split; [left; reflexivity|]. split; [exact Hcand|]. split; [exact Hmn | symmetry; exact Heq].
        -- split; [exact Hne|]. exists r0, h. split; [right; exact Hin | exact Hr].
    + apply N.ltb_ge in Elt. destruct (nlabels (rr_name r) =? cnt) eqn:Eeq.
      * apply N.eqb_eq in Eeq. destruct (IH _ _ _ _ _ H) as [cnt' [H1 [H2 [H3 H4]]]]. exists cnt'.
        split; [exact H1|]. split; [|split].
        -- intros r0 h [<-|Hin] Hc; [lia | exact (H2 _ _ Hin Hc)].
        -- intros h Hh. destruct (H3 h Hh) as [[Heq Hin]|[r0 [Hin Hr]]].
           ++ apply set_insert_in in Hin. destruct Hin as [->|Hin]; [|left; auto].
              right. exists r. split; [left; reflexivity|]. split; [exact Hcand | lia].
           ++ right. exists r0. split; [right; exact Hin | exact Hr].
        -- destruct H4 as [[Heq [Hmn Hincl]]|[Hlt [Hne [r0 [h [Hin Hr]]]]]].
           ++ left. split; [exact Heq|]. split; [exact Hmn|]. intros x Hx. apply Hincl. apply set_insert_in. right. exact Hx.
           ++ right. split; [exact Hlt|]. split; [exact Hne|]. exists r0, h. split; [right; exact Hin | exact Hr].
      * apply N.eqb_neq in Eeq. apply bnl_post_skip, IH, H. intros _ _. lia.
Qed.

(* [d], served by the hosts [names], is the best referral the records [here] offer for [tgt] beyond
   [mc] labels: it encloses [tgt], no candidate among them is deeper, and every host is named by a
   candidate of that depth *)
Definition best_cands (here : rr -> Prop) (tgt : dname) (mc : N) (d : dname) (names : list dname) : Prop :=
  mc < nlabels d /\ is_subdomain_of tgt d = true /\ names <> [] /\
  (exists r h, here r /\ cand tgt r h /\ rr_name r = d) /\
  (forall r h, here r -> cand tgt r h -> nlabels (rr_name r) <= nlabels d) /\
  (forall h, In h names -> exists r, here r /\ cand tgt r h /\ nlabels (rr_name r) = nlabels d).

Lemma gbn_spec rrs tgt mc :
  match get_better_ns_names rrs tgt mc with
  | Some (d, names) => best_cands (fun r => In r rrs) tgt mc d names
  | None => forall r h, In r rrs -> cand tgt r h -> nlabels (rr_name r) <= mc
  end.
Proof.
  unfold get_better_ns_names. destruct (better_ns_loop rrs tgt mc None []) as [mn names] eqn:E.
  destruct (bnl_inv _ _ _ _ _ _ _ E) as [cnt' [H1 [H2 [H3 H4]]]].
  destruct H4 as [[-> [-> _]]|[Hlt [Hne [r [h [Hin [Hc [-> Hl]]]]]]]]; [exact H2|].
  unfold best_cands. rewrite Hl.
  split; [exact Hlt|]. split; [apply Hc|]. split; [exact Hne|].
  split; [exists r, h; auto|]. split; [exact H2|].
  intros h' Hh'. destruct (H3 h' Hh') as [[Heq _]|Hr]; [lia | exact Hr].
Qed.

Lemma fold_set_insert_in : forall (l acc : list dname) x,
  In x (fold_left (fun acc n => set_insert n acc) l acc) <-> In x acc \/ In x l.
Proof.
  induction l as [|n l IH]; intros acc x; cbn [fold_left In]; [tauto|].
  rewrite IH, set_insert_in. split; [intros [[->|H]|H] | intros [H|[->|H]]]; auto.
Qed.

(* more records, none of them a deeper candidate: still the best *)
Lemma best_cands_more (A B C : rr -> Prop) tgt mc d names :
  best_cands A tgt mc d names -> (forall r, C r <-> A r \/ B r) ->
  (forall r h, B r -> cand tgt r h -> nlabels (rr_name r) <= nlabels d) -> best_cands C tgt mc d names.
Proof.
  intros (H1 & H2 & H3 & (r0 & h0 & Hr0 & Hc0) & H5 & H6) HC HB.
  split; [exact H1|]. split; [exact H2|]. split; [exact H3|]. split; [exists r0, h0; rewrite HC; auto|]. split.
  - intros r h Hr Hc. apply HC in Hr. destruct Hr; [eapply H5|eapply HB]; eassumption.
  - intros h Hh. destruct (H6 h Hh) as (r & Hr & Hx). exists r. rewrite HC. auto.
Qed.

(* two sections whose best referrals are equally deep: the first one's name, the hosts of both *)
Lemma best_cands_both (A B : rr -> Prop) tgt mc d1 n1 d2 n2 :
  best_cands A tgt mc d1 n1 -> best_cands B tgt mc d2 n2 -> nlabels d1 = nlabels d2 ->
  best_cands (fun r => A r \/ B r) tgt mc d1 (fold_left (fun acc n => set_insert n acc) n2 n1).
Proof.
  intros (A1 & A2 & A3 & (ra & ha & Hra & Hca) & A5 & A6) (_ & _ & _ & _ & B5 & B6) E.
  split; [exact A1|]. split; [exact A2|]. split; [|split; [exists ra, ha; auto|split]].
  - intro En. assert (Hin : In (hd d1 n1) (fold_left (fun acc n => set_insert n acc) n2 n1)).
    { apply fold_set_insert_in. left. destruct n1; [contradiction | left; reflexivity]. }
    rewrite En in Hin. exact Hin.
  - intros r h [Hr|Hr] Hc; [exact (A5 _ _ Hr Hc) | rewrite E; exact (B5 _ _ Hr Hc)].
  - intros h Hh. apply fold_set_insert_in in Hh. destruct Hh as [Hh|Hh].
    + destruct (A6 h Hh) as (r & Hr & Hx). exists r. auto.
    + destruct (B6 h Hh) as (r & Hr & Hc & Hl). exists r. rewrite E. auto.
Qed.

(* what the choice between the answer and the authority section guarantees *)
Definition deleg_ok (q : question) (mc : N) (resp : message) (d : dname) (names : list dname) : Prop :=
  best_cands (fun r => In r (m_answers resp) \/ In r (m_authority resp)) (q_name q) mc d names.

(* [chosen_of] and [delegation_rrs] below name two inner expressions of validate_nameserver_response
   (the choice between the sections, the records kept for a delegation); validate_deleg_branch is
   the equation that connects them to the model *)
Definition chosen_of (q : question) (resp : message) (mc : N) : option (dname * list dname) :=
  match get_better_ns_names (m_answers resp) (q_name q) mc, get_better_ns_names (m_authority resp) (q_name q) mc with
  | Some (mn1, nss1), Some (mn2, nss2) =>
    let l1 := llen (labels mn1) in let l2 := llen (labels mn2) in
    if l2 <? l1 then Some (mn1, nss1)
    else if l1 =? l2 then Some (mn1, fold_left (fun acc n => set_insert n acc) nss2 nss1)
    else Some (mn2, nss2)
  | Some x, None => Some x
  | None, Some x => Some x
  | None, None => None
  end.

Lemma chosen_ok q resp mc d names : chosen_of q resp mc = Some (d, names) -> deleg_ok q mc resp d names.
Proof.
  unfold chosen_of, deleg_ok.
  pose proof (gbn_spec (m_answers resp) (q_name q) mc) as A. pose proof (gbn_spec (m_authority resp) (q_name q) mc) as B.
  destruct (get_better_ns_names (m_answers resp) (q_name q) mc) as [[d1 n1]|];
  destruct (get_better_ns_names (m_authority resp) (q_name q) mc) as [[d2 n2]|].
  - fold (nlabels d1). fold (nlabels d2).
    destruct (nlabels d2 <? nlabels d1) eqn:C1; [|destruct (nlabels d1 =? nlabels d2) eqn:C2];
      intro H; inversion H; subst d names.
    + apply N.ltb_lt in C1. eapply best_cands_more with (B := fun r => In r (m_authority resp)); [exact A|tauto|].
      intros r h Hr Hc. destruct B as (_ & _ & _ & _ & B5 & _). specialize (B5 r h Hr Hc). lia.
    + apply N.eqb_eq in C2. exact (best_cands_both _ _ _ _ _ _ _ _ A B C2).
    + apply N.ltb_ge in C1. apply N.eqb_neq in C2.
      eapply best_cands_more with (B := fun r => In r (m_answers resp)); [exact B|tauto|].
      intros r h Hr Hc. destruct A as (_ & _ & _ & _ & A5 & _). specialize (A5 r h Hr Hc). lia.
  - intro H; inversion H; subst d names.
    eapply best_cands_more with (B := fun r => In r (m_authority resp)); [exact A|tauto|].
    intros r h Hr Hc. specialize (B r h Hr Hc). destruct A as (A1 & _). lia.
  - intro H; inversion H; subst d names.
    eapply best_cands_more with (B := fun r => In r (m_answers resp)); [exact B|tauto|].
    intros r h Hr Hc. specialize (A r h Hr Hc). destruct B as (B1 & _). lia.
  - discriminate.
Qed.

Lemma ns_glue_filter_true d names allow_ns allow_addr x :
  ns_glue_filter d names allow_ns allow_addr x = true ->
  (exists h, ns_rr x h /\ allow_ns = true /\ rr_name x = d /\ In h names) \/
  (address_rr x /\ allow_addr = true /\ In (rr_name x) names).
Proof.
  unfold ns_glue_filter. destruct (is_ns_rr x) as [h|] eqn:E.
  - rewrite !andb_true_iff, dname_eqb_eq, set_mem_in. intros [[H1 H2] H3]. left. exists h.
    apply is_ns_rr_spec in E. auto.
  - destruct ((rr_type x =? RT_A) || (rr_type x =? RT_AAAA)) eqn:T; [|discriminate].
    rewrite andb_true_iff, set_mem_in. intros [H1 H2]. right. split; [|auto].
    apply orb_true_iff in T. unfold address_rr. rewrite !N.eqb_eq in T. exact T.
Qed.

Lemma deleg_allowed_ns q mc resp d names r h :
  deleg_ok q mc resp d names ->
  (In r (m_answers resp) \/ In r (m_authority resp)) -> cand (q_name q) r h -> nlabels (rr_name r) = nlabels d ->
  allowed_ns q mc resp r.
Proof.
  intros [D1 [D2 [D3 [D4 [D5 D6]]]]] Hin [Hns Hsub] Hl. split.
  - split; [exact Hin|]. split; [exists h; apply is_ns_rr_spec; exact Hns|].
    split; [apply subdomain_is_suffix; exact Hsub | lia].
  - intros r' [Hin' [[h' Hns'] [Hanc _]]]. rewrite Hl. apply (D5 r' h' Hin').
    split; [apply is_ns_rr_spec; exact Hns' | apply subdomain_is_suffix; exact Hanc].
Qed.

Definition delegation_rrs (resp : message) (d : dname) (names : list dname) : list rr :=
  filter (ns_glue_filter d names true true) (m_answers resp)
  ++ filter (ns_glue_filter d names true false) (m_authority resp)
  ++ filter (ns_glue_filter d names false true) (m_additional resp).

Lemma delegation_rrs_allowed q mc resp d names :
  deleg_ok q mc resp d names ->
  Forall (fun x => allowed_ns q mc resp x \/ allowed_glue q mc resp x) (delegation_rrs resp d names).
Proof.
  intro D. pose proof D as [D1 [D2 [D3 [D4 [D5 D6]]]]].
  assert (Hns : forall x h, (In x (m_answers resp) \/ In x (m_authority resp)) -> ns_rr x h -> rr_name x = d ->
                allowed_ns q mc resp x).
  { intros x h Hin Hns Hn. apply (deleg_allowed_ns q mc resp d names x h D Hin); [|rewrite Hn; reflexivity].
    split; [apply is_ns_rr_spec; exact Hns | rewrite Hn; exact D2]. }
  assert (Hglue : forall x, (In x (m_answers resp) \/ In x (m_additional resp)) -> address_rr x -> In (rr_name x) names ->
                  allowed_glue q mc resp x).
  { intros x Hin Ha Hn. split; [exact Hin|]. split; [exact Ha|].
    destruct (D6 _ Hn) as [r [Hr [Hc Hl]]]. exists r. split.
    - exact (deleg_allowed_ns q mc resp d names r _ D Hr Hc Hl).
    - apply is_ns_rr_spec. apply Hc. }
  unfold delegation_rrs. rewrite !Forall_app. repeat split; apply Forall_forall; intros x Hx;
    apply filter_In in Hx; destruct Hx as [Hin Hx]; apply ns_glue_filter_true in Hx;
    destruct Hx as [[h [H1 [H2 [H3 H4]]]]|[H1 [H2 H3]]]; try discriminate.
  - left. apply (Hns x h); auto.
  - right. apply Hglue; auto.
  - left. apply (Hns x h); auto.
  - right. apply Hglue; auto.
Qed.

Lemma wf_name_eq a b : wf_name a -> wf_name b -> labels a = labels b -> a = b.
Proof.
  intros [_ Ha] [_ Hb] E. destruct a as [la na], b as [lb nb]. cbn [labels nlen] in *. subst. reflexivity.
Qed.

Lemma find_single_soa_spec : forall auth acc r,
  find_single_soa auth acc = Some (Some r) ->
  (acc = Some r /\ forall x, In x auth -> rr_type x <> RT_SOA) \/
  (acc = None /\ rr_type r = RT_SOA /\ exists l1 l2, auth = l1 ++ r :: l2 /\ forall x, In x (l1 ++ l2) -> rr_type x <> RT_SOA).
Proof.
  induction auth as [|a auth IH]; intros acc r H; cbn [find_single_soa] in H.
  - inversion H; subst. left. split; [reflexivity | intros x []].
  - destruct (rr_type a =? RT_SOA) eqn:E.
    + apply N.eqb_eq in E. destruct acc as [s|]; [discriminate|].
      destruct (IH _ _ H) as [[Hacc Hno]|[Hacc _]]; [|discriminate].
      inversion Hacc; subst a. right. split; [reflexivity|]. split; [exact E|].
      exists [], auth. split; [reflexivity | exact Hno].
    + apply N.eqb_neq in E. destruct (IH _ _ H) as [[Hacc Hno]|[Hacc [Ht [l1 [l2 [Hl Hno]]]]]].
      * left. split; [exact Hacc|]. intros x [<-|Hx]; [exact E | exact (Hno x Hx)].
      * right. split; [exact Hacc|]. split; [exact Ht|]. exists (a :: l1), l2. split; [rewrite Hl; reflexivity|].
        intros x [<-|Hx]; [exact E | exact (Hno x Hx)].
Qed.

Lemma soa_sound q resp mc r :
  get_nxdomain_nodata_soa q resp mc = Some r -> allowed_soa q mc resp r.
Proof.
  unfold get_nxdomain_nodata_soa, allowed_soa.
  destruct (m_answers resp) as [|a an] eqn:Ean; cbn [is_nil negb]; [|discriminate].
  destruct ((h_rcode (m_header resp) =? RCODE_NameError) || (h_rcode (m_header resp) =? RCODE_NoError)) eqn:Erc;
    cbn [negb]; [|discriminate].
  destruct (find_single_soa (m_authority resp) None) as [[s|]|] eqn:Ef; try discriminate.
  destruct (is_subdomain_of (q_name q) (rr_name s)) eqn:Esub; cbn [negb]; [|discriminate].
  destruct (llen (labels (rr_name s)) <? mc) eqn:Elt; [discriminate|].
  intro H; inversion H; subst s. clear H.
  destruct (find_single_soa_spec _ _ _ Ef) as [[Hacc _]|[_ [Ht Hl]]]; [discriminate|].
  split; [reflexivity|]. split.
  { apply orb_true_iff in Erc. rewrite !N.eqb_eq in Erc. tauto. }
  split; [exact Ht|]. split; [exact Hl|]. split; [apply subdomain_is_suffix; exact Esub|].
  apply N.ltb_ge in Elt. exact Elt.
Qed.

Definition result_rrs (r : nsresponse) : list rr :=
  match r with
  | NRAnswer rrs soa => rrs ++ match soa with Some s => [s] | None => [] end
  | NRCname rrs _ => rrs
  | NRDelegation rrs _ => rrs
  end.

Lemma validate_deleg_branch q resp mc :
  follow_cnames (m_answers resp) (q_name q) (q_type q) = Ok None ->
  validate_nameserver_response q resp mc =
  match chosen_of q resp mc with
  | None => Ok (option_map (fun soa => NRAnswer [] (Some soa)) (get_nxdomain_nodata_soa q resp mc))
  | Some (d, names) =>
    Ok (Some (NRDelegation (delegation_rrs resp d names) {| ns_hostnames := names; ns_name := d |}))
  end.
Proof.
  intro H. unfold validate_nameserver_response, chosen_of, delegation_rrs. rewrite H.
  destruct (get_better_ns_names (m_answers resp) (q_name q) mc) as [[d1 n1]|];
  destruct (get_better_ns_names (m_authority resp) (q_name q) mc) as [[d2 n2]|]; reflexivity.
Qed.

Theorem path_fuel_suffices answers qname qt f m k :
  follow_cnames answers qname qt = Ok (Some (f, m)) ->
  path_cnames (S (length m) + k) answers m f qname = path_cnames (S (length m)) answers m f qname.
Proof.
  intro Hf. destruct (follow_cases _ _ _ _ _ Hf) as [_ [[_ [-> _]]|[_ [l [Hp [Hn [Hnd _]]]]]]].
  - cbn [plus]. rewrite !path_cnames_at_final. reflexivity.
  - pose proof (mpath_length_le _ _ _ _ Hp Hnd).
    apply (path_cnames_fuel_irrelevant answers m l qname f Hp Hn); lia.
Qed.

Theorem follow_terminates rrs tgt qt : follow_cnames rrs tgt qt <> OutOfFuel.
Proof. destruct (follow_total rrs tgt qt) as [o H]. rewrite H. discriminate. Qed.

Theorem never_panics q resp mc : exists o, validate_nameserver_response q resp mc = Ok o.
Proof.
  destruct (follow_total (m_answers resp) (q_name q) (q_type q)) as [[[f m]|] H].
  - destruct (validate_answer_live q resp mc f m H) as [r Hr]. rewrite Hr. eexists; reflexivity.
  - rewrite (validate_deleg_branch _ _ _ H). destruct (chosen_of q resp mc) as [[d names]|]; eexists; reflexivity.
Qed.

(* per variant: what each record of the result is *)
Theorem filter_sound_strong q resp mc r :
  validate_nameserver_response q resp mc = Ok (Some r) ->
  match r with
  | NRAnswer rrs None => Forall (allowed_answer q resp) rrs
  | NRAnswer rrs (Some s) => rrs = [] /\ allowed_soa q mc resp s
  | NRCname rrs _ => Forall (allowed_answer q resp) rrs
  | NRDelegation rrs _ => Forall (fun x => allowed_ns q mc resp x \/ allowed_glue q mc resp x) rrs
  end.
Proof.
  intro Hv. destruct (follow_total (m_answers resp) (q_name q) (q_type q)) as [[[f m]|] H].
  - destruct (validate_answer_shape _ _ _ _ _ _ H Hv) as [cn [fin [_ [Hall [[-> _]|[-> [-> _]]]]]]].
    + exact Hall.
    + rewrite app_nil_r in Hall. exact Hall.
  - rewrite (validate_deleg_branch _ _ _ H) in Hv. destruct (chosen_of q resp mc) as [[d names]|] eqn:C.
    + inversion Hv; subst r. apply delegation_rrs_allowed. apply chosen_ok. exact C.
    + destruct (get_nxdomain_nodata_soa q resp mc) as [s|] eqn:S; cbn [option_map] in Hv; [|discriminate].
      inversion Hv; subst r. split; [reflexivity | apply soa_sound; exact S].
Qed.

Theorem filter_sound q resp mc r :
  validate_nameserver_response q resp mc = Ok (Some r) -> Forall (allowed q mc resp) (result_rrs r).
Proof.
  intro Hv. apply filter_sound_strong in Hv. unfold allowed.
  destruct r as [rrs [s|]|rrs c|rrs d]; cbn [result_rrs].
  - destruct Hv as [-> Hs]. cbn [app]. constructor; [tauto | constructor].
  - rewrite app_nil_r. eapply Forall_impl; [|exact Hv]. cbn beta. tauto.
  - eapply Forall_impl; [|exact Hv]. cbn beta. tauto.
  - eapply Forall_impl; [|exact Hv]. cbn beta. tauto.
Qed.

(* Answer / CNAME results are the chain from the question name, in order *)
Theorem filter_chain_ok q resp mc r :
  validate_nameserver_response q resp mc = Ok (Some r) ->
  match r with
  | NRAnswer rrs None =>
    exists cn fin last, rrs = cn ++ fin /\ fin <> [] /\ vchain_ok (q_name q) (q_type q) cn fin last
  | NRAnswer rrs (Some _) => rrs = []
  | NRCname rrs c => rrs <> [] /\ vchain_ok (q_name q) (q_type q) rrs [] c
  | NRDelegation _ _ => True
  end.
Proof.
  intro Hv. destruct (follow_total (m_answers resp) (q_name q) (q_type q)) as [[[f m]|] H].
  - destruct (validate_answer_shape _ _ _ _ _ _ H Hv) as [cn [fin [Hch [_ [[-> Hne]|[-> [-> Hne]]]]]]].
    + exists cn, fin, f. auto.
    + auto.
  - rewrite (validate_deleg_branch _ _ _ H) in Hv. destruct (chosen_of q resp mc) as [[d names]|] eqn:C.
    + inversion Hv; subst r. exact I.
    + destruct (get_nxdomain_nodata_soa q resp mc) as [s|] eqn:S; cbn [option_map] in Hv; [|discriminate].
      inversion Hv; subst r. reflexivity.
Qed.

Lemma validate_delegation_inv q resp mc rrs d :
  validate_nameserver_response q resp mc = Ok (Some (NRDelegation rrs d)) ->
  deleg_ok q mc resp (ns_name d) (ns_hostnames d) /\ rrs = delegation_rrs resp (ns_name d) (ns_hostnames d).
Proof.
  intro Hv. destruct (follow_total (m_answers resp) (q_name q) (q_type q)) as [[[f m]|] H].
  - destruct (validate_answer_shape _ _ _ _ _ _ H Hv) as [cn [fin [_ [_ [[E _]|[E _]]]]]]; discriminate.
  - rewrite (validate_deleg_branch _ _ _ H) in Hv. destruct (chosen_of q resp mc) as [[d' names]|] eqn:C.
    + inversion Hv; subst. cbn [ns_name ns_hostnames]. split; [apply chosen_ok; exact C | reflexivity].
    + destruct (get_nxdomain_nodata_soa q resp mc); discriminate.
Qed.

(* a referral is strictly closer to the question name than the delegation in use *)
Theorem delegation_progress q resp mc rrs d :
  validate_nameserver_response q resp mc = Ok (Some (NRDelegation rrs d)) ->
  mc < ns_match_count d /\ is_subdomain_of (q_name q) (ns_name d) = true /\
  ancestor_or_self (ns_name d) (q_name q).
Proof.
  intro Hv. destruct (validate_delegation_inv _ _ _ _ _ Hv) as [[D1 [D2 _]] _].
  split; [exact D1|]. split; [exact D2 | apply subdomain_is_suffix; exact D2].
Qed.

Theorem delegation_hostnames_nonempty q resp mc rrs d :
  validate_nameserver_response q resp mc = Ok (Some (NRDelegation rrs d)) -> ns_hostnames d <> [].
Proof. intro Hv. destruct (validate_delegation_inv _ _ _ _ _ Hv) as [[_ [_ [D3 _]]] _]. exact D3. Qed.

(* every host of the delegation is the target of an NS record of the delegated
   name that is among the accepted records (owners as a decoder produces them) *)
Theorem delegation_hostnames_named q resp mc rrs d :
  Forall (fun r => wf_name (rr_name r)) (m_answers resp ++ m_authority resp) ->
  validate_nameserver_response q resp mc = Ok (Some (NRDelegation rrs d)) ->
  forall h, In h (ns_hostnames d) -> exists r, In r rrs /\ ns_rr r h /\ rr_name r = ns_name d.
Proof.
  intros Hwf Hv h Hh.
  destruct (validate_delegation_inv _ _ _ _ _ Hv) as [[D1 [D2 [D3 [[r0 [h0 [Hr0 [Hc0 Hn0]]]] [D5 D6]]]]] ->].
  destruct (D6 h Hh) as [r [Hr [[Hns Hsub] Hl]]].
  rewrite Forall_forall in Hwf.
  assert (Hname : rr_name r = ns_name d).
  { apply wf_name_eq.
    - apply Hwf. apply in_app_iff. exact Hr.
    - rewrite <- Hn0. apply Hwf. apply in_app_iff. exact Hr0.
    - unfold nlabels, llen in Hl. apply Nnat.Nat2N.inj in Hl.
      apply subdomain_is_suffix in Hsub, D2.
      destruct (suffix_comparable _ _ _ Hsub D2) as [S|S]; [|symmetry]; apply (is_suffix_len_eq _ _ S); congruence. }
  exists r. split; [|split; [apply is_ns_rr_spec; exact Hns | exact Hname]].
  assert (Hf : forall b, ns_glue_filter (ns_name d) (ns_hostnames d) true b r = true).
  { intro b. unfold ns_glue_filter. rewrite Hns, Hname, dname_eqb_refl. cbn [andb]. apply set_mem_in. exact Hh. }
  unfold delegation_rrs. rewrite !in_app_iff. destruct Hr as [Hr|Hr].
  - left. apply filter_In. auto.
  - right. left. apply filter_In. auto.
Qed.

(* without the well-formedness hypothesis: named by an NS record of the reply with
   as many labels as the delegated name, owned by an ancestor of the question name *)
Theorem delegation_hostnames_named_weak q resp mc rrs d :
  validate_nameserver_response q resp mc = Ok (Some (NRDelegation rrs d)) ->
  forall h, In h (ns_hostnames d) -> exists r, allowed_ns q mc resp r /\ ns_rr r h.
Proof.
  intros Hv h Hh. destruct (validate_delegation_inv _ _ _ _ _ Hv) as [D _].
  pose proof D as [_ [_ [_ [_ [_ D6]]]]]. destruct (D6 h Hh) as [r [Hr [Hc Hl]]].
  exists r. split; [exact (deleg_allowed_ns _ _ _ _ _ _ _ D Hr Hc Hl) | apply is_ns_rr_spec; apply Hc].
Qed.

Definition questions_eqb : list question -> list question -> bool :=
  fix qeq (a b : list question) : bool :=
    match a, b with
    | [], [] => true
    | x :: a', y :: b' => question_eqb x y && qeq a' b'
    | _, _ => false
    end.

Lemma questions_eqb_eq : forall a b, questions_eqb a b = true <-> a = b.
Proof.
  induction a as [|x a IH]; intros [|y b]; cbn [questions_eqb]; split; intro H; try reflexivity; try discriminate.
  - apply andb_true_iff in H. destruct H as [H1 H2]. apply question_eqb_eq in H1. apply IH in H2. congruence.
  - inversion H; subst. apply andb_true_iff. split; [apply question_eqb_eq; reflexivity | apply IH; reflexivity].
Qed.

Theorem header_gate request response :
  response_matches_request request response = true <-> gate_ok request response.
Proof.
  unfold response_matches_request, gate_ok. fold questions_eqb.
  rewrite !andb_true_iff, orb_true_iff, negb_true_iff, !N.eqb_eq, questions_eqb_eq. tauto.
Qed.

(* query_nameserver returns only what passed the gate for ITS request *)
Theorem gate_sound id q rd t r :
  query_nameserver id q rd t = Ok (Some r) ->
  gate_ok (request_of id q rd) r /\
  h_id (m_header r) = id /\ h_opcode (m_header r) = OPCODE_Standard /\ m_questions r = [q].
Proof.
  intro H. assert (G : gate_ok (request_of id q rd) r).
  { apply header_gate. unfold query_nameserver in H.
    destruct (encode (request_of id q rd)) as [bs| | |]; try discriminate.
    destruct (query_nameserver_udp bs t) as [[u|]| | |]; cbn [bind] in H; try discriminate.
    - destruct (response_matches_request (request_of id q rd) u) eqn:E.
      + inversion H; subst. exact E.
      + destruct (query_nameserver_tcp t) as [[c|]| | |]; cbn [bind] in H; try discriminate.
        destruct (response_matches_request (request_of id q rd) c) eqn:E2; inversion H; subst. exact E2.
    - destruct (query_nameserver_tcp t) as [[c|]| | |]; cbn [bind] in H; try discriminate.
      destruct (response_matches_request (request_of id q rd) c) eqn:E2; inversion H; subst. exact E2. }
  split; [exact G|]. destruct G as [G1 [_ [G3 [_ [_ G6]]]]]. cbn in G1, G3, G6. auto.
Qed.

(* get_ip (used on the cached / returned records of a nameserver host) is total too *)
Theorem get_ip_total rrs tgt rtype : exists o, get_ip rrs tgt rtype = Ok o.
Proof.
  unfold get_ip. destruct (follow_total rrs tgt QT_Wildcard) as [[[f m]|] H]; rewrite H; [|eexists; reflexivity].
  destruct (get_record rrs f rtype) as [r|]; [|eexists; reflexivity].
  destruct (rr_data r); eexists; reflexivity.
Qed.

(* for a concrete record type asked, vchain_ok is chain_ok of Resolver/LocalSpec.v (C10) *)
Theorem vchain_chain_ok qname qt cn fin last :
  qt <> QT_Wildcard -> vchain_ok qname qt cn fin last -> chain_ok qname qt (cn ++ fin).
Proof.
  intros Hq [H1 [H2 [H3 _]]]. exists cn, fin, last. repeat split; try assumption.
  eapply Forall_impl; [|exact H3]. cbn beta. intros r [Hn [Hm _]]. split; [exact Hn|].
  apply rtype_matches_concrete; assumption.
Qed.
