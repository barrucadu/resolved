(* Resolver/RecursiveMultiZone.v -- C07 with servers AUTHORITATIVE FOR SEVERAL ZONES of one
   delegation chain.

   Universe.serve answers from the server's closest zone for the question name.  When the server the
   resolver asks for the zone [zi] of the chain also holds a zone [zj] further down the chain, its
   reply is [zj]'s: the referral to z(j+1), or the answer itself when zj owns the name.  The hops
   zi+1 .. zj are skipped: the result is unchanged, the log gets shorter (one exchange per zone of a
   SUBSEQUENCE of the chain), the NS sets of the skipped zones are not cached.

   The inductions of RecursiveModes.v and RecursiveGlueless.v carry the flag [multi]; with
   [multi = true] the address clause of the hypotheses is the WEAKENED one ([lands]):

       every address record of a nameserver host of the zone zi leads to a server whose closest zone
       for the question name is zi OR A ZONE OF THE CHAIN BELOW zi.

   The theorems for [multi = true] are C07_correct_multizone and C07_correct_multizone_real_cache of
   Properties/C07.v.  This file shows that the weakened hypotheses follow from the strict ones (so
   those theorems subsume C07_correct_modes / _glueless up to the shape of the log), and gives a
   worked universe. *)
From RV Require Import Base.Prelude Name.NameModel Wire.WireTypes Zone.ZoneModel Resolver.LocalModel
     Resolver.TransportModel Resolver.RecursiveModel Resolver.ForwardingModel Resolver.Universe
     Resolver.RecursiveCorrect Resolver.RecursiveDepth1 Resolver.RecursiveChain
     Resolver.RecursiveWarm Resolver.RecursiveModes Resolver.UniverseCheck.

Section Weaken.
  Variable u : universe.
  Variable hints : list rr.
  Variable mode : protocol_mode.
  Variable G : dname -> Prop.
  Variable q : question.

  Lemma lands_weaken a z below : lands u false q a z below -> lands u true q a z below.
  Proof. unfold lands. intro H. exists z. split; [left; reflexivity|exact H]. Qed.

  Lemma host_okm_weaken z below h : host_okm u hints false q z below h -> host_okm u hints true q z below h.
  Proof.
    intros (H1 & H2 & H3 & H4). split; [exact H1|]. split; [|split; [|exact H4]].
    - intros r Hr Hn Ht. destruct (H2 r Hr Hn Ht) as (a & Ha & Hl). exists a. split; [exact Ha|apply lands_weaken, Hl].
    - intros g Hg Hl Ht. destruct (H3 g Hg Hl Ht) as (a & Ha & Hl'). exists a. split; [exact Ha|apply lands_weaken, Hl'].
  Qed.

  Lemma hosts_okm_weaken z below : hosts_okm u hints false q z below -> hosts_okm u hints true q z below.
  Proof. intros H h Hh. apply host_okm_weaken, H, Hh. Qed.

  Lemma wlinkm_weaken zp zc below : wlinkm u hints mode false G q zp zc below -> wlinkm u hints mode true G q zp zc below.
  Proof.
    intros (H1 & H2 & H3 & H4 & H5 & H6). repeat (split; [assumption|]). apply hosts_okm_weaken, H6.
  Qed.

  Lemma wchainm_weaken zk : forall rest z, wchainm u hints mode false G q zk z rest -> wchainm u hints mode true G q zk z rest.
  Proof.
    induction rest as [|zc rest IH]; intros z H; cbn [wchainm] in *; [exact H|].
    destruct H as [Hl Hr]. split; [apply wlinkm_weaken, Hl|apply IH, Hr].
  Qed.

  Lemma walkm_weaken zroot rest zk : walkm u hints mode false G q zroot rest zk -> walkm u hints mode true G q zroot rest zk.
  Proof.
    intros [H1 H2 H3 H4 H5 H6 H7 H8]. constructor; try assumption.
    - apply hosts_okm_weaken, H5.
    - apply wchainm_weaken, H6.
  Qed.

  Lemma warm_questionm_weaken zroot rest zk :
    warm_questionm u hints mode false G q zroot rest zk -> warm_questionm u hints mode true G q zroot rest zk.
  Proof. intros (H1 & H2 & H3). split; [apply walkm_weaken, H1|auto]. Qed.
End Weaken.

(* [outcomem] with [multi], spelt out: the zones used are a subsequence of the chain that ends with
   the owning zone *)
Lemma outcomem_multi cache cache_get port u hints mode q zroot rest zk c r :
  outcomem cache cache_get port u hints mode true q zroot rest zk c r ->
  exists rrs c' ts',
    r = (Ok (NonAuthoritative rrs (aa_soa (auth_answer u q))), (c', ts'))
    /\ consistentm u hints mode (fun _ => False) cache cache_get c'
    /\ ((ts_log ts' = [] /\ c' = c /\ rrs = cache_get c (q_name q) (q_type q) /\ rrs <> []
         /\ same_data rrs (aa_rrs (auth_answer u q)))
        \/ (rrs = aa_rrs (auth_answer u q) /\ cache_get c (q_name q) (q_type q) = []
            /\ exists used, subseq used (zroot :: rest) /\ (exists used0, used = used0 ++ [zk])
                 /\ Forall2 (fun z e => exists a, query_toi port q a e /\ serves_owner u a z q) used (ts_log ts'))).
Proof.
  intros (rrs & c' & ts' & E & HC & Hcases). exists rrs, c', ts'. split; [exact E|]. split; [exact HC|].
  destruct Hcases as [H|(H1 & H2 & used & H3 & H4 & _ & H5)]; [left; exact H|right].
  split; [exact H1|]. split; [exact H2|]. exists used. auto.
Qed.

Lemma chain_logm_length u port q used es : chain_logm u port q used es -> length es = length used.
Proof. intro H. induction H; cbn [length]; [reflexivity|]. rewrite IHForall2. reflexivity. Qed.

(* a worked universe: the depth-3 chain with the server of com. also holding example.com. *)
Definition z3_universe : universe :=
  {| u_zones := [c3_root; c3_com; c3_ex; c3_sub];
     u_servers := [(inl c3_ip0, [root_domain]); (inl c3_ip1, [c3_n_com; c3_n_ex]); (inl c3_ip2, [c3_n_ex]); (inl c3_ip3, [c3_n_sub])] |}.

Lemma z3_consistent : consistentb z3_universe = true.
Proof. vm_compute. reflexivity. Qed.

Lemma z3_universe_ns_ok : universe_ns_ok z3_universe.
Proof. apply universe_ns_okb_sound. vm_compute. reflexivity. Qed.

Lemma z3_plain_question q : (q = c3_q \/ q = c3_q_mx) -> plain_question z3_universe q.
Proof. intros [-> | ->]; apply plain_questionb_sound; vm_compute; reflexivity. Qed.

Lemma z3_warm_question q : (q = c3_q \/ q = c3_q_mx) ->
  warm_questionm z3_universe c3_hints OnlyV4 true (fun _ => False) q c3_root [c3_com; c3_ex; c3_sub] c3_sub.
Proof.
  intro Hq. apply warm_questionmb_sound with (Gb := fun _ => false); [discriminate|].
  destruct Hq as [-> | ->]; vm_compute; reflexivity.
Qed.

Notation z3_run q c :=
  (resolve scache sc_get sc_insert_all sort_names_ord (ModeRecursive OnlyV4) 53 (zones_insert [] c3_hz)
           (universe_oracle z3_universe []) 5%nat q (c, tstate_init)).

(* the hypotheses are satisfiable (the strict ones are not: 10.0.0.2, the address of ns.com., is a
   server whose closest zone for the name is example.com., not com.), and what the theorem then says *)
Example multizone_example :
  outcomem scache sc_get 53 z3_universe c3_hints OnlyV4 true c3_q c3_root [c3_com; c3_ex; c3_sub] c3_sub sc_empty (z3_run c3_q sc_empty)
  /\ ~ serves_owner z3_universe (inl c3_ip1) c3_com c3_q.
Proof.
  split.
  - exact (modes_correct scache sc_get sc_insert_all sc_cache_laws sort_names_ord sort_names_ord_perm 53 z3_universe z3_universe_ns_ok c3_hints c3_hz
             c3_hz_built OnlyV4 true c3_q c3_root [c3_com; c3_ex; c3_sub] c3_sub sc_empty 5%nat (z3_warm_question _ (or_introl eq_refl))
             (z3_plain_question _ (or_introl eq_refl)) (emptym_consistent _ _ _ _ _ _ sc_empty sc_empty_get) (le_n 5)).
  - intros (zs & Hz & Hb). vm_compute in Hz. injection Hz as <-. vm_compute in Hb. discriminate Hb.
Qed.

(* the same run evaluated inside Coq: three exchanges instead of four -- the root server, then
   10.0.0.2 (asked as a server of com., it answers from example.com.: the referral to sub.example.com.),
   then 10.0.0.4; the answer is the same; the NS set of example.com. was never cached *)
Example multizone_example_eval :
  let r := z3_run c3_q sc_empty in
  fst r = Ok (NonAuthoritative [c3_rr c3_n_www RT_A 300 (RD_A 3221225985)] None)
  /\ map x_addr (ts_log (snd (snd r))) = [(inl c3_ip0, 53); (inl c3_ip1, 53); (inl c3_ip3, 53)]
  /\ sc_get (fst (snd r)) c3_n_ex RT_NS = [] /\ sc_get (fst (snd r)) c3_n_sub RT_NS <> []
  /\ consistentb z3_universe = true.
Proof. vm_compute. repeat split. discriminate. Qed.
