(* Resolver/LocalProofs.v -- lemmas about resolve_local and resolve() in authoritative-only mode (local
   part of C01 and C10), [zones_answers_ok] from a decidable invariant, and a worked configuration. *)
From RV Require Import Zone.ZoneProofs.
From RV Require Import Base.Prelude Name.NameModel Name.NameSpec Name.NameProofs Wire.WireTypes
     Zone.ZoneModel Resolver.LocalModel Resolver.LocalSpec.

Definition subq (q : question) (name : dname) : question :=
  {| q_name := name; q_type := q_type q; q_class := q_class q |}.

Lemma subq_self q : subq q (q_name q) = q.
Proof. destruct q; reflexivity. Qed.

(* what the zone-CNAME branch makes of the target's resolution *)
Definition zcombine (r : rr) (cq : question) (sub : res rerror lresult) : res rerror lresult :=
  match sub with
  | Ok (LDone (Authoritative cname_rrs soa_rr)) => Ok (LDone (Authoritative ([r] ++ cname_rrs) soa_rr))
  | Ok (LDone (AuthoritativeNameError soa_rr)) => Ok (LDone (Authoritative [r] soa_rr))
  | Ok (LDone (NonAuthoritative cname_rrs soa_rr)) => Ok (LDone (NonAuthoritative ([r] ++ cname_rrs) soa_rr))
  | Ok (LPartial cname_rrs) => Ok (LPartial ([r] ++ cname_rrs))
  | Ok (LCname cname_rrs cq') => Ok (LCname ([r] ++ cname_rrs) cq')
  | Ok (LDelegation _ _ _) => Ok (LCname [r] cq)
  | Err _ => Ok (LCname [r] cq)
  | Panic => Panic
  | OutOfFuel => OutOfFuel
  end.

(* what the cache-CNAME branch makes of the target's resolution *)
Definition ccombine (cname_rr : rr) (cname : dname) (sub : res rerror lresult)
  : res rerror (list rr * option dname) :=
  match sub with
  | Ok (LDone resolved) => Ok ([cname_rr] ++ resolved_rrs resolved, None)
  | Ok (LPartial rrs) => Ok ([cname_rr] ++ rrs, None)
  | Ok (LCname rrs cq) => Ok ([cname_rr] ++ rrs, Some (q_name cq))
  | Ok (LDelegation _ _ _) => Ok ([cname_rr], Some cname)
  | Err _ => Ok ([cname_rr], Some cname)
  | Panic => Panic
  | OutOfFuel => OutOfFuel
  end.

Section Step.
  Variable zs : zones.
  Variable cget : dname -> N -> list rr.

  Definition zone_phase (q : question) (sub : dname -> res rerror lresult) : zphase :=
    match zones_resolve zs (q_name q) (q_type q) with
    | None => ZContinue []
    | Some (zone, Panic) => ZFinal Panic
    | Some (zone, OutOfFuel) => ZFinal OutOfFuel
    | Some (zone, Err _) => ZFinal Panic
    | Some (zone, Ok zr) =>
      match zr with
      | ZAnswer rrs =>
        match zone_soa_rr zone with
        | Some soa_rr => ZFinal (Ok (LDone (Authoritative rrs soa_rr)))
        | None =>
          if negb (q_type q =? QT_Wildcard) && negb (is_nil rrs)
          then ZFinal (Ok (LDone (NonAuthoritative rrs None)))
          else ZContinue rrs
        end
      | ZCname cname r => ZFinal (zcombine r (subq q cname) (sub cname))
      | ZDelegation ns_rrs =>
        match zone_soa_rr zone with
        | Some soa_rr =>
          match ns_rrs with
          | [] => ZFinal (Err (ELocalDelegationMissingNS (z_apex zone) (q_name q)))
          | first :: _ =>
            ZFinal (Ok (LDelegation ns_rrs (Some soa_rr)
                                    {| ns_hostnames := ns_hostnames_of ns_rrs; ns_name := rr_name first |}))
          end
        | None => ZContinue []
        end
      | ZNameError =>
        match zone_soa_rr zone with
        | Some soa_rr => ZFinal (Ok (LDone (AuthoritativeNameError soa_rr)))
        | None => ZContinue []
        end
      end
    end.

  Definition cache_part (q : question) (sub : dname -> res rerror lresult) : res rerror (list rr * option dname) :=
    let from_cache := cget (q_name q) (q_type q) in
    if is_nil from_cache && negb (q_type q =? RT_CNAME) then
      match cget (q_name q) RT_CNAME with
      | [] => Ok (from_cache, None)
      | cname_rr :: _ =>
        match (if rr_type cname_rr =? RT_CNAME then rr_data cname_rr else RD_A 0) with
        | RD_Name cname => ccombine cname_rr cname (sub cname)
        | _ => Err (ECacheTypeMismatch RT_CNAME (rr_type cname_rr))
        end
      end
    else Ok (from_cache, None).

  Definition cache_phase (q : question) (sub : dname -> res rerror lresult) (rrs_from_zone : list rr)
    : res rerror lresult :=
    match cache_part q sub with
    | Ok (rrs_from_cache, final_cname) =>
      let rrs := prioritising_merge rrs_from_zone rrs_from_cache in
      if is_nil rrs then Err (EDeadEnd q)
      else match final_cname with
           | Some c => Ok (LCname rrs (subq q c))
           | None => if q_type q =? QT_Wildcard then Ok (LPartial rrs)
                     else Ok (LDone (NonAuthoritative rrs None))
           end
    | Err e => Err e
    | Panic => Panic
    | OutOfFuel => OutOfFuel
    end.

  Definition local_step (q : question) (sub : dname -> res rerror lresult) : res rerror lresult :=
    match zone_phase q sub with
    | ZFinal r => r
    | ZContinue rrs_from_zone => cache_phase q sub rrs_from_zone
    end.

  (* resolve_local is: the two guards, then one step whose only recursive calls are on
     the stack extended by the current question *)
  Lemma resolve_local_eq f stack q :
    resolve_local zs cget (S f) stack q =
    if at_recursion_limit stack then Err ERecursionLimit
    else if is_duplicate_question stack q then Err (EDuplicateQuestion q)
    else local_step q (fun name => resolve_local zs cget f (stack ++ [q]) (subq q name)).
  Proof. reflexivity. Qed.
End Step.

(* ZoneModel never runs out of fuel, never returns Err *)

Lemma zrh_shape name qt recs nsd cd :
  zone_result_helper name qt recs nsd cd <> OutOfFuel /\ (forall e, zone_result_helper name qt recs nsd cd <> Err e) /\
  forall ns, zone_result_helper name qt recs nsd cd = Ok (ZDelegation ns) -> cd = true /\ rmap_has RT_NS recs = true.
Proof.
  unfold zone_result_helper, rmap_has.
  destruct (cd && negb (qt =? RT_NS) && negb (is_nil match alookup N.eqb RT_NS recs with Some l => l | None => [] end)) eqn:E.
  - split; [discriminate|]. split; [intro; discriminate|]. intros _ _.
    apply andb_true_iff in E as [E E2]. apply andb_true_iff in E as [E _]. split; [exact E|].
    destruct (alookup N.eqb RT_NS recs) as [[|x l]|]; [discriminate E2|reflexivity|discriminate E2].
  - destruct (if negb (rtype_matches RT_CNAME qt) then match alookup N.eqb RT_CNAME recs with Some l => l | None => [] end else []) as [|z t].
    + destruct (qt =? QT_Wildcard); [repeat split; try discriminate; intros; discriminate|].
      destruct (existsb _ qtype_table); repeat split; try discriminate; intros; discriminate.
    + destruct (zr_data z); repeat split; try discriminate; intros; discriminate.
Qed.

(* a zone lookup ends in zone_result_helper or in one of three fixed outcomes *)
Lemma node_resolve_leaf name qt (P : res unit zresult -> Prop) :
  (forall recs nsd cd, P (zone_result_helper name qt recs nsd cd)) ->
  P Panic -> P (Ok ZNameError) -> (forall ns, P (Ok (ZDelegation ns))) ->
  forall rp nd ia, P (node_resolve name qt rp nd ia).
Proof.
  intros Hz Hp Hn Hd. induction rp as [|l rest IH]; intros nd ia; cbn [node_resolve]; [apply Hz|].
  destruct (alookup leqb l (n_children nd)) as [child|]; [apply IH|].
  destruct (n_wild nd) as [w|].
  - destruct (from_labels (l :: labels (n_nsdname nd))); [apply Hz|exact Hp].
  - destruct (alookup N.eqb RT_NS (n_this nd)) as [ns|]; [|exact Hn]. destruct (is_nil ns || ia); [exact Hn|apply Hd].
Qed.

Lemma node_resolve_shape name qt rp nd ia :
  node_resolve name qt rp nd ia <> OutOfFuel /\ (forall e, node_resolve name qt rp nd ia <> Err e).
Proof.
  apply (node_resolve_leaf name qt (fun r => r <> OutOfFuel /\ forall e, r <> Err e)); intros;
    [split; apply zrh_shape|split; [discriminate|intro; discriminate]..].
Qed.

Lemma zones_resolve_shape zs name qt z r :
  zones_resolve zs name qt = Some (z, r) -> r <> OutOfFuel /\ (forall e, r <> Err e).
Proof.
  unfold zones_resolve. destruct (zones_get zs name) as [z0|]; [|discriminate].
  unfold zone_resolve. destruct (relative_rp z0 name) as [rp|]; cbn [option_map].
  - intro H; inversion H; subst. apply node_resolve_shape.
  - intro H; inversion H; subst. split; [discriminate|intro; discriminate].
Qed.

Lemma zones_resolve_get zs name qt z r : zones_resolve zs name qt = Some (z, r) -> zones_get zs name = Some z.
Proof.
  unfold zones_resolve. destruct (zones_get zs name) as [z0|]; [|discriminate].
  destruct (zone_resolve z0 name qt); intro H; inversion H; reflexivity.
Qed.

(* owned names are never referred elsewhere *)

Lemma owned_no_delegation zs n z qt r :
  owned_by zs n z -> zones_resolve zs n qt = Some (z, r) -> forall ns, r <> Ok (ZDelegation ns).
Proof.
  intros (Hg & _ & rp & Hrp & Hnd) H ns. unfold zones_resolve in H. rewrite Hg in H.
  unfold zone_resolve in H. rewrite Hrp in H. cbn [option_map] in H. inversion H; subst.
  (* the lookup stops at the node [nd] reached by [pre], with [rem] left over *)
  destruct (resolve_descend n qt rp (z_records z) true) as (pre & rem & nd & E & Hat & Hno & ->).
  destruct (Hnd pre rem nd E Hat) as [Hns Hw]. destruct rem as [|l rem]; cbn [node_resolve]; [|rewrite Hno].
  - intro Ez. apply zrh_shape in Ez as [Hcd Hh]. unfold has_ns in Hns.
    destruct pre; [discriminate Hcd|rewrite Hns in Hh; discriminate].
  - specialize (Hw ltac:(discriminate)). unfold wild_has_ns in Hw. destruct (n_wild nd) as [w|].
    + destruct (from_labels (l :: labels (n_nsdname nd))); [|discriminate].
      intro Ez. apply zrh_shape in Ez as [_ Hh]. congruence.
    + destruct (alookup N.eqb RT_NS (n_this nd)) as [nsl|] eqn:En; [|discriminate].
      destruct pre as [|l0 pre]; [rewrite orb_true_r; discriminate|].
      specialize (Hns ltac:(discriminate)). unfold has_ns, rmap_has in Hns. rewrite En in Hns.
      destruct nsl; discriminate.
Qed.

Lemma zone_soa_rr_some z : z_soa z <> None -> exists s, zone_soa_rr z = Some s.
Proof. unfold zone_soa_rr. destruct (z_soa z) as [s|]; [intros _; eexists; reflexivity|congruence]. Qed.
Lemma zone_soa_rr_none z : zone_soa_rr z = None -> z_soa z = None.
Proof. unfold zone_soa_rr. destruct (z_soa z); [discriminate|reflexivity]. Qed.

Definition guards_pass (stack : list question) (q : question) : Prop :=
  at_recursion_limit stack = false /\ is_duplicate_question stack q = false.

Lemma guards_pass_nil q : guards_pass [] q.
Proof. split; reflexivity. Qed.

Section Fuel.
  Variable zs : zones.
  Variable cget : dname -> N -> list rr.

  Definition zone_panics : Prop := exists n qt z, zones_resolve zs n qt = Some (z, Panic).

  (* where each kind of outcome of a step comes from: running out of fuel, a panic and a partial
     answer for a concrete type only from the nested call; a name error and a referral only from the
     zone's own answer for the question name; the three errors a step can raise itself.  Errors of
     the nested call never surface: zcombine / ccombine turn them into a partial chain. *)
  Definition step_kind (q : question) (sub : dname -> res rerror lresult) (r : res rerror lresult) : Prop :=
    match r with
    | OutOfFuel => exists n, sub n = OutOfFuel
    | Panic => zone_panics \/ exists n, sub n = Panic
    | Err e => e = EDeadEnd q \/ (exists a, e = ELocalDelegationMissingNS a (q_name q))
               \/ (exists t, e = ECacheTypeMismatch RT_CNAME t)
    | Ok (LDone (AuthoritativeNameError s)) =>
      exists z, zones_resolve zs (q_name q) (q_type q) = Some (z, Ok ZNameError) /\ zone_soa_rr z = Some s
    | Ok (LDelegation rrs soa d) =>
      exists z s, zones_resolve zs (q_name q) (q_type q) = Some (z, Ok (ZDelegation rrs))
                  /\ zone_soa_rr z = Some s /\ soa = Some s
    | Ok (LPartial _) => q_type q = QT_Wildcard \/ exists n rrs, sub n = Ok (LPartial rrs)
    | _ => True
    end.

  Lemma zcombine_kind q cr c sub : step_kind q sub (zcombine cr (subq q c) (sub c)).
  Proof. destruct (sub c) as [[[| |]|rrs| |]| | |] eqn:E; cbn; eauto 6. Qed.

  Lemma cache_phase_kind q sub rz : step_kind q sub (cache_phase cget q sub rz).
  Proof.
    assert (Hend : forall rrs fc, step_kind q sub
              (if is_nil rrs then Err (EDeadEnd q)
               else match fc with
                    | Some c => Ok (LCname rrs (subq q c))
                    | None => if q_type q =? QT_Wildcard then Ok (LPartial rrs) else Ok (LDone (NonAuthoritative rrs None))
                    end)).
    { intros rrs fc. destruct (is_nil rrs); [cbn; auto|]. destruct fc; [exact I|].
      destruct (q_type q =? QT_Wildcard) eqn:E; cbn; [left; apply N.eqb_eq, E|exact I]. }
    unfold cache_phase, cache_part.
    destruct (is_nil (cget (q_name q) (q_type q)) && negb (q_type q =? RT_CNAME)); [|exact (Hend _ None)].
    destruct (cget (q_name q) RT_CNAME) as [|cr t]; [exact (Hend _ None)|].
    destruct (if rr_type cr =? RT_CNAME then rr_data cr else RD_A 0); try (cbn; eauto).
    destruct (sub n) as [[r|rrs|rrs s d|rrs cq]|e| |] eqn:E; cbn [ccombine];
      [exact (Hend _ None)|exact (Hend _ None)|exact (Hend _ (Some n))|exact (Hend _ (Some (q_name cq)))
      |exact (Hend _ (Some n))|cbn; eauto..].
  Qed.

  Theorem local_step_kind q sub : step_kind q sub (local_step zs cget q sub).
  Proof.
    unfold local_step, zone_phase.
    destruct (zones_resolve zs (q_name q) (q_type q)) as [[z r]|] eqn:E; [|apply cache_phase_kind].
    destruct (zones_resolve_shape _ _ _ _ _ E) as [Hf He].
    destruct r as [[rrs|c cr|ns|]|e| |]; [| | | |elim (He e eq_refl)|left; exists (q_name q), (q_type q), z; exact E|elim Hf; reflexivity].
    - destruct (zone_soa_rr z); [exact I|]. destruct (_ && _); [exact I|apply cache_phase_kind].
    - apply zcombine_kind.
    - destruct (zone_soa_rr z) eqn:Es; [|apply cache_phase_kind]. destruct ns; cbn; eauto 7.
    - destruct (zone_soa_rr z) eqn:Es; [cbn; eauto|apply cache_phase_kind].
  Qed.

  Lemma at_limit_false stack : at_recursion_limit stack = false -> length stack <> 32%nat.
  Proof.
    unfold at_recursion_limit, llen, RECURSION_LIMIT. intros H E. rewrite E in H. discriminate.
  Qed.

  (* a result of resolve_local is an error of one of the two guards or, past them, the outcome of a step *)
  Lemma resolve_local_kind f stack q r : resolve_local zs cget (S f) stack q = r ->
    (r = Err ERecursionLimit /\ at_recursion_limit stack = true)
    \/ (r = Err (EDuplicateQuestion q) /\ is_duplicate_question stack q = true)
    \/ (guards_pass stack q /\ step_kind q (fun name => resolve_local zs cget f (stack ++ [q]) (subq q name)) r).
  Proof.
    intros <-. rewrite resolve_local_eq.
    destruct (at_recursion_limit stack) eqn:El; [left; auto|].
    destruct (is_duplicate_question stack q) eqn:Ed; [right; left; auto|].
    right; right. split; [split; assumption|apply local_step_kind].
  Qed.

  (* each recursive call pushes one question and the stack never exceeds RECURSION_LIMIT *)
  Lemma resolve_local_no_fuel : forall f stack q,
    (length stack <= 32)%nat -> (33 <= f + length stack)%nat ->
    resolve_local zs cget f stack q <> OutOfFuel.
  Proof.
    induction f as [|f IH]; intros stack q Hl Hf E; [cbn in Hf; lia|].
    destruct (resolve_local_kind _ _ _ _ E) as [[K _]|[[K _]|[[G _] [n K]]]]; try discriminate.
    apply at_limit_false in G. revert K. apply IH; rewrite app_length; cbn [length]; lia.
  Qed.

  Lemma local_fuel_value : LOCAL_FUEL = 34%nat.
  Proof. reflexivity. Qed.

  Theorem no_fuel q : resolve_local zs cget LOCAL_FUEL [] q <> OutOfFuel.
  Proof. apply resolve_local_no_fuel; rewrite ?local_fuel_value; cbn [length]; lia. Qed.

  (* panics come from the zone model only *)
  Lemma resolve_local_panic : forall f stack q, resolve_local zs cget f stack q = Panic -> zone_panics.
  Proof.
    induction f as [|f IH]; intros stack q H; [discriminate|].
    destruct (resolve_local_kind _ _ _ _ H) as [[K _]|[[K _]|[_ [K|[n K]]]]]; try discriminate; [exact K|eapply IH, K].
  Qed.


  Lemma resolve_local_step f stack q : guards_pass stack q ->
    resolve_local zs cget (S f) stack q =
    local_step zs cget q (fun name => resolve_local zs cget f (stack ++ [q]) (subq q name)).
  Proof. intros [H1 H2]. rewrite resolve_local_eq, H1, H2. reflexivity. Qed.

  (* An owned name is answered from its zone alone: the zone's answer with the zone's SOA,
     a name error with the zone's SOA, or -- when the zone holds an alias for the name --
     a reply that starts with the zone's CNAME RR (the rest is the resolution of the
     target; D2: a chain leaving authority is answered non-authoritatively).  It is never
     a referral, never a cache lookup. *)
  Theorem auth_zone_alone f stack q z :
    owned_by zs (q_name q) z -> guards_pass stack q ->
    exists soa_rr, zone_soa_rr z = Some soa_rr /\
    exists r, zones_resolve zs (q_name q) (q_type q) = Some (z, r) /\
    match r with
    | Ok (ZAnswer rrs) => resolve_local zs cget (S f) stack q = Ok (LDone (Authoritative rrs soa_rr))
    | Ok ZNameError => resolve_local zs cget (S f) stack q = Ok (LDone (AuthoritativeNameError soa_rr))
    | Ok (ZCname c cr) =>
      resolve_local zs cget (S f) stack q =
      zcombine cr (subq q c) (resolve_local zs cget f (stack ++ [q]) (subq q c))
    | Ok (ZDelegation _) => False
    | Panic => resolve_local zs cget (S f) stack q = Panic
    | _ => False
    end.
  Proof.
    intros Ho Hg. pose proof Ho as (Hget & Hsoa & rp & Hrp & _).
    destruct (zone_soa_rr_some z Hsoa) as [s Hs]. exists s. split; [exact Hs|].
    assert (Hr : exists r, zones_resolve zs (q_name q) (q_type q) = Some (z, r)).
    { unfold zones_resolve. rewrite Hget. destruct (zone_resolve z (q_name q) (q_type q)); eexists; reflexivity. }
    destruct Hr as [r Hr]. exists r. split; [exact Hr|].
    rewrite (resolve_local_step f stack q Hg). unfold local_step, zone_phase. rewrite Hr.
    destruct (zones_resolve_shape _ _ _ _ _ Hr) as [Hf He].
    destruct r as [zr|e| |]; [|exact (He e eq_refl)|reflexivity|exact (Hf eq_refl)].
    destruct zr as [rrs|c cr|ns|]; rewrite ?Hs; try reflexivity.
    exact (owned_no_delegation zs (q_name q) z (q_type q) _ Ho Hr ns eq_refl).
  Qed.

  (* C01: records of a non-authoritative zone (hosts file, blocklist) for the asked name and type are
     the whole reply *)
  Theorem override_exact f stack q z rrs :
    guards_pass stack q ->
    zones_resolve zs (q_name q) (q_type q) = Some (z, Ok (ZAnswer rrs)) ->
    z_soa z = None -> q_type q <> QT_Wildcard -> rrs <> [] ->
    resolve_local zs cget (S f) stack q = Ok (LDone (NonAuthoritative rrs None)).
  Proof.
    intros Hg Hr Hs Hq Hn. rewrite (resolve_local_step f stack q Hg). unfold local_step, zone_phase. rewrite Hr.
    unfold zone_soa_rr. rewrite Hs. cbn [option_map].
    apply N.eqb_neq in Hq. rewrite Hq. destruct rrs; [congruence|reflexivity].
  Qed.

  (* for ANY the zone's records come first and whatever the cache part gives is merged in behind them *)
  Theorem override_any f stack q z rrs l :
    guards_pass stack q ->
    zones_resolve zs (q_name q) (q_type q) = Some (z, Ok (ZAnswer rrs)) ->
    z_soa z = None -> q_type q = QT_Wildcard ->
    resolve_local zs cget (S f) stack q = Ok l ->
    exists from_cache,
      l = LPartial (prioritising_merge rrs from_cache) \/
      exists cq, l = LCname (prioritising_merge rrs from_cache) cq.
  Proof.
    intros Hg Hr Hs Hq. rewrite (resolve_local_step f stack q Hg). unfold local_step, zone_phase. rewrite Hr.
    unfold zone_soa_rr, cache_phase. rewrite Hs, !Hq. cbn [option_map].
    replace (QT_Wildcard =? QT_Wildcard) with true by reflexivity. cbn [negb andb].
    destruct (cache_part cget q _) as [[rc fc]|e| |]; try discriminate.
    destruct (is_nil (prioritising_merge rrs rc)); [discriminate|].
    destruct fc as [c|]; intro H; inversion H; subst; exists rc; [right; eexists; reflexivity|left; reflexivity].
  Qed.

End Fuel.

Lemma owned_in_auth zs n : owned_auth zs n -> in_auth_zone zs n.
Proof. intros [z (Hg & Hs & _)]. exists z. split; assumption. Qed.

Section NonInterference.
  Variable zs : zones.
  Variables c1 c2 : dname -> N -> list rr.

  Lemma zone_phase_ext q s1 s2 : (forall n, s1 n = s2 n) -> zone_phase zs q s1 = zone_phase zs q s2.
  Proof.
    intro H. unfold zone_phase. destruct (zones_resolve zs (q_name q) (q_type q)) as [[z [zr| | |]]|]; try reflexivity.
    destruct zr; try reflexivity. rewrite H. reflexivity.
  Qed.

  Lemma zone_phase_continue q s rrs : zone_phase zs q s = ZContinue rrs -> ~ in_auth_zone zs (q_name q).
  Proof.
    unfold zone_phase. destruct (zones_resolve zs (q_name q) (q_type q)) as [[z r]|] eqn:E.
    - apply zones_resolve_get in E. intros H [z' [Hg Hs]]. rewrite E in Hg. inversion Hg; subst z'.
      destruct (zone_soa_rr_some z Hs) as [s' Hs']. rewrite Hs' in H.
      destruct r as [[| |ns|]| | |]; try discriminate. destruct ns; discriminate.
    - intros _ [z' [Hg _]]. unfold zones_resolve in E. rewrite Hg in E.
      destruct (zone_resolve z' (q_name q) (q_type q)); discriminate.
  Qed.

  Lemma cache_phase_ext q s1 s2 rrs :
    (forall n, s1 n = s2 n) -> (forall qt, c1 (q_name q) qt = c2 (q_name q) qt) ->
    cache_phase c1 q s1 rrs = cache_phase c2 q s2 rrs.
  Proof.
    intros Hs Hc. unfold cache_phase, cache_part. rewrite !Hc.
    destruct (is_nil (c2 (q_name q) (q_type q)) && negb (q_type q =? RT_CNAME)); [|reflexivity].
    destruct (c2 (q_name q) RT_CNAME) as [|cr t]; [reflexivity|].
    destruct (if rr_type cr =? RT_CNAME then rr_data cr else RD_A 0); try reflexivity.
    rewrite Hs. reflexivity.
  Qed.

  (* nothing cached is ever used for a name whose most specific zone is authoritative *)
  Theorem cache_noninterference :
    cache_agree_outside (in_auth_zone zs) c1 c2 ->
    forall f stack q, resolve_local zs c1 f stack q = resolve_local zs c2 f stack q.
  Proof.
    intro Hag. induction f as [|f IH]; intros stack q; [reflexivity|].
    rewrite !resolve_local_eq.
    destruct (at_recursion_limit stack); [reflexivity|].
    destruct (is_duplicate_question stack q); [reflexivity|].
    unfold local_step.
    rewrite (zone_phase_ext q _ (fun name => resolve_local zs c2 f (stack ++ [q]) (subq q name)))
      by (intro n; apply IH).
    destruct (zone_phase zs q _) as [r|rrs] eqn:E; [reflexivity|].
    apply cache_phase_ext; [intro n; apply IH|].
    intro qt. apply Hag. eapply zone_phase_continue, E.
  Qed.

  Corollary cache_noninterference_owned :
    cache_agree_outside (owned_auth zs) c1 c2 ->
    forall f stack q, resolve_local zs c1 f stack q = resolve_local zs c2 f stack q.
  Proof.
    intro H. apply cache_noninterference. intros n qt Hn. apply H. intro Ho. apply Hn, owned_in_auth, Ho.
  Qed.
End NonInterference.

(* less specific zones are never consulted: the zone consulted is the one with the longest apex
   enclosing the name, and the zone phase is that zone's own lookup *)
Theorem longest_zone_only zs n qt z r :
  wf_name n -> zones_resolve zs n qt = Some (z, r) ->
  (exists k, In (k, z) zs /\ is_suffix (labels k) (labels n) /\
     forall k' z', In (k', z') zs -> wf_name k' -> is_suffix (labels k') (labels n) ->
                   (length (labels k') <= length (labels k))%nat)
  /\ r = match zone_resolve z n qt with Some r' => r' | None => Panic end.
Proof.
  intros Hwf H. pose proof (zones_resolve_get _ _ _ _ _ H) as Hg. split.
  - exact (zones_get_longest_suffix zone zs n z Hwf Hg).
  - unfold zones_resolve in H. rewrite Hg in H. destruct (zone_resolve z n qt); inversion H; reflexivity.
Qed.

Lemma subseq_filter {A} (f : A -> bool) l : subseq (filter f l) l.
Proof.
  induction l as [|x l IH]; cbn [filter]; [constructor|].
  destruct (f x); constructor; exact IH.
Qed.

Lemma merge_key_spec p r :
  existsb (fun x => dname_eqb (rr_name x) (rr_name r) && (rr_type x =? rr_type r)) p = true <->
  exists x, In x p /\ same_key x r.
Proof.
  rewrite existsb_exists. split; intros [x [Hin H]]; exists x; (split; [exact Hin|]).
  - apply andb_true_iff in H as [H1 H2]. apply dname_eqb_eq in H1. apply N.eqb_eq in H2. split; assumption.
  - destruct H as [H1 H2]. apply andb_true_iff. split; [apply dname_eqb_eq, H1|apply N.eqb_eq, H2].
Qed.

Theorem prioritising_merge_meets_spec priority new :
  prioritising_merge_spec priority new (prioritising_merge priority new).
Proof.
  unfold prioritising_merge_spec, prioritising_merge.
  eexists. split; [reflexivity|]. split; [apply subseq_filter|]. split.
  - intros r Hr p Hp Hk. apply filter_In in Hr as [_ Hr]. apply negb_true_iff in Hr.
    assert (E : existsb (fun x => dname_eqb (rr_name x) (rr_name r) && (rr_type x =? rr_type r)) priority = true)
      by (apply merge_key_spec; exists p; split; assumption).
    congruence.
  - intros r Hr Hno. apply filter_In. split; [exact Hr|]. apply negb_true_iff.
    destruct (existsb _ priority) eqn:E; [|reflexivity].
    apply merge_key_spec in E as [x [Hx Hk]]. exfalso. exact (Hno x Hx Hk).
Qed.

Lemma merge_nil_l new : prioritising_merge [] new = new.
Proof.
  unfold prioritising_merge. cbn [app existsb negb]. induction new as [|x t IH]; [reflexivity|].
  cbn [filter]. rewrite IH. reflexivity.
Qed.

Definition lresult_rrs (l : lresult) : list rr :=
  match l with
  | LDone r => resolved_rrs r
  | LPartial rrs => rrs
  | LDelegation rrs _ _ => rrs
  | LCname rrs _ => rrs
  end.

Definition is_referral (l : lresult) : Prop := match l with LDelegation _ _ _ => True | _ => False end.

Lemma resolved_of_lresult_rrs l : resolved_rrs (resolved_of_lresult l) = lresult_rrs l.
Proof. destruct l as [r| |? [s|] ?|]; reflexivity. Qed.

(* the question an alias result leaves to be resolved *)
Definition lname (l : lresult) : option question :=
  match l with LCname _ cq => Some cq | _ => None end.

(* chain_ok, and: no owner on the chain repeats a question of the stack; an alias result holds the
   chain only, and the question it leaves is the original one asked of the chain's end *)
Definition chain_inv (stack : list question) (q : question) (rrs : list rr) (tgt : option question) : Prop :=
  exists cn fin last, rrs = cn ++ fin /\ chain_from (q_name q) cn = Some last /\ NoDup (map rr_name cn)
    /\ Forall (fun r => rr_name r = last /\ rr_type r = q_type q) fin
    /\ Forall (fun r => is_duplicate_question stack (subq q (rr_name r)) = false) cn
    /\ forall cq, tgt = Some cq -> fin = [] /\ cq = subq q last.

Lemma chain_inv_ok stack q rrs tgt : chain_inv stack q rrs tgt -> chain_ok (q_name q) (q_type q) rrs.
Proof. intros (cn & fin & last & H1 & H2 & H3 & H4 & _). exists cn, fin, last. repeat split; assumption. Qed.

Lemma chain_inv_alias stack q rrs cq : chain_inv stack q rrs (Some cq) ->
  chain_from (q_name q) rrs = Some (q_name cq) /\ cq = subq q (q_name cq).
Proof.
  intros (cn & fin & last & H1 & H2 & _ & _ & _ & H6). destruct (H6 cq eq_refl) as [-> ->].
  rewrite app_nil_r in H1. subst rrs. split; [exact H2|reflexivity].
Qed.

Lemma chain_fin stack q rrs :
  Forall (fun r => rr_name r = q_name q /\ rr_type r = q_type q) rrs -> chain_inv stack q rrs None.
Proof.
  intro H. exists [], rrs, (q_name q). do 5 (split; [try reflexivity; try constructor; exact H|]). discriminate.
Qed.

Lemma chain_nil stack q : chain_inv stack q [] (Some q).
Proof.
  exists [], [], (q_name q). do 5 (split; [try reflexivity; constructor|]).
  intros cq E. inversion E. split; [reflexivity|]. symmetry. apply subq_self.
Qed.

Lemma is_dup_app stack q x :
  is_duplicate_question (stack ++ [q]) x = false ->
  is_duplicate_question stack x = false /\ question_eqb x q = false.
Proof.
  unfold is_duplicate_question. rewrite existsb_app. cbn [existsb]. rewrite orb_false_r.
  intro H. apply orb_false_iff in H. exact H.
Qed.

(* a CNAME of the question name in front of a chain for its target; [tgt'] is what the chain for the
   target leaves to be resolved: the whole chain leaves nothing, or the same, or the same name asked
   again on behalf of [q] *)
Lemma chain_cons stack q r c rest tgt tgt' :
  is_duplicate_question stack q = false ->
  rr_name r = q_name q -> rr_type r = RT_CNAME -> rr_data r = RD_Name c ->
  chain_inv (stack ++ [q]) (subq q c) rest tgt' ->
  tgt = None \/ (exists cq', tgt' = Some cq' /\ (tgt = Some cq' \/ tgt = Some (subq q (q_name cq')))) ->
  chain_inv stack q (r :: rest) tgt.
Proof.
  intros Hd Hn Ht Hdat (cn & fin & last & H1 & H2 & H3 & H4 & H5 & H6) Htgt. cbn [subq q_name q_type] in *.
  exists (r :: cn), fin, last. split; [rewrite H1; reflexivity|]. split.
  { cbn [chain_from]. rewrite Hn, dname_eqb_refl, Ht, Hdat. exact H2. }
  assert (Hne : forall r', In r' cn -> rr_name r' <> q_name q /\ is_duplicate_question stack (subq q (rr_name r')) = false).
  { intros r' Hin. rewrite Forall_forall in H5. specialize (H5 r' Hin).
    unfold subq in H5. cbn [q_type q_class] in H5. apply is_dup_app in H5 as [Ha Hb]. split; [|exact Ha].
    intro E. unfold question_eqb in Hb. cbn [q_name q_type q_class] in Hb.
    rewrite E, dname_eqb_refl, !N.eqb_refl in Hb. discriminate. }
  split.
  { cbn [map]. constructor; [|exact H3]. rewrite Hn. intro Hin. apply in_map_iff in Hin as [r' [E Hin]].
    destruct (Hne r' Hin) as [Hx _]. exact (Hx E). }
  split; [exact H4|]. split.
  { constructor; [rewrite Hn, subq_self; exact Hd|]. apply Forall_forall. intros r' Hin. apply Hne, Hin. }
  intros cq E. destruct Htgt as [->|(cq' & E' & Htgt)]; [discriminate|].
  destruct (H6 cq' E') as [Hf Hcq]. split; [exact Hf|].
  destruct Htgt as [->| ->]; inversion E; subst; reflexivity.
Qed.

Lemma chain_single stack q r c tgt :
  is_duplicate_question stack q = false ->
  rr_name r = q_name q -> rr_type r = RT_CNAME -> rr_data r = RD_Name c ->
  tgt = None \/ tgt = Some (subq q c) -> chain_inv stack q [r] tgt.
Proof.
  intros Hd Hn Ht Hdat Htgt. eapply (chain_cons stack q r c [] tgt (Some (subq q c))); try eassumption.
  - apply chain_nil.
  - destruct Htgt as [->| ->]; [left; reflexivity|right; eauto].
Qed.

Section Chains.
  Variable zs : zones.
  Variable cget : dname -> N -> list rr.
  Hypothesis Hzones : zones_answers_ok zs.
  Hypothesis Hcache : cget_ok cget.

  Lemma zone_phase_continue_nil q sub rrs :
    q_type q <> QT_Wildcard -> zone_phase zs q sub = ZContinue rrs -> rrs = [].
  Proof.
    intros Hq. apply N.eqb_neq in Hq. unfold zone_phase.
    destruct (zones_resolve zs (q_name q) (q_type q)) as [[z [[rr0|c cr|ns|]| | |]]|]; try discriminate;
      try (destruct (zone_soa_rr z); try discriminate; try (destruct ns; discriminate); intro H; inversion H; reflexivity).
    - destruct (zone_soa_rr z); [discriminate|]. rewrite Hq. cbn [negb andb].
      destruct rr0; cbn [is_nil negb]; [intro H; inversion H; reflexivity|discriminate].
    - intro H; inversion H; reflexivity.
  Qed.

  (* the statement proved by induction on the fuel *)
  Definition chain_stmt (f : nat) : Prop :=
    forall stack q l, q_type q <> QT_Wildcard ->
      resolve_local zs cget f stack q = Ok l -> ~ is_referral l -> chain_inv stack q (lresult_rrs l) (lname l).

  (* a CNAME of the question name in front of what its target resolves to, as the zone branch
     (zcombine) and the cache branch (ccombine) put it together *)
  Lemma combine_chain f stack q c cr :
    chain_stmt f -> q_type q <> QT_Wildcard ->
    is_duplicate_question stack q = false ->
    rr_name cr = q_name q -> rr_type cr = RT_CNAME -> rr_data cr = RD_Name c ->
    (forall l, zcombine cr (subq q c) (resolve_local zs cget f (stack ++ [q]) (subq q c)) = Ok l ->
       chain_inv stack q (lresult_rrs l) (lname l)) /\
    (forall rc fc, ccombine cr c (resolve_local zs cget f (stack ++ [q]) (subq q c)) = Ok (rc, fc) ->
       chain_inv stack q rc (option_map (subq q) fc)).
  Proof.
    intros IH Hq Hd Hn Ht Hdat.
    destruct (resolve_local zs cget f (stack ++ [q]) (subq q c)) as [l'| | |] eqn:E; cbn [zcombine ccombine];
      try (split; intros; discriminate).
    2:{ split; [intros l H|intros rc fc H]; inversion H; subst; eapply chain_single; eauto. }
    assert (Hsub : ~ is_referral l' -> chain_inv (stack ++ [q]) (subq q c) (lresult_rrs l') (lname l'))
      by (apply IH; assumption).
    split; [intros l H|intros rc fc H].
    - destruct l' as [[rr' s|s|rr' s]|rr'|rr' s d|rr' cq]; cbn [is_referral lresult_rrs resolved_rrs lname] in Hsub;
        inversion H; subst; cbn [lresult_rrs resolved_rrs app lname];
        try (eapply chain_cons; [eassumption..|apply Hsub; tauto|eauto]);
        eapply chain_single; eauto.
    - destruct l' as [r'|rr'|rr' s d|rr' cq]; cbn [is_referral lresult_rrs lname] in Hsub;
        inversion H; subst; cbn [app option_map];
        try (eapply chain_cons; [eassumption..|apply Hsub; tauto|eauto]);
        eapply chain_single; eauto.
  Qed.

  Lemma chain_all : forall f, chain_stmt f.
  Proof.
    induction f as [|f IH]; intros stack q l Hq2; [discriminate|].
    rewrite resolve_local_eq.
    destruct (at_recursion_limit stack); [discriminate|].
    destruct (is_duplicate_question stack q) eqn:Hd; [discriminate|].
    unfold local_step.
    destruct (zone_phase zs q _) as [r|rz] eqn:Ez.
    - (* the zone decides *)
      unfold zone_phase in Ez.
      destruct (zones_resolve zs (q_name q) (q_type q)) as [[z [zr| | |]]|] eqn:Er; try discriminate;
        try (inversion Ez; subst; discriminate).
      pose proof (Hzones _ _ _ _ Er) as Hz.
      destruct zr as [rr0|c cr|ns|].
      + destruct (zone_soa_rr z).
        * inversion Ez; subst. intro H; inversion H; subst. intros _. apply chain_fin, Hz, Hq2.
        * destruct (negb (q_type q =? QT_Wildcard) && negb (is_nil rr0)); [|discriminate].
          inversion Ez; subst. intro H; inversion H; subst. intros _. apply chain_fin, Hz, Hq2.
      + inversion Ez; subst. destruct Hz as (Hn & Ht & Hdat). intros H _.
        eapply combine_chain; eassumption.
      + destruct (zone_soa_rr z); [|discriminate]. destruct ns; inversion Ez; subst; [discriminate|].
        intro H; inversion H; subst. intro Hr. elim Hr. exact I.
      + destruct (zone_soa_rr z); [|discriminate]. inversion Ez; subst.
        intro H; inversion H; subst. intros _. apply chain_fin. constructor.
    - (* the cache decides; nothing came from the zone because the type is not ANY *)
      pose proof (zone_phase_continue_nil _ _ _ Hq2 Ez) as ->.
      unfold cache_phase.
      destruct (cache_part cget q _) as [[rc fc]| | |] eqn:Ec; try discriminate.
      rewrite merge_nil_l.
      assert (Hrc : chain_inv stack q rc (option_map (subq q) fc)).
      { unfold cache_part in Ec.
        destruct (is_nil (cget (q_name q) (q_type q)) && negb (q_type q =? RT_CNAME)).
        - pose proof (Hcache (q_name q) RT_CNAME ltac:(discriminate)) as Hcn.
          destruct (cget (q_name q) RT_CNAME) as [|cr t].
          + inversion Ec; subst. apply chain_fin, Hcache, Hq2.
          + inversion Hcn as [|? ? [Hn Ht] _]; subst.
            rewrite Ht, N.eqb_refl in Ec.
            destruct (rr_data cr) as [|c| | | | | |] eqn:Hdat; try discriminate.
            eapply combine_chain; eassumption.
        - inversion Ec; subst. apply chain_fin, Hcache, Hq2. }
      destruct (is_nil rc); [discriminate|].
      destruct fc as [c|].
      + intro H; inversion H; subst. intros _. exact Hrc.
      + apply N.eqb_neq in Hq2. rewrite Hq2. intro H; inversion H; subst. intros _. exact Hrc.
  Qed.

  Theorem local_chain_ok f stack q l :
    q_type q <> RT_CNAME -> q_type q <> QT_Wildcard ->
    resolve_local zs cget f stack q = Ok l -> ~ is_referral l ->
    chain_ok (q_name q) (q_type q) (lresult_rrs l).
  Proof. intros _ H2 H3 H4. eapply chain_inv_ok, chain_all; eassumption. Qed.

  (* an alias result of local resolution: the records are the CNAME chain from the question name to
     the name still to be resolved, and the remaining question differs in the name only *)
  Lemma local_alias f stack q rrs cq :
    q_type q <> QT_Wildcard ->
    resolve_local zs cget f stack q = Ok (LCname rrs cq) ->
    chain_from (q_name q) rrs = Some (q_name cq) /\ cq = subq q (q_name cq).
  Proof. intros Hq E. exact (chain_inv_alias _ _ _ _ (chain_all f stack q _ Hq E (fun x => x))). Qed.
End Chains.

Section Loops.
  Variable zs : zones.
  Variable cget : dname -> N -> list rr.

  (* a name error is reported only on the word of an authoritative zone, for the question name itself;
     in particular never through an alias: a CNAME whose target does not exist yields
     [Authoritative [cname] soa] *)
  Theorem nxdomain_only_from_auth_zone f stack q s :
    resolve_local zs cget f stack q = Ok (LDone (AuthoritativeNameError s)) ->
    exists z, zones_resolve zs (q_name q) (q_type q) = Some (z, Ok ZNameError) /\ zone_soa_rr z = Some s
              /\ in_auth_zone zs (q_name q).
  Proof.
    destruct f as [|f]; [discriminate|]. intro H.
    destruct (resolve_local_kind zs cget _ _ _ _ H) as [[K _]|[[K _]|[_ (z & E & Es)]]]; try discriminate.
    exists z. split; [exact E|]. split; [exact Es|]. exists z. split; [eapply zones_resolve_get, E|].
    intro Hn. unfold zone_soa_rr in Es. rewrite Hn in Es. discriminate.
  Qed.

  Corollary nxdomain_resolved q s :
    resolve_authoritative_only zs cget q = Ok (AuthoritativeNameError s) ->
    exists z, zones_resolve zs (q_name q) (q_type q) = Some (z, Ok ZNameError) /\ zone_soa_rr z = Some s
              /\ in_auth_zone zs (q_name q).
  Proof.
    unfold resolve_authoritative_only.
    destruct (resolve_local zs cget LOCAL_FUEL [] q) as [l| | |] eqn:E; try discriminate.
    destruct l as [[| |]| |? [|]|]; cbn [resolved_of_lresult]; try discriminate.
    intro H. inversion H; subst. eapply nxdomain_only_from_auth_zone, E.
  Qed.

  (* a referral is only ever the zone's own direct answer for the question name: an alias that runs
     into a delegation stops with the CNAMEs collected so far *)
  Theorem referral_only_direct f stack q rrs soa d :
    resolve_local zs cget f stack q = Ok (LDelegation rrs soa d) ->
    exists z s, zones_resolve zs (q_name q) (q_type q) = Some (z, Ok (ZDelegation rrs))
                /\ zone_soa_rr z = Some s /\ soa = Some s.
  Proof.
    destruct f as [|f]; [discriminate|]. intro H.
    destruct (resolve_local_kind zs cget _ _ _ _ H) as [[K _]|[[K _]|[_ K]]]; try discriminate. exact K.
  Qed.

  (* loops and over-long chains never surface as errors of an inner question: RecursionLimit and
     DuplicateQuestion are only ever reported for the question asked, by its own two guards;
     inside a chain they end the chain (zcombine / ccombine turn them into a partial result) *)
  Theorem loops_end f stack q e :
    resolve_local zs cget f stack q = Err e ->
    (e = ERecursionLimit /\ at_recursion_limit stack = true) \/
    (e = EDuplicateQuestion q /\ is_duplicate_question stack q = true) \/
    e = EDeadEnd q \/ (exists a, e = ELocalDelegationMissingNS a (q_name q)) \/
    (exists t, e = ECacheTypeMismatch RT_CNAME t).
  Proof.
    destruct f as [|f]; [discriminate|]. intro H.
    destruct (resolve_local_kind zs cget _ _ _ _ H) as [[K G]|[[K G]|[_ K]]].
    - inversion K. auto.
    - inversion K. auto.
    - right; right. exact K.
  Qed.

  (* asked from an empty stack (as resolve() does), a question never fails with RecursionLimit or
     DuplicateQuestion, whatever loops the data contains *)
  Corollary loops_end_top f q e :
    resolve_local zs cget f [] q = Err e -> e <> ERecursionLimit /\ forall q', e <> EDuplicateQuestion q'.
  Proof.
    intro H. apply loops_end in H as [[_ H]|[[_ H]|[H|[[a H]|[t H]]]]]; try discriminate; subst; split; try discriminate;
      intro; discriminate.
  Qed.

  (* the question stack never holds a question twice and never more than RECURSION_LIMIT *)
  Definition stack_ok (stack : list question) : Prop :=
    (length stack <= 32)%nat /\ NoDup stack /\
    forall a b, In a stack -> In b stack -> question_eqb a b = true -> a = b.

  Lemma question_eqb_eq a b : question_eqb a b = true <-> a = b.
  Proof.
    unfold question_eqb. rewrite !andb_true_iff, dname_eqb_eq, !N.eqb_eq.
    destruct a as [n1 t1 c1], b as [n2 t2 c2]; cbn [q_name q_type q_class]. split; [intros [[-> ->] ->]; reflexivity|intro H; inversion H; auto].
  Qed.

  Theorem stack_never_repeats stack q :
    stack_ok stack -> guards_pass stack q -> stack_ok (stack ++ [q]).
  Proof.
    intros (Hl & Hnd & _) [H1 H2]. apply at_limit_false in H1.
    assert (Hnin : ~ In q stack).
    { intro Hin. unfold is_duplicate_question in H2.
      assert (E : existsb (question_eqb q) stack = true)
        by (apply existsb_exists; exists q; split; [exact Hin|apply question_eqb_eq; reflexivity]).
      congruence. }
    split; [rewrite app_length; cbn [length]; lia|]. split.
    - apply NoDup_snoc; assumption.
    - intros a b _ _ E. apply question_eqb_eq, E.
  Qed.

  Theorem authoritative_only_total q :
    resolve_authoritative_only zs cget q <> OutOfFuel /\
    (resolve_authoritative_only zs cget q = Panic -> zone_panics zs).
  Proof.
    unfold resolve_authoritative_only. pose proof (no_fuel zs cget q) as Hf.
    destruct (resolve_local zs cget LOCAL_FUEL [] q) as [l|e| |] eqn:E; split; try discriminate; try congruence.
    intros _. eapply resolve_local_panic, E.
  Qed.

  Theorem authoritative_only_chain_ok q r :
    zones_answers_ok zs -> cget_ok cget -> q_type q <> RT_CNAME -> q_type q <> QT_Wildcard ->
    (forall z ns, zones_resolve zs (q_name q) (q_type q) <> Some (z, Ok (ZDelegation ns))) ->
    resolve_authoritative_only zs cget q = Ok r ->
    chain_ok (q_name q) (q_type q) (resolved_rrs r).
  Proof.
    intros Hz Hc H1 H2 Hnr. unfold resolve_authoritative_only.
    destruct (resolve_local zs cget LOCAL_FUEL [] q) as [l|e| |] eqn:E; try discriminate.
    intro H; inversion H; subst r. rewrite resolved_of_lresult_rrs.
    eapply local_chain_ok; try eassumption.
    destruct l as [| |rrs soa d|]; cbn [is_referral]; try tauto.
    intros _. apply referral_only_direct in E as (z & s & E & _). exact (Hnr z rrs E).
  Qed.
End Loops.

(* [zones_answers_ok] from a checkable invariant.
   Every record map of the tree files each record under its own type.  Zone::new / insert /
   insert_wildcard / merge keep this (they key by rtype_with_data.rtype()); for a concrete zone set
   it is decided by computation. *)

Definition rmap_typedb (m : rmap) : bool :=
  forallb (fun kv => forallb (fun z => zr_type z =? fst kv) (snd kv)) m.

Fixpoint node_typedb (nd : node) : bool :=
  match nd with
  | Node _ this wild children =>
    rmap_typedb this && match wild with Some w => rmap_typedb w | None => true end
    && (fix go (cs : list (label * node)) : bool :=
          match cs with [] => true | (_, c) :: t => node_typedb c && go t end) children
  end.

Definition zones_typedb (zs : zones) : bool := forallb (fun kz => node_typedb (z_records (snd kz))) zs.

Lemma rmap_typed_lookup m t l : rmap_typedb m = true -> alookup N.eqb t m = Some l ->
  Forall (fun z => zr_type z = t) l.
Proof.
  unfold rmap_typedb. induction m as [|[k v] m IH]; cbn [forallb alookup]; [discriminate|].
  intros H. apply andb_true_iff in H as [H1 H2].
  destruct (t =? k) eqn:E.
  - apply N.eqb_eq in E. subst k. intro H; inversion H; subst. cbn [fst snd] in H1.
    apply Forall_forall. intros z Hz. rewrite forallb_forall in H1. apply N.eqb_eq, H1, Hz.
  - apply IH, H2.
Qed.

Lemma zrh_typed name qt recs nsd cd zr : rmap_typedb recs = true ->
  zone_result_helper name qt recs nsd cd = Ok zr ->
  match zr with
  | ZAnswer rrs => qt <> QT_Wildcard -> Forall (fun r => rr_name r = name /\ rr_type r = qt) rrs
  | ZCname c r => rr_name r = name /\ rr_type r = RT_CNAME /\ rr_data r = RD_Name c
  | _ => True
  end.
Proof.
  intro Ht. unfold zone_result_helper.
  destruct (cd && negb (qt =? RT_NS) && negb (is_nil match alookup N.eqb RT_NS recs with Some l => l | None => [] end)).
  { intro H; inversion H; exact I. }
  destruct (if negb (rtype_matches RT_CNAME qt) then match alookup N.eqb RT_CNAME recs with Some l => l | None => [] end else []) as [|z t] eqn:Ec.
  - destruct (qt =? QT_Wildcard) eqn:Eq.
    + intro H; inversion H; subst. intro Hq. apply N.eqb_eq in Eq. contradiction.
    + destruct (existsb _ qtype_table); intro H; inversion H; subst; intros _; [constructor|].
      destruct (alookup N.eqb qt recs) as [l|] eqn:El; [|constructor].
      pose proof (rmap_typed_lookup _ _ _ Ht El) as Hl. apply Forall_forall. intros r Hr.
      apply in_map_iff in Hr as [z [<- Hz]]. rewrite Forall_forall in Hl. split; [reflexivity|apply Hl, Hz].
  - destruct (negb (rtype_matches RT_CNAME qt)); [|discriminate].
    destruct (alookup N.eqb RT_CNAME recs) as [l|] eqn:El; [|discriminate]. subst l.
    pose proof (rmap_typed_lookup _ _ _ Ht El) as Hl. inversion Hl; subst.
    destruct (zr_data z) eqn:Ed; try discriminate. intro H; inversion H; subst.
    cbn [zr_to_rr rr_name rr_type rr_data]. repeat split; assumption.
Qed.

Lemma node_typed_parts nd : node_typedb nd = true ->
  rmap_typedb (n_this nd) = true /\ (forall w, n_wild nd = Some w -> rmap_typedb w = true) /\
  forall l c, alookup leqb l (n_children nd) = Some c -> node_typedb c = true.
Proof.
  destruct nd as [nsd this wild children]. cbn [node_typedb n_this n_wild n_children].
  intro H. apply andb_true_iff in H as [H H3]. apply andb_true_iff in H as [H1 H2].
  split; [exact H1|]. split.
  - intros w E. subst wild. exact H2.
  - clear H1 H2. induction children as [|[k c0] t IH]; intros l c; cbn [alookup]; [discriminate|].
    apply andb_true_iff in H3 as [Ha Hb]. destruct (leqb l k).
    + intro E; inversion E; subst. exact Ha.
    + apply IH, Hb.
Qed.

Lemma node_resolve_typed name qt : forall rp nd ia zr, node_typedb nd = true ->
  node_resolve name qt rp nd ia = Ok zr ->
  match zr with
  | ZAnswer rrs => qt <> QT_Wildcard -> Forall (fun r => rr_name r = name /\ rr_type r = qt) rrs
  | ZCname c r => rr_name r = name /\ rr_type r = RT_CNAME /\ rr_data r = RD_Name c
  | _ => True
  end.
Proof.
  induction rp as [|l rest IH]; intros nd ia zr Ht; cbn [node_resolve];
    destruct (node_typed_parts nd Ht) as (H1 & H2 & H3).
  - apply zrh_typed, H1.
  - destruct (alookup leqb l (n_children nd)) as [c|] eqn:Ec; [apply IH; eapply H3, Ec|].
    destruct (n_wild nd) as [w|] eqn:Ew.
    + destruct (from_labels (l :: labels (n_nsdname nd))); [|discriminate]. apply zrh_typed, H2. reflexivity.
    + destruct (alookup N.eqb RT_NS (n_this nd)) as [ns|]; [|intro H; inversion H; exact I].
      destruct (is_nil ns || ia); intro H; inversion H; exact I.
Qed.

Lemma zones_get_in {Z} (zs : list (dname * Z)) n z : zones_get zs n = Some z -> exists k, In (k, z) zs.
Proof.
  intro H. destruct (zones_loop_spec zs z (labels n) H) as (ls & nm & _ & _ & Hlk & _).
  exists nm. apply alookup_some, Hlk.
Qed.

Lemma zones_resolve_nil n qt : zones_resolve [] n qt = None.
Proof.
  unfold zones_resolve. destruct (zones_get [] n) as [z|] eqn:E; [|reflexivity].
  destruct (zones_get_in _ _ _ E) as [k []].
Qed.

Theorem zones_typed_answers_ok zs : zones_typedb zs = true -> zones_answers_ok zs.
Proof.
  intros Ht name qt z zr H. pose proof (zones_resolve_get _ _ _ _ _ H) as Hg.
  destruct (zones_get_in zs name z Hg) as [k Hin].
  unfold zones_typedb in Ht. rewrite forallb_forall in Ht. specialize (Ht _ Hin). cbn [snd] in Ht.
  unfold zones_resolve in H. rewrite Hg in H. unfold zone_resolve in H.
  destruct (relative_rp z name) as [rp|]; cbn [option_map] in H; inversion H as [H'].
  eapply node_resolve_typed; eassumption.
Qed.

Lemma rtype_matches_concrete t qt : qt <> QT_Wildcard -> rtype_matches t qt = true -> t = qt.
Proof.
  intro H. apply N.eqb_neq in H. unfold rtype_matches. rewrite H.
  destruct (existsb _ qtype_table); [discriminate|]. apply N.eqb_eq.
Qed.

(* a worked configuration: the hypotheses are satisfiable *)
Module LocalExample.
  Definition mk (ls : list label) : dname :=
    match from_labels (ls ++ [[]]) with Some n => n | None => root_domain end.
  Definition unres {A} (d : A) (r : res unit A) : A := match r with Ok x => x | _ => d end.
  Definition ins (wild : bool) (n : dname) (t : N) (d : rdata) (z : zone) : zone :=
    unres z (zone_insert wild z n t d 300).

  (* labels: c = "c", e = "e", w = "w", a = "a", l = "l", s = "s", t = "t", b = "b", x = "x" *)
  Definition n_c := mk [[99]].
  Definition n_ec := mk [[101]; [99]].
  Definition n_wec := mk [[119]; [101]; [99]].
  Definition n_aec := mk [[97]; [101]; [99]].
  Definition n_lec := mk [[108]; [101]; [99]].
  Definition n_sec := mk [[115]; [101]; [99]].
  Definition n_xsec := mk [[120]; [115]; [101]; [99]].
  Definition n_tc := mk [[116]; [99]].
  Definition n_bc := mk [[98]; [99]].

  Definition ex_soa : soa :=
    {| soa_mname := n_ec; soa_rname := n_ec; soa_serial := 1; soa_refresh := 2; soa_retry := 3;
       soa_expire := 4; soa_minimum := 60 |}.

  (* "." hosts-style, non-authoritative, with a blocklist entry; "e.c." authoritative with an address,
     an alias leaving the zone, a self-loop and a delegation *)
  Definition z_root : zone := ins false n_bc RT_A (RD_A 0) (zone_new root_domain None).
  Definition z_ec : zone :=
    ins false n_sec RT_NS (RD_Name n_xsec)
      (ins false n_lec RT_CNAME (RD_Name n_lec)
         (ins false n_aec RT_CNAME (RD_Name n_tc)
            (ins false n_wec RT_A (RD_A 1) (zone_new n_ec (Some ex_soa))))).
  Definition ex_zones : zones := zones_insert (zones_insert [] z_root) z_ec.

  Definition arr (n : dname) (a : N) : rr := {| rr_name := n; rr_type := RT_A; rr_class := RC_IN; rr_ttl := 30; rr_data := RD_A a |}.
  Definition cget_of (l : list rr) : dname -> N -> list rr :=
    fun n qt => filter (fun r => dname_eqb (rr_name r) n && rtype_matches (rr_type r) qt) l.
  (* the cache knows the alias target, and holds entries for names local data answers *)
  Definition ex_cache := [arr n_tc 7; arr n_wec 9; arr n_bc 5].
  Definition ex_cget := cget_of ex_cache.
  Definition ex_cget' := cget_of [arr n_tc 7; arr n_bc 5].

  Definition qa (n : dname) : question := {| q_name := n; q_type := RT_A; q_class := 1 |}.
  Definition soa_rr : rr := soa_to_rr ex_soa n_ec.

  Example ex_owned : owned_by ex_zones n_wec z_ec.
  Proof.
    split; [vm_compute; reflexivity|]. split; [vm_compute; discriminate|]. exists [[119]]. split; [vm_compute; reflexivity|].
    intros pre suf nd E Hn. destruct pre as [|l1 [|l2 pre]]; [| |destruct pre; discriminate E].
    - vm_compute in Hn. injection Hn as <-. split; [intro H; exfalso; apply H; reflexivity|intros _; reflexivity].
    - injection E as <- <-. vm_compute in Hn. injection Hn as <-. split; [intros _; reflexivity|intro H; exfalso; apply H; reflexivity].
  Qed.

  (* C01: the authoritative zone answers alone, whatever the cache holds for that name *)
  Example ex_auth_alone :
    resolve_local ex_zones ex_cget LOCAL_FUEL [] (qa n_wec)
    = Ok (LDone (Authoritative [{| rr_name := n_wec; rr_type := RT_A; rr_class := RC_IN; rr_ttl := 300; rr_data := RD_A 1 |}] soa_rr)).
  Proof. vm_compute. reflexivity. Qed.

  (* C01: the blocklist entry of the non-authoritative zone overrides the cached address *)
  Example ex_override :
    resolve_local ex_zones ex_cget LOCAL_FUEL [] (qa n_bc)
    = Ok (LDone (NonAuthoritative [{| rr_name := n_bc; rr_type := RT_A; rr_class := RC_IN; rr_ttl := 300; rr_data := RD_A 0 |}] None)).
  Proof. vm_compute. reflexivity. Qed.

  (* C10 / D2: an alias leaving authority is followed into the cache; the reply is the chain in order *)
  Example ex_chain :
    resolve_local ex_zones ex_cget LOCAL_FUEL [] (qa n_aec)
    = Ok (LDone (NonAuthoritative
                   [{| rr_name := n_aec; rr_type := RT_CNAME; rr_class := RC_IN; rr_ttl := 300; rr_data := RD_Name n_tc |};
                    arr n_tc 7] None)).
  Proof. vm_compute. reflexivity. Qed.

  (* C10: a loop ends in a partial chain *)
  Example ex_loop :
    resolve_local ex_zones ex_cget LOCAL_FUEL [] (qa n_lec)
    = Ok (LCname [{| rr_name := n_lec; rr_type := RT_CNAME; rr_class := RC_IN; rr_ttl := 300; rr_data := RD_Name n_lec |}] (qa n_lec)).
  Proof. vm_compute. reflexivity. Qed.

  (* a direct referral: the NS records of the delegation point with the zone's SOA (that the server
     then sends them in the answer section is C09's known finding F12) *)
  Example ex_referral : exists d,
    resolve_local ex_zones ex_cget LOCAL_FUEL [] (qa n_xsec)
    = Ok (LDelegation [{| rr_name := n_sec; rr_type := RT_NS; rr_class := RC_IN; rr_ttl := 300; rr_data := RD_Name n_xsec |}] (Some soa_rr) d).
  Proof. eexists. vm_compute. reflexivity. Qed.

  Example ex_zones_typed : zones_typedb ex_zones = true.
  Proof. vm_compute. reflexivity. Qed.

  Lemma cget_of_ok l : cget_ok (cget_of l).
  Proof.
    intros n qt Hq. unfold cget_of. apply Forall_forall. intros r Hr. apply filter_In in Hr as [_ Hr].
    apply andb_true_iff in Hr as [H1 H2]. split; [apply dname_eqb_eq, H1|apply rtype_matches_concrete; assumption].
  Qed.

  (* the two cache functions differ at a name the authoritative zone owns, and only there *)
  Example ex_agree : cache_agree_outside (in_auth_zone ex_zones) ex_cget ex_cget'.
  Proof.
    intros n qt Hn. unfold ex_cget, ex_cget', cget_of, ex_cache. cbn [filter].
    destruct (dname_eqb (rr_name (arr n_wec 9)) n) eqn:E; [|reflexivity].
    exfalso. apply Hn. apply dname_eqb_eq in E. subst n. exists z_ec. exact (conj (proj1 ex_owned) (proj1 (proj2 ex_owned))).
  Qed.
  Example ex_differ : ex_cget n_wec RT_A <> ex_cget' n_wec RT_A.
  Proof. vm_compute. discriminate. Qed.
End LocalExample.
