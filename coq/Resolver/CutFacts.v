(* Resolver/CutFacts.v -- facts about cut_at_local_authority (recursive.rs) and
   the same position test of resolve_forwarding_notimeout (forwarding.rs):
   [cut_rrs]. *)
From RV Require Import Zone.ZoneProofs.
From RV Require Import Base.Prelude Name.NameModel Name.NameProofs Wire.WireTypes Zone.ZoneModel
     Resolver.LocalSpec Resolver.LocalProofs Resolver.ValidateModel Resolver.RecursiveModel.
From Coq Require Import Arith.

Lemma position_some {A} (p : A -> bool) : forall l i, position p l = Some i ->
  exists x, nth_error l i = Some x /\ p x = true /\ (forall y, In y (firstn i l) -> p y = false).
Proof.
  induction l as [|a l IH]; intros i H; cbn [position] in H; [discriminate|].
  destruct (p a) eqn:Ea.
  - inversion H; subst. exists a. cbn. split; [reflexivity|]. split; [exact Ea|]. intros y [].
  - destruct (position p l) as [j|] eqn:Ej; [|discriminate]. cbn in H. inversion H; subst.
    destruct (IH j eq_refl) as (x & Hn & Hp & Hf). exists x. cbn [nth_error firstn]. split; [exact Hn|]. split; [exact Hp|].
    intros y [<-|Hy]; [exact Ea|apply Hf, Hy].
Qed.

Lemma position_none {A} (p : A -> bool) : forall l, position p l = None -> forall y, In y l -> p y = false.
Proof.
  induction l as [|a l IH]; intros H y Hy; [destruct Hy|]. cbn [position] in H.
  destruct (p a) eqn:Ea; [discriminate|]. destruct (position p l) eqn:Ej; [discriminate|].
  destruct Hy as [<-|Hy]; [exact Ea|apply IH; [reflexivity|exact Hy]].
Qed.

Lemma position_all_false {A} (p : A -> bool) l : (forall y, In y l -> p y = false) -> position p l = None.
Proof.
  induction l as [|a l IH]; intro H; [reflexivity|]. cbn [position].
  rewrite (H a (or_introl eq_refl)), IH; [reflexivity|]. intros y Hy. apply H. right. exact Hy.
Qed.

Lemma firstn_incl {A} (i : nat) (l : list A) : incl (firstn i l) l.
Proof. intros x Hx. rewrite <- (firstn_skipn i l). apply in_or_app. left. exact Hx. Qed.

Lemma nth_error_split_firstn {A} : forall (l : list A) i x, nth_error l i = Some x ->
  l = firstn i l ++ x :: skipn (S i) l.
Proof.
  induction l as [|a l IH]; intros [|i] x H; cbn in H; try discriminate.
  - inversion H; subst. reflexivity.
  - cbn [firstn skipn app]. f_equal. apply IH, H.
Qed.

Inductive cut_result (zs : zones) (q : question) (rrs : list rr) : option (list rr * dname) -> Prop :=
| CutNone : (forall r, In r rrs -> owned_elsewhere zs q r = false) -> cut_result zs q rrs None
| CutSome i r :
    nth_error rrs i = Some r ->
    owned_elsewhere zs q r = true ->
    (forall x, In x (firstn i rrs) -> owned_elsewhere zs q x = false) ->
    cut_result zs q rrs (Some (firstn i rrs, rr_name r)).

Lemma cut_rrs_ok zs q rrs : exists c, cut_rrs zs q rrs = Ok c /\ cut_result zs q rrs c.
Proof.
  unfold cut_rrs. destruct (position (owned_elsewhere zs q) rrs) as [i|] eqn:Ep.
  - destruct (position_some _ _ _ Ep) as (x & Hn & Hp & Hf). rewrite Hn.
    eexists. split; [reflexivity|]. econstructor; eassumption.
  - exists None. split; [reflexivity|]. constructor. apply position_none, Ep.
Qed.

(* no authoritative zone configured (the setting of the C07 theorems: only
   the root-hints zone): nothing is ever cut *)
Definition no_authoritative_zone (zs : zones) : Prop :=
  forall n z, zones_get zs n = Some z -> zone_is_authoritative z = false.

Lemma owned_elsewhere_no_auth zs q r : no_authoritative_zone zs -> owned_elsewhere zs q r = false.
Proof.
  intro H. unfold owned_elsewhere. destruct (zones_get zs (rr_name r)) as [z|] eqn:E.
  - rewrite (H _ _ E). apply andb_false_r.
  - apply andb_false_r.
Qed.

Lemma cut_rrs_none zs q rrs : (forall r, In r rrs -> owned_elsewhere zs q r = false) -> cut_rrs zs q rrs = Ok None.
Proof. intro H. unfold cut_rrs. rewrite position_all_false by exact H. reflexivity. Qed.

Theorem cut_no_auth zs q nr : no_authoritative_zone zs -> cut_at_local_authority zs q nr = Ok nr.
Proof.
  intro H. destruct nr as [rrs s|rrs c|rrs d]; cbn [cut_at_local_authority];
    rewrite ?cut_rrs_none by (intros r _; apply owned_elsewhere_no_auth, H); reflexivity.
Qed.

(* a zone list in which every zone is a hints zone has no authoritative zone *)
Lemma no_auth_of_all zs : (forall n z, In (n, z) zs -> zone_is_authoritative z = false) -> no_authoritative_zone zs.
Proof. intros H n z E. destruct (zones_get_in zs n z E) as [k Hk]. eapply H, Hk. Qed.

(* the records of a validated reply that are cached and used (the Vec of the
   Answer / CNAME / Delegation variant) *)
Definition nr_rrs (nr : nsresponse) : list rr :=
  match nr with NRAnswer rrs _ => rrs | NRCname rrs _ => rrs | NRDelegation rrs _ => rrs end.
Definition nr_soa (nr : nsresponse) : option rr :=
  match nr with NRAnswer _ s => s | _ => None end.

(* cut_shape: the response is unchanged, or it is a CNAME response holding a
   prefix of the records, continued at the owner of the first record cut *)
Inductive cut_shape (zs : zones) (q : question) (nr : nsresponse) : nsresponse -> Prop :=
| ShapeSame : ((exists x y, nr = NRDelegation x y) \/ forall r, In r (nr_rrs nr) -> owned_elsewhere zs q r = false) ->
              cut_shape zs q nr nr
| ShapeCut i r :
    (forall x y, nr <> NRDelegation x y) ->
    nth_error (nr_rrs nr) i = Some r ->
    owned_elsewhere zs q r = true ->
    (forall x, In x (firstn i (nr_rrs nr)) -> owned_elsewhere zs q x = false) ->
    cut_shape zs q nr (NRCname (firstn i (nr_rrs nr)) (rr_name r)).

Theorem cut_ok zs q nr : exists nr', cut_at_local_authority zs q nr = Ok nr' /\ cut_shape zs q nr nr'.
Proof.
  destruct nr as [rrs s|rrs c|rrs d]; cbn [cut_at_local_authority].
  - destruct (cut_rrs_ok zs q rrs) as (c0 & -> & Hc). destruct Hc as [Hn|i r Hn Ho Hf].
    + eexists. split; [reflexivity|]. constructor. right. exact Hn.
    + eexists. split; [reflexivity|]. apply (ShapeCut zs q (NRAnswer rrs s) i r); try assumption. discriminate.
  - destruct (cut_rrs_ok zs q rrs) as (c0 & -> & Hc). destruct Hc as [Hn|i r Hn Ho Hf].
    + eexists. split; [reflexivity|]. constructor. right. exact Hn.
    + eexists. split; [reflexivity|]. apply (ShapeCut zs q (NRCname rrs c) i r); try assumption. discriminate.
  - eexists. split; [reflexivity|]. constructor. left. eauto.
Qed.

(* what resolve_with_nameserver_response caches after the cut: a prefix of the records of the
   response, and -- unless the response is a Delegation -- none of it owned elsewhere *)
Lemma cut_shape_insert zs q nr nr' : cut_shape zs q nr nr' ->
  exists i, nr_rrs nr' = firstn i (nr_rrs nr)
            /\ ((exists x y, nr = NRDelegation x y)
                \/ forall r, In r (firstn i (nr_rrs nr)) -> owned_elsewhere zs q r = false).
Proof.
  intros [H|i r Hnd Hn Ho Hf].
  - exists (length (nr_rrs nr)). rewrite firstn_all. split; [reflexivity|exact H].
  - exists i. split; [reflexivity|]. right. exact Hf.
Qed.

Lemma cut_shape_prefix zs q nr nr' : cut_shape zs q nr nr' -> exists i, nr_rrs nr' = firstn i (nr_rrs nr).
Proof. intro H. destruct (cut_shape_insert _ _ _ _ H) as (i & E & _). exists i. exact E. Qed.

Lemma cut_shape_incl zs q nr nr' : cut_shape zs q nr nr' -> incl (nr_rrs nr') (nr_rrs nr).
Proof. intro H. destruct (cut_shape_prefix _ _ _ _ H) as [i ->]. apply firstn_incl. Qed.

Lemma cut_shape_soa zs q nr nr' : cut_shape zs q nr nr' -> nr_soa nr' = nr_soa nr \/ nr_soa nr' = None.
Proof. intros [H|i r _ _ _ _]; [left|right]; reflexivity. Qed.

(* cut_sound: after the cut, no record of an Answer / CNAME response other
   than those of the question name has a locally authoritative owner *)
Theorem cut_sound zs q nr nr' : cut_at_local_authority zs q nr = Ok nr' ->
  (forall x y, nr' <> NRDelegation x y) ->
  forall r, In r (nr_rrs nr') -> owned_elsewhere zs q r = false.
Proof.
  intros E Hd r Hr. destruct (cut_ok zs q nr) as (nr2 & E2 & Hs). rewrite E in E2. inversion E2; subst nr2.
  destruct Hs as [[(x & y & E')|H]|i r0 _ _ _ Hf]; [destruct (Hd x y E')|apply H, Hr|apply Hf, Hr].
Qed.

Lemma owned_elsewhere_name zs q a b : rr_name a = rr_name b -> owned_elsewhere zs q a = owned_elsewhere zs q b.
Proof. intro E. unfold owned_elsewhere. rewrite E. reflexivity. Qed.

Lemma chain_from_firstn : forall cn a b i r, chain_from a cn = Some b -> nth_error cn i = Some r ->
  chain_from a (firstn i cn) = Some (rr_name r).
Proof.
  induction cn as [|c cn IH]; intros a b i r H Hn; [destruct i; discriminate|].
  cbn [chain_from] in H. destruct (dname_eqb (rr_name c) a && (rr_type c =? RT_CNAME)) eqn:E; [|discriminate].
  destruct (rr_data c) eqn:Ed; try discriminate.
  destruct i.
  - cbn in Hn. inversion Hn; subst. cbn. apply andb_prop in E. destruct E as [E _]. apply dname_eqb_eq in E. rewrite E. reflexivity.
  - cbn [firstn chain_from]. rewrite E, Ed. eapply IH; eassumption.
Qed.

(* a list "alias chain from [a] to [last], then records owned by [last]", cut
   before its first record owned elsewhere, is an alias chain from [a] to the
   owner of that record *)
Lemma cut_chain zs q a cn fin last i r :
  chain_from a cn = Some last -> Forall (fun x => rr_name x = last) fin ->
  nth_error (cn ++ fin) i = Some r -> owned_elsewhere zs q r = true ->
  (forall x, In x (firstn i (cn ++ fin)) -> owned_elsewhere zs q x = false) ->
  chain_from a (firstn i (cn ++ fin)) = Some (rr_name r).
Proof.
  intros Hc Hf Hn Ho Hp.
  destruct (Nat.lt_ge_cases i (length cn)) as [Hl|Hl].
  - rewrite nth_error_app1 in Hn by exact Hl. rewrite firstn_app.
    replace (i - length cn)%nat with O by lia. cbn [firstn]. rewrite app_nil_r. eapply chain_from_firstn; eassumption.
  - rewrite nth_error_app2 in Hn by exact Hl.
    assert (Hr : rr_name r = last). { eapply Forall_forall in Hf; [exact Hf|eapply nth_error_In, Hn]. }
    assert (Hi : i = length cn).
    { destruct (Nat.eq_dec i (length cn)) as [e|ne]; [exact e|]. exfalso.
      destruct fin as [|f0 fin]. { destruct (i - length cn)%nat; discriminate. }
      assert (Hin : In f0 (firstn i (cn ++ f0 :: fin))).
      { rewrite firstn_app. apply in_or_app. right. destruct (i - length cn)%nat eqn:E; [lia|]. left. reflexivity. }
      apply Hp in Hin. rewrite (owned_elsewhere_name zs q f0 r) in Hin; [congruence|].
      inversion Hf; subst. congruence. }
    subst i. rewrite firstn_app, Nat.sub_diag, firstn_all. cbn [firstn]. rewrite app_nil_r, Hr. exact Hc.
Qed.

Lemma owned_elsewhere_qname zs q r : rr_name r = q_name q -> owned_elsewhere zs q r = false.
Proof. intro E. unfold owned_elsewhere. rewrite E, dname_eqb_refl. reflexivity. Qed.

Lemma cut_answer_same zs q rrs soa : (forall r, In r rrs -> owned_elsewhere zs q r = false) ->
  cut_at_local_authority zs q (NRAnswer rrs soa) = Ok (NRAnswer rrs soa).
Proof. intro H. cbn [cut_at_local_authority]. rewrite cut_rrs_none by exact H. reflexivity. Qed.

Lemma cut_cname_same zs q rrs c : (forall r, In r rrs -> owned_elsewhere zs q r = false) ->
  cut_at_local_authority zs q (NRCname rrs c) = Ok (NRCname rrs c).
Proof. intro H. cbn [cut_at_local_authority]. rewrite cut_rrs_none by exact H. reflexivity. Qed.

Lemma cut_delegation_same zs q rrs d : cut_at_local_authority zs q (NRDelegation rrs d) = Ok (NRDelegation rrs d).
Proof. reflexivity. Qed.

(* in terms of the specification (Resolver/LocalSpec.v): not owned elsewhere = owned by the
   question name, or the longest configured apex enclosing the owner is not an authoritative zone *)
Lemma owned_elsewhere_false_spec zs q r : owned_elsewhere zs q r = false ->
  rr_name r = q_name q \/ ~ in_auth_zone zs (rr_name r).
Proof.
  unfold owned_elsewhere. intro H. apply andb_false_iff in H. destruct H as [H|H].
  - left. apply negb_false_iff in H. apply dname_eqb_eq in H. exact H.
  - right. intros (z & Ez & Hs). rewrite Ez in H. unfold zone_is_authoritative in H. destruct (z_soa z); [discriminate|congruence].
Qed.

Lemma owned_elsewhere_true_spec zs q r : owned_elsewhere zs q r = true ->
  rr_name r <> q_name q /\ in_auth_zone zs (rr_name r).
Proof.
  unfold owned_elsewhere. intro H. apply andb_prop in H. destruct H as [H1 H2]. split.
  - intro E. rewrite E, dname_eqb_refl in H1. discriminate.
  - unfold in_auth_zone. destruct (zones_get zs (rr_name r)) as [z|]; [|discriminate]. exists z. split; [reflexivity|].
    unfold zone_is_authoritative in H2. destruct (z_soa z); [discriminate|discriminate].
Qed.
