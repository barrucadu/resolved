(* Hosts/HostsSpec.v -- the specification side of C14: what a hosts file is
   and what it means, independent of the state machine of parse_line.

   A file is a list of lines; a line is blank, a comment, a line whose address
   carries an interface suffix, or a mapping line
       <white space> address (<white space> name)* <white space> [# comment]
   with arbitrary (ASCII) white space, any number of names, and a comment after
   any field, glued to it or not.  [render] writes the text, [denote] is the
   meaning: a pair of partial functions name -> address built by
   last-writer-wins updates per (name, family).

   Shared with the model: only the address codec ([parse_ip], Ip/IpModel.v) and
   the name type with its text reader ([from_dotted_string], specified by C16's
   [dotted_spec]). *)
From RV Require Import Base.Prelude Name.NameModel Name.NameSpec Ip.IpModel.

(* ---- syntax ---- *)

Record mline := {
  m_lead : list N;                      (* white space before the address *)
  m_addr : list N;                      (* the address field *)
  m_names : list (list N * list N);     (* (white space, name field) *)
  m_trail : list N;                     (* white space after the last field *)
  m_comment : option (list N)           (* text after '#', if any *)
}.

Inductive line :=
| Blank (ws : list N)
| Comment (ws text : list N)
| Scoped (ws pre rest : list N)         (* address with an interface suffix: pre%rest... *)
| Map (m : mline).

(* line terminator *)
Inductive eol := LF | CRLF.

Definition file := list (line * eol).

Definition render_comment (c : option (list N)) : list N :=
  match c with Some t => 35 :: t | None => [] end.

Definition render_line (l : line) : list N :=
  match l with
  | Blank ws => ws
  | Comment ws t => ws ++ 35 :: t
  | Scoped ws pre rest => ws ++ pre ++ 37 :: rest
  | Map m => m_lead m ++ m_addr m ++ concat (map (fun p => fst p ++ snd p) (m_names m))
             ++ m_trail m ++ render_comment (m_comment m)
  end.

Definition render_eol (e : eol) : list N := match e with LF => [10] | CRLF => [13; 10] end.

(* every line is terminated by "\n" or "\r\n" *)
Definition render (f : file) : list N := concat (map (fun l => render_line (fst l) ++ render_eol (snd l)) f).
(* ... except possibly the last one *)
Definition render_open (f : file) (last : line) : list N := render f ++ render_line last.

(* ---- character classes ---- *)

(* ASCII white space other than the line terminator: HT VT FF CR SP *)
Definition wsc (c : N) : Prop := c = 9 \/ c = 11 \/ c = 12 \/ c = 13 \/ c = 32.
(* a character of a field: ASCII, not white space (hence not '\n'), not '#' *)
Definition fieldc (c : N) : Prop :=
  c < 128 /\ c <> 9 /\ c <> 10 /\ c <> 11 /\ c <> 12 /\ c <> 13 /\ c <> 32 /\ c <> 35.
Definition field (s : list N) : Prop := s <> [] /\ Forall fieldc s.
(* an address field without interface suffix: '%' may only be its first character *)
Definition nopct (s : list N) : Prop := Forall (fun c => c <> 37) (tl s).
Definition noline (s : list N) : Prop := Forall (fun c => c <> 10) s.

(* ---- well-formedness of the syntax tree (it renders to the line it describes) ---- *)

Definition wf_mline (m : mline) : Prop :=
  Forall wsc (m_lead m) /\ field (m_addr m) /\ nopct (m_addr m)
  /\ Forall (fun p => fst p <> [] /\ Forall wsc (fst p) /\ field (snd p)) (m_names m)
  /\ Forall wsc (m_trail m)
  /\ match m_comment m with Some t => noline t | None => True end.

Definition wf_shape (l : line) : Prop :=
  match l with
  | Blank ws => Forall wsc ws
  | Comment ws t => Forall wsc ws /\ noline t
  | Scoped ws pre rest => Forall wsc ws /\ field pre /\ Forall (fun c => c <> 37) pre /\ noline rest
  | Map m => wf_mline m
  end.

(* a '\r' directly before the line terminator belongs to the terminator (str::lines strips
   one), so the line's own text must not end with one: "a\r\r\n" is not described *)
Definition wf_line (l : line) : Prop :=
  wf_shape l /\ forall s, render_line l <> s ++ [13].

(* ---- meaning ---- *)

(* a name field, taken relative to the root *)
Definition abs_name (s : list N) : option dname :=
  if ends_with_dot s then from_dotted_string s else from_dotted_string (s ++ [46]).

Fixpoint all_some {A} (l : list (option A)) : option (list A) :=
  match l with
  | [] => Some []
  | Some x :: t => match all_some t with Some r => Some (x :: r) | None => None end
  | None :: _ => None
  end.

Definition fmap (V : Type) := dname -> option V.
Definition upd {V} (m : fmap V) (k : dname) (v : V) : fmap V :=
  fun k' => if dname_eqb k' k then Some v else m k'.
Record hden := { d4 : fmap N; d6 : fmap (list N) }.
Definition hden_empty : hden := {| d4 := fun _ => None; d6 := fun _ => None |}.

Definition den_insert (d : hden) (n : dname) (a : ipaddr) : hden :=
  match a with
  | V4 x => {| d4 := upd (d4 d) n x; d6 := d6 d |}
  | V6 g => {| d4 := d4 d; d6 := upd (d6 d) n g |}
  end.

(* what a line contributes: nothing, or an address for every name after it;
   [CBad] = the line is malformed *)
Inductive contrib := CNothing | CMaps (a : ipaddr) (ns : list dname) | CBad.

(* an address-only line maps no names, so it contributes nothing whatever its
   address field is ("zzz", "zzz#c", "zzz ", "zzz #c" are all ignored); a
   malformed address is an error only on a line that maps at least one name *)
Definition line_contrib (l : line) : contrib :=
  match l with
  | Blank _ | Comment _ _ | Scoped _ _ _ => CNothing
  | Map m =>
    match m_names m with
    | [] => CNothing
    | _ :: _ =>
      match parse_ip (m_addr m), all_some (map (fun p => abs_name (snd p)) (m_names m)) with
      | Some a, Some ns => CMaps a ns
      | _, _ => CBad
      end
    end
  end.

Definition valid_line (l : line) : Prop := wf_line l /\ line_contrib l <> CBad.

Definition denote_line (d : hden) (l : line) : hden :=
  match line_contrib l with
  | CMaps a ns => fold_left (fun d n => den_insert d n a) ns d
  | _ => d
  end.

(* last writer wins per (name, family) *)
Definition denote (f : file) : hden := fold_left denote_line (map fst f) hden_empty.
