(* Hosts/HostsProofs.v -- the proofs behind C14.
   Reading: the loop of parse_line equals an index-free loop ([ploop]) that carries the field
   being read instead of its start index, so every slice is taken at ASCII positions and none can
   panic (parse_hosts_total); on the rendering of a syntax tree of HostsSpec.v that loop returns
   what the tree denotes (parse_valid_line, hosts_parse_denotes, hosts_errors_address,
   hosts_errors_name).
   Zone: Zone::from(hosts) is a zone built from a list of insertions, so its tree represents the
   flat list of those (Zone/ZoneProofs.v) and all_records lists exactly that (Zone/ZoneEnum.v):
   hosts_zone_exact, hosts_zone_back, hosts_zone_resolves.
   Writing: what serialise prints is the rendering of valid lines whose meaning is the data
   (hosts_roundtrip). *)
From RV Require Import Zone.ZoneFlat Zone.ZoneProofs Zone.ZoneMergeProofs Zone.ZoneEnum.
From RV Require Import Base.Prelude Name.NameModel Name.NameSpec Name.NameProofs
  Wire.WireTypes Zone.ZoneModel Ip.IpModel Ip.IpProofs Hosts.HostsModel Hosts.HostsSpec.
From Coq Require Import Permutation PeanoNat.

Inductive qstate :=
| QSkipAddr
| QAddr (acc : list N)
| QSkipName
| QName (acc : list N)
| QComment.

Fixpoint ploop (rest : list N) (st : qstate) (address : ipaddr) (bad : option (list N)) (names : list dname)
  : res herr (qstate * ipaddr * option (list N) * list dname) :=
  match rest with
  | [] => Ok (st, address, bad, names)
  | c :: t =>
    match st with
    | QComment => Ok (st, address, bad, names)
    | _ =>
      if negb (is_ascii c) then Err (ExpectedAscii c)
      else
        if c =? 35 then
          match st with
          | QName acc =>
            let* names' := finish_name_at bad (Some acc) names in
            ploop t QComment address bad names'
          | _ => ploop t QComment address bad names
          end
        else
          match st with
          | QComment => Ok (st, address, bad, names)
          | QSkipAddr =>
            if is_whitespace c then ploop t st address bad names
            else ploop t (QAddr [c]) address bad names
          | QAddr acc =>
            if c =? 37 then Ok (st, address, bad, names)
            else if is_whitespace c then
              match parse_ip acc with
              | Some addr => ploop t QSkipName addr bad names
              | None => ploop t QSkipName address (Some acc) names
              end
            else ploop t (QAddr (acc ++ [c])) address bad names
          | QSkipName =>
            if is_whitespace c then ploop t st address bad names
            else ploop t (QName [c]) address bad names
          | QName acc =>
            if is_whitespace c then
              let* names' := finish_name_at bad (Some acc) names in
              ploop t QSkipName address bad names'
            else ploop t (QName (acc ++ [c])) address bad names
          end
    end
  end.

Definition tail_q (r : qstate * ipaddr * option (list N) * list dname) : res herr (option (ipaddr * list dname)) :=
  let '(st, address, bad, names) := r in
  let* names' := match st with
                 | QName acc => finish_name_at bad (Some acc) names
                 | _ => Ok names
                 end in
  if is_nil names' then Ok None else Ok (Some (address, names')).

Definition parse_line' (line : list N) : res herr (option (ipaddr * list dname)) :=
  let* r := ploop line QSkipAddr LOCALHOST_V4 None [] in tail_q r.

Definition tail_p (line : list N) (r : pstate * ipaddr * option (list N) * list dname) : res herr (option (ipaddr * list dname)) :=
  let '(st, address, bad, names) := r in
  let* names' := match st with
                 | ReadingName start => finish_name_at bad (str_slice_from line start) names
                 | _ => Ok names
                 end in
  if is_nil names' then Ok None else Ok (Some (address, names')).

Definition asciic (c : N) : Prop := c < 128.

Lemma is_ascii_true c : is_ascii c = true <-> c < 128.
Proof. unfold is_ascii. apply N.ltb_lt. Qed.

Lemma char_len_ascii c : c < 128 -> char_len c = 1.
Proof. intros H. unfold char_len. apply N.ltb_lt in H. rewrite H. reflexivity. Qed.

Lemma str_split_at_ascii p : forall r pos target, Forall asciic p -> target = pos + llen p ->
  str_split_at (p ++ r) pos target = Some (p, r).
Proof.
  induction p as [|c p IH]; intros r pos target Hp ->.
  - rewrite llen_nil, N.add_0_r. cbn [app]. destruct r; cbn [str_split_at]; rewrite N.eqb_refl; reflexivity.
  - inversion Hp as [|? ? Hc Hp']; subst. rewrite llen_cons. cbn [app str_split_at].
    assert (pos =? pos + (1 + llen p) = false) as -> by (apply N.eqb_neq; lia).
    rewrite (char_len_ascii c Hc).
    assert (pos + (1 + llen p) <? pos + 1 = false) as -> by (apply N.ltb_ge; lia).
    rewrite (IH r (pos + 1) (pos + (1 + llen p)) Hp') by lia. reflexivity.
Qed.

Lemma str_slice_mid p0 acc r : Forall asciic p0 -> Forall asciic acc ->
  str_slice (p0 ++ acc ++ r) (llen p0) (llen p0 + llen acc) = Some acc.
Proof.
  intros H0 H1. unfold str_slice.
  assert (llen p0 + llen acc <? llen p0 = false) as -> by (apply N.ltb_ge; lia).
  rewrite (str_split_at_ascii p0 (acc ++ r) 0 (llen p0) H0) by lia.
  rewrite (str_split_at_ascii acc r (llen p0) (llen p0 + llen acc) H1) by lia. reflexivity.
Qed.

Lemma str_slice_from_ascii p0 acc : Forall asciic p0 ->
  str_slice_from (p0 ++ acc) (llen p0) = Some acc.
Proof.
  intros H0. unfold str_slice_from. rewrite (str_split_at_ascii p0 acc 0 (llen p0) H0) by lia. reflexivity.
Qed.

(* the index-carrying state describes the same field as the field-carrying state *)
Definition srel (pre : list N) (st : pstate) (q : qstate) : Prop :=
  match st, q with
  | SkipToAddress, QSkipAddr => True
  | ReadingAddress start, QAddr acc => exists p0, pre = p0 ++ acc /\ start = llen p0
  | SkipToName, QSkipName => True
  | ReadingName start, QName acc => exists p0, pre = p0 ++ acc /\ start = llen p0
  | CommentToEndOfLine, QComment => True
  | _, _ => False
  end.

Lemma slice_at pre p0 acc c t : pre = p0 ++ acc -> Forall asciic pre ->
  str_slice ((pre ++ [c]) ++ t) (llen p0) (llen pre) = Some acc.
Proof.
  intros -> H. apply Forall_app in H as [H0 H1].
  rewrite <- !app_assoc, llen_app. apply str_slice_mid; assumption.
Qed.

Lemma refine_loop rest : forall pre st q a b ns,
  Forall asciic pre -> srel pre st q ->
  (let* r := parse_loop (pre ++ rest) rest (llen pre) st a b ns in tail_p (pre ++ rest) r)
  = (let* r := ploop rest q a b ns in tail_q r).
Proof.
  induction rest as [|c t IH]; intros pre st q a b ns Hpre Hrel.
  - rewrite app_nil_r. cbn [parse_loop ploop bind tail_p tail_q].
    destruct st, q; cbn [srel] in Hrel; try contradiction; try reflexivity.
    destruct Hrel as (p0 & -> & ->). apply Forall_app in Hpre as [H0 _].
    rewrite (str_slice_from_ascii p0 acc H0). reflexivity.
  - cbn [parse_loop ploop].
    destruct (is_ascii c) eqn:Hasc.
    2:{ destruct st, q; cbn [srel] in Hrel; try contradiction; cbn [negb bind tail_p tail_q]; reflexivity. }
    apply is_ascii_true in Hasc.
    assert (Hpre' : Forall asciic (pre ++ [c])) by (apply Forall_app; split; [assumption|repeat constructor; exact Hasc]).
    assert (Hlen : llen pre + char_len c = llen (pre ++ [c])).
    { rewrite (char_len_ascii c Hasc), llen_app, llen_cons, llen_nil. lia. }
    rewrite Hlen. rewrite (app_assoc pre [c] t : pre ++ c :: t = _).
    cbn [negb].
    (* a field being read stays the text between its start and the current position *)
    assert (Hgrow : forall p0 acc, pre = p0 ++ acc -> exists p1, pre ++ [c] = p1 ++ acc ++ [c] /\ llen p0 = llen p1).
    { intros p0 acc ->. exists p0. rewrite app_assoc. auto. }
    destruct st, q; cbn [srel] in Hrel; try contradiction; try reflexivity.
    1,3: (* skipping *)
      destruct (c =? 35); [apply IH; [assumption|exact I]|];
      destruct (is_whitespace c); apply IH; try assumption; try exact I;
      cbn [srel]; exists pre; split; reflexivity.
    + (* ReadingAddress *)
      destruct Hrel as (p0 & Hp & ->). rewrite (slice_at pre p0 acc c t Hp Hpre).
      destruct (c =? 35); [apply IH; [assumption|exact I]|].
      destruct (c =? 37); [reflexivity|].
      destruct (is_whitespace c); [destruct (parse_ip acc); apply IH; try assumption; exact I|].
      apply IH; [assumption|exact (Hgrow p0 acc Hp)].
    + (* ReadingName *)
      destruct Hrel as (p0 & Hp & ->). rewrite (slice_at pre p0 acc c t Hp Hpre).
      destruct (c =? 35); [|destruct (is_whitespace c); [|apply IH; [assumption|exact (Hgrow p0 acc Hp)]]];
        (destruct (finish_name_at b (Some acc) ns) as [ns'| | |]; cbn [bind]; try reflexivity; apply IH; [assumption|exact I]).
Qed.

Theorem parse_line_refines line : parse_line line = parse_line' line.
Proof.
  (* [parse_line line] is [let* r := parse_loop line line 0 ... in tail_p line r] by definition *)
  apply (refine_loop line [] SkipToAddress QSkipAddr LOCALHOST_V4 None []); [constructor|exact I].
Qed.

Definition total {E A} (r : res E A) : Prop := r <> Panic /\ r <> OutOfFuel.

Lemma total_bind {E A B} (r : res E A) (f : A -> res E B) :
  total r -> (forall x, total (f x)) -> total (bind r f).
Proof. intros [H1 H2] Hf. destruct r; cbn [bind]; try contradiction; [apply Hf|split; discriminate]. Qed.

Lemma total_ok {E A} (x : A) : total (Ok x : res E A).
Proof. split; discriminate. Qed.

Lemma finish_name_at_total b s ns : total (finish_name_at b (Some s) ns).
Proof.
  destruct b; cbn [finish_name_at finish_name]; [split; discriminate|].
  destruct (from_relative_dotted_string root_domain s); split; discriminate.
Qed.

Lemma ploop_total rest : forall q a b ns, total (ploop rest q a b ns).
Proof.
  induction rest as [|c t IH]; intros q a b ns; cbn [ploop]; [apply total_ok|].
  destruct q; try apply total_ok;
    (destruct (negb (is_ascii c)); [split; discriminate|]);
    destruct (c =? 35); try apply IH;
    try (apply total_bind; [apply finish_name_at_total|intros; apply IH]);
    try (destruct (is_whitespace c); apply IH).
  - destruct (c =? 37); [apply total_ok|].
    destruct (is_whitespace c); [|apply IH]. destruct (parse_ip acc); apply IH.
  - destruct (is_whitespace c); [|apply IH].
    apply total_bind; [apply finish_name_at_total|intros; apply IH].
Qed.

Lemma parse_line_total line : total (parse_line line).
Proof.
  rewrite parse_line_refines. apply total_bind; [apply ploop_total|]. intros [[[q a] b] ns].
  apply total_bind; [destruct q; try apply total_ok; apply finish_name_at_total|].
  intros ns'. destruct (is_nil ns'); apply total_ok.
Qed.

Lemma deserialise_lines_total ls : forall h, total (deserialise_lines ls h).
Proof.
  induction ls as [|l ls IH]; intros h; cbn [deserialise_lines]; [apply total_ok|].
  apply total_bind; [apply parse_line_total|]. intros [[a ns]|]; apply IH.
Qed.

(* for every list of scalar values (any N, in fact) the model of Hosts::deserialise returns
   Ok or Err: no slice of parse_line is ever taken off a
   character boundary or out of range. *)
Theorem parse_hosts_total (data : list N) : total (deserialise data).
Proof. apply deserialise_lines_total. Qed.

Lemma lines_go_line s : forall cur rest, noline s ->
  lines_go (s ++ 10 :: rest) cur = strip_cr (rev cur ++ s) :: lines_go rest [].
Proof.
  induction s as [|c s IH]; intros cur rest Hs.
  - cbn [app lines_go]. assert (10 =? 10 = true) as -> by reflexivity. rewrite app_nil_r. reflexivity.
  - inversion Hs as [|? ? Hc Hs']; subst. cbn [app lines_go].
    assert (c =? 10 = false) as -> by (apply N.eqb_neq; exact Hc).
    rewrite (IH (c :: cur) rest Hs'). cbn [rev]. rewrite <- app_assoc. reflexivity.
Qed.

Lemma lines_go_last s : forall cur, noline s ->
  lines_go s cur = match rev cur ++ s with [] => [] | l => [l] end.
Proof.
  induction s as [|c s IH]; intros cur Hs.
  - cbn [lines_go]. rewrite app_nil_r. destruct cur as [|x cur]; [reflexivity|].
    cbn [rev]. destruct (rev cur ++ [x]) eqn:E; [|reflexivity]. destruct (rev cur); discriminate.
  - inversion Hs as [|? ? Hc Hs']; subst. cbn [lines_go].
    assert (c =? 10 = false) as -> by (apply N.eqb_neq; exact Hc).
    rewrite (IH (c :: cur) Hs'). cbn [rev]. rewrite <- app_assoc. reflexivity.
Qed.

Lemma strip_cr_crlf l : strip_cr (l ++ [13]) = l.
Proof. unfold strip_cr. rewrite rev_app_distr. cbn [rev app]. apply rev_involutive. Qed.

Lemma strip_cr_id l : (forall s, l <> s ++ [13]) -> strip_cr l = l.
Proof.
  intros H. unfold strip_cr. destruct (rev l) as [|c r] eqn:E; [reflexivity|].
  destruct (N.eq_dec c 13) as [->|Hc].
  - exfalso. apply (H (rev r)). rewrite <- (rev_involutive l), E. reflexivity.
  - destruct c as [|p]; [reflexivity|]. do 4 (destruct p as [p|p|]; try reflexivity). exfalso. apply Hc. reflexivity.
Qed.

Lemma wsc_facts c : wsc c ->
  is_ascii c = true /\ (c =? 35) = false /\ (c =? 37) = false /\ is_whitespace c = true /\ c <> 10.
Proof. intros [->|[->|[->|[->| ->]]]]; repeat split; try reflexivity; discriminate. Qed.

Lemma fieldc_facts c : fieldc c -> is_ascii c = true /\ (c =? 35) = false /\ is_whitespace c = false /\ c <> 10.
Proof.
  intros (H1 & H2 & H3 & H4 & H5 & H6 & H7 & H8). repeat split.
  - apply is_ascii_true. exact H1.
  - apply N.eqb_neq. exact H8.
  - (* below 128 the White_Space set is SP and HT..CR *)
    pose proof (N_lt_sweep (fun c => implb (is_whitespace c) ((c =? 32) || ((9 <=? c) && (c <=? 13)))) 128 eq_refl c H1) as W. cbv beta in W.
    destruct (is_whitespace c); [|reflexivity]. exfalso. cbn [implb] in W.
    rewrite orb_true_iff, andb_true_iff, N.eqb_eq, !N.leb_le in W. lia.
  - exact H3.
Qed.

(* one turn of the loop on a white-space character, on a field character, on '#' *)
Lemma ploop_ws c t q a b ns : wsc c ->
  ploop (c :: t) q a b ns =
  match q with
  | QSkipAddr | QSkipName => ploop t q a b ns
  | QAddr acc => match parse_ip acc with       (* a malformed address is remembered, not reported *)
                 | Some addr => ploop t QSkipName addr b ns
                 | None => ploop t QSkipName a (Some acc) ns
                 end
  | QName acc => let* ns' := finish_name_at b (Some acc) ns in ploop t QSkipName a b ns'
  | QComment => Ok (q, a, b, ns)
  end.
Proof. intros H. apply wsc_facts in H as (Ha & Hh & Hp & Hw & _). destruct q; cbn [ploop]; rewrite ?Ha, ?Hh, ?Hp, ?Hw; reflexivity. Qed.

Lemma ploop_fc c t q a b ns : fieldc c ->
  ploop (c :: t) q a b ns =
  match q with
  | QSkipAddr => ploop t (QAddr [c]) a b ns
  | QSkipName => ploop t (QName [c]) a b ns
  | QAddr acc => if c =? 37 then Ok (q, a, b, ns) else ploop t (QAddr (acc ++ [c])) a b ns
  | QName acc => ploop t (QName (acc ++ [c])) a b ns
  | QComment => Ok (q, a, b, ns)
  end.
Proof. intros H. apply fieldc_facts in H as (Ha & Hh & Hw & _). destruct q; cbn [ploop]; rewrite ?Ha, ?Hh, ?Hw; reflexivity. Qed.

Lemma ploop_hash t q a b ns :
  ploop (35 :: t) q a b ns =
  match q with
  | QName acc => let* ns' := finish_name_at b (Some acc) ns in Ok (QComment, a, b, ns')
  | _ => Ok (QComment, a, b, ns)
  end.
Proof.
  (* what follows '#' is not looked at: [ploop t QComment] returns at once, whatever [t] is *)
  destruct q; destruct t; reflexivity.
Qed.

Definition skipping (q : qstate) : Prop := match q with QSkipAddr | QSkipName => True | _ => False end.

Lemma ploop_ws_skip w : forall r q a b ns, Forall wsc w -> skipping q -> ploop (w ++ r) q a b ns = ploop r q a b ns.
Proof.
  induction w as [|c w IH]; intros r q a b ns H Hq; [reflexivity|]. inversion H; subst.
  cbn [app]. rewrite ploop_ws by assumption. destruct q; try contradiction; apply IH; assumption.
Qed.

(* the rest of a field: [QAddr] stops at '%' *)
Lemma ploop_field (mkq : list N -> qstate) f : forall r acc a b ns,
  mkq = QName \/ (mkq = QAddr /\ Forall (fun c => c <> 37) f) -> Forall fieldc f ->
  ploop (f ++ r) (mkq acc) a b ns = ploop r (mkq (acc ++ f)) a b ns.
Proof.
  induction f as [|c f IH]; intros r acc a b ns Hk H; [rewrite app_nil_r; reflexivity|].
  inversion H; subst. cbn [app]. rewrite ploop_fc, (app_assoc acc [c] f : acc ++ c :: f = _) by assumption.
  destruct Hk as [-> | [-> Hp]]; [apply IH; auto|].
  inversion Hp as [|? ? Hc Hp']; subst. apply N.eqb_neq in Hc. rewrite Hc. apply IH; auto.
Qed.

(* a whole field read from the skipping state *)
Lemma ploop_addr_field f r a b ns : field f -> nopct f ->
  ploop (f ++ r) QSkipAddr a b ns = ploop r (QAddr f) a b ns.
Proof.
  intros [Hne Hf] Hp. destruct f as [|c f]; [contradiction|]. inversion Hf; subst.
  cbn [app]. rewrite ploop_fc by assumption. apply (ploop_field QAddr f r [c]); auto.
Qed.
Lemma ploop_name_field f r a b ns : field f ->
  ploop (f ++ r) QSkipName a b ns = ploop r (QName f) a b ns.
Proof.
  intros [Hne Hf]. destruct f as [|c f]; [contradiction|]. inversion Hf; subst.
  cbn [app]. rewrite ploop_fc by assumption. apply (ploop_field QName f r [c]); auto.
Qed.

(* finishing names one after the other; [b] = the malformed address read before them, if any *)
Fixpoint finish_all (b : option (list N)) (strs : list (list N)) (ns : list dname) : res herr (list dname) :=
  match strs with
  | [] => Ok ns
  | s :: t => let* ns' := finish_name_at b (Some s) ns in finish_all b t ns'
  end.

Definition line_result (a : ipaddr) (r : res herr (list dname)) : res herr (option (ipaddr * list dname)) :=
  let* ns := r in if is_nil ns then Ok None else Ok (Some (a, ns)).

(* the end of a line: white space, then possibly a comment *)
Lemma line_end_name trail c acc a b ns : Forall wsc trail ->
  (let* r := ploop (trail ++ render_comment c) (QName acc) a b ns in tail_q r)
  = line_result a (finish_name_at b (Some acc) ns).
Proof.
  intros Ht. unfold line_result. destruct trail as [|w trail].
  - cbn [app]. destruct c as [t|]; cbn [render_comment].
    + rewrite ploop_hash. destruct (finish_name_at b (Some acc) ns); reflexivity.
    + cbn [ploop bind tail_q]. reflexivity.
  - inversion Ht; subst. cbn [app]. rewrite ploop_ws by assumption.
    destruct (finish_name_at b (Some acc) ns) as [ns'| | |]; cbn [bind]; try reflexivity.
    rewrite ploop_ws_skip by (assumption || exact I).
    destruct c as [t|]; cbn [render_comment]; [rewrite ploop_hash|]; reflexivity.
Qed.

(* ... in a skipping state nothing is pending: a remembered malformed address is forgotten *)
Lemma line_end_skip trail c q a b ns : Forall wsc trail -> skipping q ->
  (let* r := ploop (trail ++ render_comment c) q a b ns in tail_q r)
  = if is_nil ns then Ok None else Ok (Some (a, ns)).
Proof.
  intros Ht Hq. rewrite ploop_ws_skip by assumption.
  destruct c as [t|]; cbn [render_comment]; [rewrite ploop_hash|]; destruct q; try contradiction; reflexivity.
Qed.

(* what wf_mline asks of each (white space, name) pair *)
Definition wf_pair (p : list N * list N) : Prop := fst p <> [] /\ Forall wsc (fst p) /\ field (snd p).

Lemma bind_assoc {E A B C} (r : res E A) (f : A -> res E B) (g : B -> res E C) :
  bind (bind r f) g = bind r (fun x => bind (f x) g).
Proof. destruct r; reflexivity. Qed.

Lemma names_then_end names : forall acc a b ns trail c,
  Forall wf_pair names -> Forall wsc trail ->
  (let* r := ploop (concat (map (fun p => fst p ++ snd p) names) ++ trail ++ render_comment c) (QName acc) a b ns
   in tail_q r)
  = line_result a (finish_all b (acc :: map snd names) ns).
Proof.
  induction names as [|[ws nm] names IH]; intros acc a b ns trail c Hn Ht.
  - cbn [map concat app finish_all]. rewrite line_end_name by assumption.
    unfold line_result. destruct (finish_name_at b (Some acc) ns); reflexivity.
  - inversion Hn as [|? ? (Hne & Hws & Hf) Hn']; subst. cbn [fst snd] in *.
    cbn [map concat fst snd]. rewrite <- !app_assoc.
    destruct ws as [|w ws]; [contradiction|]. inversion Hws; subst.
    cbn [app]. rewrite ploop_ws by assumption.
    cbn [finish_all]. unfold line_result. rewrite !bind_assoc.
    destruct (finish_name_at b (Some acc) ns) as [ns1| | |]; cbn [bind]; try reflexivity.
    rewrite ploop_ws_skip by (assumption || exact I). rewrite ploop_name_field by assumption.
    rewrite (IH nm a b ns1 trail c Hn' Ht). reflexivity.
Qed.

(* a name field is read relative to the root *)
Lemma frds_abs s : s <> [] -> from_relative_dotted_string root_domain s = abs_name s.
Proof.
  intros H. unfold from_relative_dotted_string, abs_name. destruct s as [|c s]; [contradiction|].
  destruct (ends_with_dot (c :: s)); reflexivity.
Qed.

Definition dedupe_into (dn ns : list dname) : list dname := fold_left (fun s n => set_insert n s) dn ns.

Lemma finish_all_ok strs : forall dn ns,
  Forall (fun s => s <> []) strs -> all_some (map abs_name strs) = Some dn ->
  finish_all None strs ns = Ok (dedupe_into dn ns).
Proof.
  induction strs as [|s strs IH]; intros dn ns Hne Hall.
  - injection Hall as <-. reflexivity.
  - inversion Hne as [|? ? Hs Hne']; subst. cbn [map all_some] in Hall.
    destruct (abs_name s) as [d|] eqn:Ed; [|discriminate].
    destruct (all_some (map abs_name strs)) as [dn'|] eqn:Edn; [|discriminate]. injection Hall as <-.
    cbn [finish_all finish_name_at]. unfold finish_name. rewrite (frds_abs s Hs), Ed. cbn [bind].
    rewrite (IH dn' _ Hne' eq_refl). reflexivity.
Qed.

Lemma finish_all_err good bad rest : forall dn ns,
  Forall (fun s => s <> []) good -> bad <> [] ->
  all_some (map abs_name good) = Some dn -> abs_name bad = None ->
  finish_all None (good ++ bad :: rest) ns = Err (CouldNotParseName bad).
Proof.
  induction good as [|s good IH]; intros dn ns Hne Hb Hall Hbad.
  - cbn [app finish_all finish_name_at]. unfold finish_name. rewrite (frds_abs bad Hb), Hbad. reflexivity.
  - inversion Hne as [|? ? Hs Hne']; subst. cbn [map all_some] in Hall.
    destruct (abs_name s) as [d|] eqn:Ed; [|discriminate].
    destruct (all_some (map abs_name good)) as [dn'|] eqn:Edn; [|discriminate].
    cbn [app finish_all finish_name_at]. unfold finish_name at 1. rewrite (frds_abs s Hs), Ed. cbn [bind].
    apply (IH dn' _ Hne' Hb eq_refl Hbad).
Qed.

(* with a malformed address pending, the first name -- well-formed or not -- raises the address error *)
Lemma finish_all_bad addr s rest ns :
  finish_all (Some addr) (s :: rest) ns = Err (CouldNotParseAddress addr).
Proof. reflexivity. Qed.

Lemma set_insert_nonempty n s : set_insert n s <> [].
Proof.
  unfold set_insert. destruct (existsb (dname_eqb n) s) eqn:E.
  - destruct s; [discriminate E|discriminate].
  - destruct s; discriminate.
Qed.

Lemma dedupe_into_nonempty dn : forall ns, dn <> [] \/ ns <> [] -> dedupe_into dn ns <> [].
Proof.
  induction dn as [|d dn IH]; intros ns H.
  - destruct H as [H|H]; [contradiction|exact H].
  - unfold dedupe_into. cbn [fold_left]. apply IH. right. apply set_insert_nonempty.
Qed.

(* the address field of a mapping line: a non-empty run of field characters *)
Lemma wf_mline_tail_nopct m : wf_mline m -> Forall fieldc (m_addr m) /\ m_addr m <> [].
Proof. intros (_ & [Hne Hf] & _). split; assumption. Qed.

(* a line that maps at least one name: a malformed address is the error, whatever the names are *)
Lemma parse_map_line m p names : wf_mline m -> m_names m = p :: names ->
  parse_line' (render_line (Map m)) =
  match parse_ip (m_addr m) with
  | None => Err (CouldNotParseAddress (m_addr m))
  | Some a => line_result a (finish_all None (map snd (m_names m)) [])
  end.
Proof.
  intros (Hl & Ha & Hp & Hn & Ht & _) En. unfold parse_line'. cbn [render_line].
  rewrite ploop_ws_skip by (assumption || exact I). rewrite ploop_addr_field by assumption.
  rewrite En in *. inversion Hn as [|? ? (Hne & Hws & Hf) Hn']; subst.
  destruct p as [ws nm]. cbn [fst snd] in *. cbn [map concat fst snd]. rewrite <- !app_assoc.
  destruct ws as [|w ws]; [contradiction|]. inversion Hws; subst.
  cbn [app]. rewrite ploop_ws by assumption.
  destruct (parse_ip (m_addr m)) as [a|];
    rewrite ploop_ws_skip by (assumption || exact I); rewrite ploop_name_field, names_then_end by assumption; reflexivity.
Qed.

(* a line that maps no names is ignored whatever its address field is: a malformed address is
   remembered and reported only when a name follows (hosts/deserialise.rs parse_line) *)
Lemma parse_addr_only m : wf_mline m -> m_names m = [] ->
  parse_line' (render_line (Map m)) = Ok None.
Proof.
  intros (Hl & Ha & Hp & Hn & Ht & _) En. unfold parse_line'. cbn [render_line].
  rewrite ploop_ws_skip by (assumption || exact I). rewrite ploop_addr_field by assumption.
  rewrite En. cbn [map concat app].
  destruct (m_trail m) as [|w ws].
  - cbn [app]. destruct (m_comment m) as [t|]; cbn [render_comment]; [rewrite ploop_hash|]; reflexivity.
  - inversion Ht; subst. cbn [app]. rewrite ploop_ws by assumption.
    destruct (parse_ip (m_addr m)) as [a|]; apply (line_end_skip ws (m_comment m) QSkipName _ _ []); try assumption; exact I.
Qed.

Theorem address_only_ignored m : wf_mline m -> m_names m = [] ->
  parse_line (render_line (Map m)) = Ok None.
Proof. intros H E. rewrite parse_line_refines. apply parse_addr_only; assumption. Qed.

Definition contrib_result (c : contrib) : option (ipaddr * list dname) :=
  match c with
  | CMaps a dn => Some (a, dedupe_into dn [])
  | _ => None
  end.

(* a valid line parses to what the specification says it contributes *)
Theorem parse_valid_line l : wf_shape l -> line_contrib l <> CBad ->
  parse_line (render_line l) = Ok (contrib_result (line_contrib l)).
Proof.
  intros Hwf Hv. rewrite parse_line_refines. destruct l as [ws|ws t|ws pre rest|m]; cbn [wf_shape] in Hwf.
  - unfold parse_line'. cbn [render_line]. rewrite <- (app_nil_r ws). rewrite ploop_ws_skip by (assumption || exact I). reflexivity.
  - destruct Hwf as [Hws _]. unfold parse_line'. cbn [render_line].
    rewrite ploop_ws_skip by (assumption || exact I). rewrite ploop_hash. reflexivity.
  - destruct Hwf as (Hws & Hf & Hp & _). unfold parse_line'. cbn [render_line].
    rewrite ploop_ws_skip by (assumption || exact I). rewrite ploop_addr_field; [|assumption|].
    + reflexivity.
    + unfold nopct. destruct pre; [constructor|]. inversion Hp; assumption.
  - cbn [line_contrib] in *. destruct (m_names m) as [|p names] eqn:En.
    + rewrite (parse_addr_only m Hwf En). reflexivity.
    + rewrite (parse_map_line m p names Hwf En).
      destruct (parse_ip (m_addr m)) as [a|]; [|contradiction].
      rewrite En.
      destruct (all_some (map (fun p0 => abs_name (snd p0)) (p :: names))) as [dn|] eqn:Edn; [|contradiction].
      rewrite <- map_map in Edn.
      assert (Hne : Forall (fun s => s <> []) (map snd (p :: names))).
      { destruct Hwf as (_ & _ & _ & Hn & _). rewrite En in Hn. apply Forall_map.
        eapply Forall_impl; [|exact Hn]. intros q (_ & _ & [Hq _]). exact Hq. }
      rewrite (finish_all_ok _ dn [] Hne Edn). unfold line_result. cbn [bind contrib_result].
      destruct (dedupe_into dn []) eqn:Ed; [|reflexivity].
      exfalso. apply (dedupe_into_nonempty dn []); [|exact Ed]. left.
      destruct dn; [|discriminate]. cbn [map all_some] in Edn.
      destruct (abs_name (snd p)); [|discriminate]. destruct (all_some (map abs_name (map snd names))); discriminate.
Qed.

Lemma dname_eqb_spec a b : reflect (a = b) (dname_eqb a b).
Proof.
  destruct (dname_eqb a b) eqn:E; constructor.
  - apply dname_eqb_eq. exact E.
  - intros H. apply dname_eqb_eq in H. congruence.
Qed.

(* the model's maps and the specification's functions agree *)
Definition agrees (h : hosts) (d : hden) : Prop :=
  forall k, alookup dname_eqb k (h_v4 h) = d4 d k /\ alookup dname_eqb k (h_v6 h) = d6 d k.

Definition nodup_keys (h : hosts) : Prop := NoDup (map fst (h_v4 h)) /\ NoDup (map fst (h_v6 h)).

Lemma agrees_insert h d n a : agrees h d -> agrees (hosts_insert h n a) (den_insert d n a).
Proof.
  intros H k. destruct (H k) as [H4 H6].
  destruct a; cbn [hosts_insert den_insert h_v4 h_v6 d4 d6]; unfold upd; rewrite ?(alookup_ainsert dname_eqb dname_eqb_eq), ?H4, ?H6; split; reflexivity.
Qed.

Lemma nodup_insert h n a : nodup_keys h -> nodup_keys (hosts_insert h n a).
Proof.
  intros [H4 H6]. destruct a; cbn [hosts_insert]; split; cbn [h_v4 h_v6]; try assumption; apply (ainsert_nodup dname_eqb dname_eqb_eq); assumption.
Qed.

Lemma agrees_fold a l : forall h d, agrees h d ->
  agrees (fold_left (fun acc n => hosts_insert acc n a) l h) (fold_left (fun d n => den_insert d n a) l d).
Proof.
  induction l as [|n l IH]; intros h d H; [exact H|]. cbn [fold_left]. apply IH. apply agrees_insert. exact H.
Qed.

Lemma nodup_fold a l : forall h, nodup_keys h -> nodup_keys (fold_left (fun acc n => hosts_insert acc n a) l h).
Proof.
  induction l as [|n l IH]; intros h H; [exact H|]. cbn [fold_left]. apply IH. apply nodup_insert. exact H.
Qed.

Definition den_eq (d d' : hden) : Prop := forall k, d4 d k = d4 d' k /\ d6 d k = d6 d' k.

(* the value of the specification's fold: the address for every listed name *)
Lemma den_fold_closed a l : forall d k,
  let d' := fold_left (fun d n => den_insert d n a) l d in
  d4 d' k = (match a with V4 x => if existsb (dname_eqb k) l then Some x else d4 d k | V6 _ => d4 d k end)
  /\ d6 d' k = (match a with V6 g => if existsb (dname_eqb k) l then Some g else d6 d k | V4 _ => d6 d k end).
Proof.
  induction l as [|n l IH]; intros d k; cbn [fold_left existsb].
  - destruct a; split; reflexivity.
  - cbv zeta in IH. destruct (IH (den_insert d n a) k) as [I4 I6]. cbv zeta. rewrite I4, I6.
    destruct a; cbn [den_insert d4 d6]; unfold upd; split; try reflexivity;
      destruct (dname_eqb k n); cbn [orb]; destruct (existsb (dname_eqb k) l); reflexivity.
Qed.

Lemma existsb_set_insert k n s :
  existsb (dname_eqb k) (set_insert n s) = existsb (dname_eqb k) s || dname_eqb k n.
Proof.
  unfold set_insert. destruct (existsb (dname_eqb n) s) eqn:E.
  - destruct (dname_eqb_spec k n) as [->|]; [rewrite E; reflexivity|rewrite orb_false_r; reflexivity].
  - rewrite existsb_app. cbn [existsb]. rewrite orb_false_r. reflexivity.
Qed.

Lemma existsb_dedupe k l : forall s,
  existsb (dname_eqb k) (dedupe_into l s) = existsb (dname_eqb k) s || existsb (dname_eqb k) l.
Proof.
  induction l as [|n l IH]; intros s; unfold dedupe_into; cbn [fold_left existsb].
  - rewrite orb_false_r. reflexivity.
  - fold (dedupe_into l (set_insert n s)). rewrite IH, existsb_set_insert, orb_assoc. reflexivity.
Qed.

Lemma den_fold_dedupe a l d :
  den_eq (fold_left (fun d n => den_insert d n a) (dedupe_into l []) d)
         (fold_left (fun d n => den_insert d n a) l d).
Proof.
  intros k. destruct (den_fold_closed a (dedupe_into l []) d k) as [A4 A6].
  destruct (den_fold_closed a l d k) as [B4 B6]. cbv zeta in *.
  rewrite A4, A6, B4, B6, existsb_dedupe. cbn [existsb orb]. split; reflexivity.
Qed.

Lemma agrees_den_eq h d d' : agrees h d -> den_eq d d' -> agrees h d'.
Proof. intros H E k. destruct (H k) as [H4 H6]. destruct (E k) as [E4 E6]. rewrite <- E4, <- E6. split; assumption. Qed.

Lemma wsc_noline w : Forall wsc w -> noline w.
Proof. intros H. eapply Forall_impl; [|exact H]. intros c Hc. apply wsc_facts in Hc. tauto. Qed.
Lemma field_noline f : Forall fieldc f -> noline f.
Proof. intros H. eapply Forall_impl; [|exact H]. intros c Hc. apply fieldc_facts in Hc. tauto. Qed.

Lemma noline_app a b : noline a -> noline b -> noline (a ++ b).
Proof. intros. apply Forall_app. split; assumption. Qed.

Lemma render_line_noline l : wf_shape l -> noline (render_line l).
Proof.
  destruct l as [ws|ws t|ws pre rest|m]; cbn [wf_shape render_line].
  - apply wsc_noline.
  - intros [H1 H2]. apply noline_app; [apply wsc_noline; assumption|]. constructor; [discriminate|assumption].
  - intros (H1 & [_ H2] & _ & H4). apply noline_app; [apply wsc_noline; assumption|].
    apply noline_app; [apply field_noline; assumption|]. constructor; [discriminate|assumption].
  - intros (Hl & [_ Ha] & _ & Hn & Ht & Hc).
    apply noline_app; [apply wsc_noline; assumption|].
    apply noline_app; [apply field_noline; assumption|].
    apply noline_app.
    + induction Hn as [|p ps (_ & Hw & [_ Hf]) _ IH]; [constructor|]. cbn [map concat].
      apply noline_app; [|exact IH]. apply noline_app; [apply wsc_noline|apply field_noline]; assumption.
    + apply noline_app; [apply wsc_noline; assumption|].
      destruct (m_comment m); cbn [render_comment]; [|constructor]. constructor; [discriminate|assumption].
Qed.

Lemma str_lines_terminated (f : file) : forall rest,
  Forall (fun le => wf_line (fst le)) f ->
  lines_go (render f ++ rest) [] = map (fun le => render_line (fst le)) f ++ lines_go rest [].
Proof.
  unfold render. induction f as [|[l e] f IH]; intros rest H; [reflexivity|].
  inversion H as [|? ? [Hn Hc] H']; subst. cbn [map concat fst snd] in *.
  apply render_line_noline in Hn. set (t := render_line l) in *.
  rewrite <- !app_assoc. destruct e; cbn [render_eol].
  - cbn [app]. rewrite (lines_go_line t [] _ Hn). cbn [rev app]. rewrite (strip_cr_id t Hc).
    rewrite IH by assumption. reflexivity.
  - change (t ++ [13; 10] ++ concat (map (fun le => render_line (fst le) ++ render_eol (snd le)) f) ++ rest)
      with (t ++ [13] ++ 10 :: (concat (map (fun le => render_line (fst le) ++ render_eol (snd le)) f) ++ rest)).
    rewrite app_assoc. rewrite (lines_go_line (t ++ [13]) [] _).
    + cbn [rev app]. rewrite strip_cr_crlf. rewrite IH by assumption. reflexivity.
    + apply Forall_app. split; [exact Hn|]. repeat constructor. discriminate.
Qed.

Lemma str_lines_render f : Forall (fun le => wf_line (fst le)) f ->
  str_lines (render f) = map (fun le => render_line (fst le)) f.
Proof.
  intros H. unfold str_lines. rewrite <- (app_nil_r (render f)), (str_lines_terminated f [] H). apply app_nil_r.
Qed.

Lemma deserialise_lines_valid ls : forall h d,
  Forall valid_line ls -> agrees h d -> nodup_keys h ->
  exists h', deserialise_lines (map render_line ls) h = Ok h'
             /\ agrees h' (fold_left denote_line ls d) /\ nodup_keys h'.
Proof.
  induction ls as [|l ls IH]; intros h d Hv Ha Hn.
  - exists h. split; [reflexivity|]. split; assumption.
  - inversion Hv as [|? ? [[Hs _] Hc] Hv']; subst. cbn [map deserialise_lines fold_left].
    rewrite (parse_valid_line l Hs Hc). cbn [bind]. unfold denote_line at 2.
    destruct (line_contrib l) as [|a dn|]; cbn [contrib_result]; try (apply IH; assumption).
    apply IH; [assumption| |apply nodup_fold; assumption].
    eapply agrees_den_eq; [apply agrees_fold; exact Ha|apply den_fold_dedupe].
Qed.

(* reading the text of a file yields its meaning -- every mapping line
   maps its address to every name after it, '#' anywhere starts a comment, blank,
   comment-only and address-only lines contribute nothing, a line whose address has an
   interface suffix is skipped, later lines override earlier ones per (name, family) *)
Theorem hosts_parse_denotes f : Forall (fun le => valid_line (fst le)) f ->
  exists h, deserialise (render f) = Ok h /\ agrees h (denote f) /\ nodup_keys h.
Proof.
  intros Hv. unfold deserialise. rewrite str_lines_render.
  - rewrite <- map_map. apply deserialise_lines_valid.
    + apply Forall_map. exact Hv.
    + intros k. split; reflexivity.
    + split; constructor.
  - eapply Forall_impl; [|exact Hv]. intros le [Hw _]. exact Hw.
Qed.

(* the first line whose parse is an error makes the whole file that error (earlier lines valid,
   later lines arbitrary); hosts_errors_address and hosts_errors_name are its two instances *)
Lemma deserialise_first_error f l e rest err :
  Forall (fun le => valid_line (fst le)) f -> wf_line l -> Forall (fun le => wf_line (fst le)) rest ->
  parse_line (render_line l) = Err err ->
  deserialise (render (f ++ (l, e) :: rest)) = Err err.
Proof.
  intros Hv Hl Hr Hp. unfold deserialise. rewrite str_lines_render.
  - rewrite map_app. cbn [map fst].
    assert (G : forall ls h, Forall valid_line ls -> forall tl,
              deserialise_lines (map render_line ls ++ render_line l :: tl) h = Err err).
    { induction ls as [|x ls IH]; intros h Hx tl0.
      - cbn [map app deserialise_lines]. rewrite Hp. reflexivity.
      - inversion Hx as [|? ? [[Hs _] Hc] Hx']; subst. cbn [map app deserialise_lines].
        rewrite (parse_valid_line x Hs Hc). cbn [bind].
        destruct (contrib_result (line_contrib x)) as [[a ns]|]; apply IH; assumption. }
    rewrite <- (map_map fst render_line f). apply G. apply Forall_map. exact Hv.
  - apply Forall_app. split.
    + eapply Forall_impl; [|exact Hv]. intros le [Hw _]. exact Hw.
    + constructor; assumption.
Qed.

Theorem hosts_errors_address f m e rest p names :
  Forall (fun le => valid_line (fst le)) f -> wf_line (Map m) -> Forall (fun le => wf_line (fst le)) rest ->
  m_names m = p :: names -> parse_ip (m_addr m) = None ->
  deserialise (render (f ++ (Map m, e) :: rest)) = Err (CouldNotParseAddress (m_addr m)).
Proof.
  intros Hv Hl Hr En Ha. apply deserialise_first_error; try assumption.
  rewrite parse_line_refines, (parse_map_line m p names (proj1 Hl) En), Ha. reflexivity.
Qed.

Theorem hosts_errors_name f m e rest a good ws bad more dn :
  Forall (fun le => valid_line (fst le)) f -> wf_line (Map m) -> Forall (fun le => wf_line (fst le)) rest ->
  m_names m = good ++ (ws, bad) :: more -> parse_ip (m_addr m) = Some a ->
  all_some (map (fun p => abs_name (snd p)) good) = Some dn -> abs_name bad = None ->
  deserialise (render (f ++ (Map m, e) :: rest)) = Err (CouldNotParseName bad).
Proof.
  intros Hv Hl Hr En Ha Hg Hb. apply deserialise_first_error; try assumption.
  pose proof Hl as [(_ & _ & _ & Hn0 & _) _].
  assert (Hn : Forall wf_pair (good ++ (ws, bad) :: more)) by (rewrite <- En; exact Hn0).
  assert (exists p names, m_names m = p :: names) as (p & names & E).
  { rewrite En. destruct good; eexists; eexists; reflexivity. }
  rewrite parse_line_refines, (parse_map_line m p names (proj1 Hl) E), Ha, En.
  rewrite map_app. cbn [map snd]. apply Forall_app in Hn as [Hg' Hb'].
  rewrite <- map_map in Hg.
  rewrite (finish_all_err (map snd good) bad (map snd more) dn []); [reflexivity| | |exact Hg|exact Hb].
  - apply Forall_map. eapply Forall_impl; [|exact Hg']. intros q (_ & _ & [Hq _]). exact Hq.
  - inversion Hb' as [|? ? (_ & _ & [Hne _]) _]; subst. exact Hne.
Qed.

Lemma str_lines_render_open f last :
  Forall (fun le => wf_line (fst le)) f -> wf_shape last ->
  str_lines (render_open f last)
  = map (fun le => render_line (fst le)) f ++ match render_line last with [] => [] | l => [l] end.
Proof.
  intros H Hl. unfold str_lines, render_open.
  rewrite (str_lines_terminated f _ H), (lines_go_last _ [] (render_line_noline last Hl)). reflexivity.
Qed.

Theorem hosts_parse_denotes_open f last :
  Forall (fun le => valid_line (fst le)) f -> valid_line last ->
  exists h, deserialise (render_open f last) = Ok h /\ agrees h (denote (f ++ [(last, LF)])) /\ nodup_keys h.
Proof.
  intros Hv Hl. unfold deserialise. rewrite str_lines_render_open.
  2:{ eapply Forall_impl; [|exact Hv]. intros le [Hw _]. exact Hw. }
  2:{ apply Hl. }
  assert (Hvf : Forall valid_line (map fst f)) by (apply Forall_map; exact Hv).
  assert (A0 : agrees hosts_new hden_empty) by (intros k; split; reflexivity).
  assert (N0 : nodup_keys hosts_new) by (split; constructor).
  unfold denote. rewrite map_app. cbn [map fst]. rewrite fold_left_app. cbn [fold_left].
  destruct (render_line last) as [|c t] eqn:E.
  - rewrite app_nil_r, <- map_map.
    destruct (deserialise_lines_valid (map fst f) hosts_new hden_empty Hvf A0 N0) as (h & Hd & Ha & Hn).
    exists h. split; [exact Hd|]. split; [|exact Hn].
    destruct Hl as [[Hs _] Hc]. pose proof (parse_valid_line last Hs Hc) as P. rewrite E in P.
    assert (P0 : parse_line [] = Ok None) by reflexivity. rewrite P0 in P. injection P as P.
    unfold denote_line. destruct (line_contrib last); try exact Ha. discriminate P.
  - rewrite <- E, <- map_map.
    change (map render_line (map fst f) ++ [render_line last]) with (map render_line (map fst f) ++ map render_line [last]).
    rewrite <- map_app.
    destruct (deserialise_lines_valid (map fst f ++ [last]) hosts_new hden_empty) as (h & Hd & Ha & Hn); try assumption.
    { apply Forall_app. split; [exact Hvf|constructor; [exact Hl|constructor]]. }
    exists h. split; [exact Hd|]. split; [|exact Hn]. rewrite fold_left_app in Ha. exact Ha.
Qed.

Definition mk (ls : list label) : dname := {| labels := ls; nlen := sum_lens ls |}.

Lemma mk_of_wf n : wf_name n -> mk (labels n) = n.
Proof. destruct n as [ls len]. intros [_ H]. cbn in *. unfold mk. cbn. rewrite H. reflexivity. Qed.

Lemma mk_root : mk [[]] = root_domain.
Proof. reflexivity. Qed.

(* all (owner, record) pairs of a record dump *)
Definition pairs_of (recs : list (dname * list zrec)) : list (dname * zrec) :=
  flat_map (fun p => map (pair (fst p)) (snd p)) recs.
Definition zone_pairs (z : zone) : list (dname * zrec) := pairs_of (zone_all_records z).

(* every node carries the name its position in the tree says: the child reached by
   label l from a node named L is named l :: L *)
Inductive wn : list label -> node -> Prop :=
| wn_intro L this wild cs :
    Forall (fun lc => wn (fst lc :: L) (snd lc)) cs -> wn L (Node (mk L) this wild cs).

Lemma wn_name L nd : wn L nd -> n_nsdname nd = mk L.
Proof. intros H. destruct H. reflexivity. Qed.

(* the labels of the root apex: a well-formed name is  front ++ rootl *)
Definition rootl : list label := [[]].

Lemma wf_name_front n : wf_name n -> exists front : list label, labels n = front ++ rootl.
Proof. intros [(front & E & _) _]. exists front. exact E. Qed.

Definition hrec (ty : N) (d : rdata) : zrec := {| zr_type := ty; zr_data := d; zr_ttl := HOSTS_TTL |}.

(* hosts data as the constructors build it *)
Definition wf_hosts (h : hosts) : Prop :=
  Forall (fun kv => wf_name (fst kv)) (h_v4 h) /\ Forall (fun kv => wf_name (fst kv)) (h_v6 h)
  /\ NoDup (map fst (h_v4 h)) /\ NoDup (map fst (h_v6 h)).

Definition rec_v4 (kv : dname * N) : dname * zrec := (fst kv, hrec RT_A (RD_A (snd kv))).
Definition rec_v6 (kv : dname * list N) : dname * zrec := (fst kv, hrec RT_AAAA (RD_AAAA (snd kv))).

(* Zone::from(hosts) is a zone built from a list of insertions, so its record tree represents
   (ZoneProofs.R) the flat list of those insertions *)
Definition op_of {V} (ty : N) (mkd : V -> rdata) (kv : dname * V) : zop :=
  {| op_wild := false; op_name := fst kv; op_type := ty; op_data := mkd (snd kv); op_ttl := HOSTS_TTL |}.
Definition hosts_ops (h : hosts) : list zop :=
  map (op_of RT_A RD_A) (h_v4 h) ++ map (op_of RT_AAAA RD_AAAA) (h_v6 h).
Definition hosts_flat (h : hosts) : fzone := flat_of_ops root_domain None (hosts_ops h).

Lemma zone_insert_all_apply {V} ty (mkd : V -> rdata) m : forall z,
  zone_insert_all ty mkd m z = zone_apply_all z (map (op_of ty mkd) m).
Proof.
  induction m as [|[n a] m IH]; intros z; [reflexivity|]. cbn [zone_insert_all map zone_apply_all].
  change (zone_apply z (op_of ty mkd (n, a))) with (zone_insert false z n ty (mkd a) HOSTS_TTL).
  destruct (zone_insert false z n ty (mkd a) HOSTS_TTL); cbn [bind]; auto.
Qed.

Lemma hosts_to_zone_build h : hosts_to_zone h = zone_build root_domain None (hosts_ops h).
Proof.
  unfold hosts_to_zone, zone_build, hosts_ops. rewrite zone_apply_all_app, zone_insert_all_apply.
  destruct (zone_apply_all _ (map _ (h_v4 h))); cbn [bind]; auto using zone_insert_all_apply.
Qed.

Lemma hosts_flat_in h q r :
  In (q, r) (f_norm (hosts_flat h)) <->
  (exists n a, In (n, a) (h_v4 h) /\ labels n = q ++ rootl /\ r = hrec RT_A (RD_A a))
  \/ (exists n a, In (n, a) (h_v6 h) /\ labels n = q ++ rootl /\ r = hrec RT_AAAA (RD_AAAA a)).
Proof.
  split.
  - intros H. apply (flat_of_ops_sound root_domain None (hosts_ops h) false) in H.
    destruct H as [(_ & _ & so & E & _)|(o & Ho & _ & Hp & ->)]; [discriminate E|].
    apply rel_path_some in Hp. apply in_app_or in Ho as [Ho|Ho]; apply in_map_iff in Ho as ([n a] & <- & Hin);
      [left|right]; exists n, a; auto.
  - intros [(n & a & Hin & E & ->)|(n & a & Hin & E & ->)].
    + apply (flat_of_ops_complete root_domain None (hosts_ops h) (op_of RT_A RD_A (n, a)));
        [apply in_or_app; left; apply in_map; exact Hin|apply rel_path_intro; exact E].
    + apply (flat_of_ops_complete root_domain None (hosts_ops h) (op_of RT_AAAA RD_AAAA (n, a)));
        [apply in_or_app; right; apply in_map; exact Hin|apply rel_path_intro; exact E].
Qed.

Lemma unique_entry {V} (m : list (dname * V)) n n' a a' :
  Forall (fun kv => wf_name (fst kv)) m -> NoDup (map fst m) ->
  In (n, a) m -> In (n', a') m -> labels n' = labels n -> a' = a.
Proof.
  intros W N H H' E. rewrite Forall_forall in W.
  assert (n' = n) as -> by (rewrite <- (mk_of_wf n (W _ H)), <- (mk_of_wf n' (W _ H')), E; reflexivity).
  clear W E. induction m as [|[k v] m IH]; [destruct H|]. cbn [map fst] in N. inversion N as [|? ? Hk N']; subst.
  destruct H as [H|H], H' as [H'|H']; try (apply IH; assumption); try congruence;
    exfalso; apply Hk; [injection H as -> _; apply (in_map fst _ _ H')|injection H' as -> _; apply (in_map fst _ _ H)].
Qed.

Lemma hosts_flat_wild h : f_wild (hosts_flat h) = [].
Proof.
  destruct (f_wild (hosts_flat h)) as [|[q r] l] eqn:E; [reflexivity|]. exfalso.
  assert (Hin : In (q, r) (f_wild (hosts_flat h))) by (rewrite E; left; reflexivity).
  apply (flat_of_ops_sound root_domain None (hosts_ops h) true) in Hin.
  destruct Hin as [(Hw & _)|(o & Ho & Hw & _)]; [discriminate Hw|].
  apply in_app_or in Ho as [Ho|Ho]; apply in_map_iff in Ho as (kv & <- & _); discriminate Hw.
Qed.

Lemma in_pairs_of n r l : In (n, r) (pairs_of l) <-> exists zrs, In (n, zrs) l /\ In r zrs.
Proof.
  unfold pairs_of. rewrite in_flat_map. split.
  - intros ([n' zrs] & Hl & Hr). cbn [fst snd] in Hr. apply in_map_iff in Hr as (r' & [= -> ->] & Hr). eauto.
  - intros (zrs & Hl & Hr). exists (n, zrs). split; [exact Hl|]. apply in_map. exact Hr.
Qed.

Lemma pairs_of_nodup l : NoDup (map fst l) -> (forall n zrs, In (n, zrs) l -> NoDup zrs) -> NoDup (pairs_of l).
Proof.
  induction l as [|[n zrs] l IH]; intros Hk Hz; [constructor|]. cbn [map fst] in Hk. inversion Hk as [|? ? Hn Hk']; subst.
  unfold pairs_of. cbn [flat_map fst snd]. apply nodup_app.
  - apply FinFun.Injective_map_NoDup; [intros x y [= ->]; reflexivity|]. apply (Hz n zrs). left. reflexivity.
  - apply IH; [exact Hk'|]. intros n' z' H. apply (Hz n' z'). right. exact H.
  - intros [n' r] H1 H2. apply in_map_iff in H1 as (r' & [= <- <-] & _).
    apply in_pairs_of in H2 as (z' & H2 & _). apply Hn. apply (in_map fst _ _ H2).
Qed.

(* Zone::from(hosts) succeeds and holds exactly one A record per IPv4 mapping and one AAAA
   record per IPv6 mapping, each with TTL 5, in a zone with the root apex, no SOA and no
   wildcard records *)
Theorem hosts_zone_exact h : wf_hosts h ->
  exists z, hosts_to_zone h = Ok z
            /\ z_apex z = root_domain /\ z_soa z = None /\ zone_all_wildcard_records z = []
            /\ Permutation (zone_pairs z) (map rec_v4 (h_v4 h) ++ map rec_v6 (h_v6 h)).
Proof.
  intros Hwf. pose proof Hwf as (W4 & W6 & N4 & N6). rewrite hosts_to_zone_build.
  destruct (zone_build_R root_domain None (hosts_ops h) root_wf) as (z & Hz & Ha & Hs & HR).
  { apply Forall_app. split; apply Forall_map; assumption. }
  pose proof (zone_build_wf_tree _ _ _ _ Hz) as Ht. fold (hosts_flat h) in HR. change (labels root_domain) with rootl in HR.
  exists z. split; [exact Hz|]. split; [exact Ha|]. split; [exact Hs|]. split.
  - (* a wildcard entry would hold a record of the flat zone's empty wildcard side *)
    destruct (listing_spec rootl (z_records z) (hosts_flat h) true HR Ht) as (_ & He & _). cbv zeta in He.
    unfold zone_all_wildcard_records. destruct (node_all_wildcard_records (z_records z)) as [|[name zrs] l]; [reflexivity|].
    destruct (He name zrs (or_introl eq_refl)) as (Hne & _ & p & _ & Hp). destruct zrs as [|r zrs]; [contradiction|].
    specialize (Hp (zr_type r)). rewrite hosts_flat_wild in Hp. unfold of_type in Hp. cbn [filter] in Hp.
    rewrite N.eqb_refl in Hp. discriminate Hp.
  - destruct (listing_spec rootl (z_records z) (hosts_flat h) false HR Ht) as (Hk & He & Hc). cbv zeta in Hk, He, Hc.
    apply NoDup_Permutation.
    + apply pairs_of_nodup; [exact Hk|]. intros n zrs H. apply (He n zrs H).
    + apply nodup_app.
      * apply (NoDup_map_inv fst). rewrite map_map. exact N4.
      * apply (NoDup_map_inv fst). rewrite map_map. exact N6.
      * intros x H4 H6. apply in_map_iff in H4 as (kv & <- & _). apply in_map_iff in H6 as (kv' & E & _). discriminate E.
    + intros [n r]. unfold zone_pairs, zone_all_records.
      rewrite in_pairs_of, (listing_records rootl (z_records z) (hosts_flat h) false HR Ht n r).
      rewrite Forall_forall in W4, W6. split.
      * intros (p & -> & Hf).
        apply hosts_flat_in in Hf as [(n' & a & Hin & E & ->)|(n' & a & Hin & E & ->)]; apply in_or_app; [left|right];
          apply in_map_iff; exists (n', a); (split; [|exact Hin]); unfold rec_v4, rec_v6; cbn [fst snd]; f_equal;
          rewrite <- E; symmetry; [apply (mk_of_wf n' (W4 _ Hin))|apply (mk_of_wf n' (W6 _ Hin))].
      * intros Hin. apply in_app_or in Hin as [Hin|Hin]; apply in_map_iff in Hin as ([n' a] & [= <- <-] & Hin).
        -- destruct (wf_name_front n' (W4 _ Hin)) as (front & E). exists front.
           split; [rewrite <- E; symmetry; apply (mk_of_wf n' (W4 _ Hin))|apply hosts_flat_in; left; eauto].
        -- destruct (wf_name_front n' (W6 _ Hin)) as (front & E). exists front.
           split; [rewrite <- E; symmetry; apply (mk_of_wf n' (W6 _ Hin))|apply hosts_flat_in; right; eauto].
Qed.

Definition addr_of (zr : zrec) : option ipaddr :=
  if zr_type zr =? RT_A then
    match zr_data zr with RD_A a => Some (V4 a) | _ => None end
  else if zr_type zr =? RT_AAAA then
    match zr_data zr with RD_AAAA a => Some (V6 a) | _ => None end
  else None.

Fixpoint from_pairs (strict : bool) (ps : list (dname * zrec)) (h : hosts) : res tfz_err hosts :=
  match ps with
  | [] => Ok h
  | p :: t =>
    match addr_of (snd p) with
    | Some a => from_pairs strict t (hosts_insert h (fst p) a)
    | None => if strict then Err HasRecordTypesOtherThanA else from_pairs strict t h
    end
  end.

Lemma from_zrs_pairs strict name zrs : forall h,
  from_zrs strict name zrs h = from_pairs strict (map (pair name) zrs) h.
Proof.
  induction zrs as [|zr t IH]; intros h; [reflexivity|].
  cbn [map from_pairs fst snd].
  change (from_zrs strict name (zr :: t) h)
    with (match addr_of zr with
          | Some a => from_zrs strict name t (hosts_insert h name a)
          | None => if strict then Err HasRecordTypesOtherThanA else from_zrs strict name t h
          end).
  destruct (addr_of zr); [apply IH|]. destruct strict; [reflexivity|apply IH].
Qed.

Lemma from_pairs_app strict a : forall b h,
  from_pairs strict (a ++ b) h = (let* h' := from_pairs strict a h in from_pairs strict b h').
Proof.
  induction a as [|p a IH]; intros b h; [reflexivity|].
  cbn [app from_pairs]. destruct (addr_of (snd p)); [apply IH|]. destruct strict; [reflexivity|apply IH].
Qed.

Lemma from_records_pairs strict recs : forall h,
  from_records strict recs h = from_pairs strict (pairs_of recs) h.
Proof.
  induction recs as [|[name zrs] recs IH]; intros h; [reflexivity|].
  cbn [from_records]. unfold pairs_of. cbn [flat_map fst snd]. fold (pairs_of recs).
  rewrite from_pairs_app, from_zrs_pairs.
  destruct (from_pairs strict (map (pair name) zrs) h); cbn [bind]; try reflexivity. apply IH.
Qed.

Definition proj4 (ps : list (dname * zrec)) : list (dname * N) :=
  flat_map (fun p => match addr_of (snd p) with Some (V4 a) => [(fst p, a)] | _ => [] end) ps.
Definition proj6 (ps : list (dname * zrec)) : list (dname * list N) :=
  flat_map (fun p => match addr_of (snd p) with Some (V6 a) => [(fst p, a)] | _ => [] end) ps.

Definition ins_all {V} (l : list (dname * V)) (m : list (dname * V)) : list (dname * V) :=
  fold_left (fun m kv => ainsert dname_eqb (fst kv) (snd kv) m) l m.

Lemma from_pairs_good strict ps : forall h,
  Forall (fun p => addr_of (snd p) <> None) ps ->
  from_pairs strict ps h = Ok {| h_v4 := ins_all (proj4 ps) (h_v4 h); h_v6 := ins_all (proj6 ps) (h_v6 h) |}.
Proof.
  induction ps as [|p ps IH]; intros h Hg.
  - destruct h; reflexivity.
  - inversion Hg as [|? ? Hp Hg']; subst. cbn [from_pairs].
    destruct (addr_of (snd p)) as [a|] eqn:E; [|contradiction].
    rewrite IH by assumption. unfold proj4, proj6. cbn [flat_map]. rewrite E.
    destruct a; cbn [hosts_insert h_v4 h_v6 app ins_all fold_left fst snd]; reflexivity.
Qed.

Lemma ins_all_nodup {V} (l : list (dname * V)) : forall m, NoDup (map fst (m ++ l)) -> ins_all l m = m ++ l.
Proof.
  induction l as [|[k v] l IH]; intros m H; [rewrite app_nil_r; reflexivity|].
  unfold ins_all. cbn [fold_left fst snd]. fold (ins_all l (ainsert dname_eqb k v m)).
  assert (Hn : alookup dname_eqb k m = None).
  { apply (alookup_notin_none dname_eqb dname_eqb_eq). rewrite map_app in H. cbn [map fst] in H.
    apply NoDup_remove_2 in H. intros Hin. apply H. apply in_or_app. left. exact Hin. }
  unfold ainsert. rewrite Hn. rewrite IH.
  - rewrite <- app_assoc. reflexivity.
  - rewrite <- app_assoc. exact H.
Qed.

Lemma proj_target (m4 : list (dname * N)) (m6 : list (dname * list N)) :
  proj4 (map rec_v4 m4 ++ map rec_v6 m6) = m4 /\ proj6 (map rec_v4 m4 ++ map rec_v6 m6) = m6
  /\ Forall (fun p => addr_of (snd p) <> None) (map rec_v4 m4 ++ map rec_v6 m6).
Proof.
  unfold proj4, proj6. induction m4 as [|[k a] m4 (I4 & I6 & If)]; cbn [map app flat_map].
  - induction m6 as [|[k a] m6 (I4 & I6 & If)]; cbn [map flat_map]; [repeat split; constructor|].
    change (addr_of (snd (rec_v6 (k, a)))) with (Some (V6 a)). cbn [app rec_v6 fst]. rewrite I4, I6.
    repeat split. constructor; [discriminate|exact If].
  - change (addr_of (snd (rec_v4 (k, a)))) with (Some (V4 a)). cbn [app rec_v4 fst]. rewrite I4, I6.
    repeat split. constructor; [discriminate|exact If].
Qed.

(* TryFrom<Zone> and from_zone_lossy return the hosts data the zone was made from
   (as maps: the same entries, in some order) *)
Theorem hosts_zone_back h : wf_hosts h ->
  exists z h', hosts_to_zone h = Ok z
               /\ hosts_try_from z = Ok h' /\ from_zone_lossy z = Ok h'
               /\ Permutation (h_v4 h') (h_v4 h) /\ Permutation (h_v6 h') (h_v6 h).
Proof.
  intros Hwf. destruct (hosts_zone_exact h Hwf) as (z & Hz & _ & _ & Hw & P).
  destruct Hwf as (_ & _ & N4 & N6).
  destruct (proj_target (h_v4 h) (h_v6 h)) as (T4 & T6 & Tg).
  assert (Hg : Forall (fun p => addr_of (snd p) <> None) (zone_pairs z)).
  { eapply Permutation_Forall; [symmetry; exact P|exact Tg]. }
  assert (P4 : Permutation (proj4 (zone_pairs z)) (h_v4 h)).
  { rewrite <- T4. apply Permutation_flat_map. exact P. }
  assert (P6 : Permutation (proj6 (zone_pairs z)) (h_v6 h)).
  { rewrite <- T6. apply Permutation_flat_map. exact P. }
  exists z. eexists. split; [exact Hz|].
  unfold hosts_try_from, from_zone_lossy. rewrite Hw. cbn [is_nil negb].
  rewrite !from_records_pairs. fold (zone_pairs z).
  rewrite !(from_pairs_good _ _ _ Hg). cbn [hosts_new h_v4 h_v6].
  rewrite !ins_all_nodup.
  - cbn [app]. repeat split; assumption.
  - cbn [app]. eapply Permutation_NoDup; [|exact N6]. apply Permutation_map. symmetry. exact P6.
  - cbn [app]. eapply Permutation_NoDup; [|exact N4]. apply Permutation_map. symmetry. exact P4.
Qed.

Lemma nodup_singleton {A} (l : list A) x : NoDup l -> (forall y, In y l <-> y = x) -> l = [x].
Proof.
  intros N H. destruct l as [|a l]; [destruct (proj2 (H x) eq_refl)|].
  rewrite (proj1 (H a) (or_introl eq_refl)) in *. destruct l as [|b l]; [reflexivity|].
  inversion N as [|? ? Hx _]; subst. exfalso. apply Hx. left. apply (H b). right. left. reflexivity.
Qed.

(* the lookup at an existing node *)
Lemma node_resolve_at rp : forall nd name qt ia n,
  node_at rp nd = Some n ->
  node_resolve name qt rp nd ia
  = zone_result_helper name qt (n_this n) (n_nsdname n) (match rp with [] => negb ia | _ => true end).
Proof.
  induction rp as [|l rest IH]; intros nd name qt ia n H.
  - cbn [node_at] in H. injection H as <-. reflexivity.
  - cbn [node_at] in H. cbn [node_resolve]. destruct (alookup leqb l (n_children nd)) as [c|]; [|discriminate].
    rewrite (IH c name qt false n H). destruct rest; reflexivity.
Qed.

Lemma helper_address name qt records nsd cd :
  qt = RT_A \/ qt = RT_AAAA -> rget RT_NS records = [] -> rget RT_CNAME records = [] ->
  zone_result_helper name qt records nsd cd = Ok (ZAnswer (map (fun z => zr_to_rr z name) (rget qt records))).
Proof.
  unfold zone_result_helper, rget. intros Hq -> ->. cbn [is_nil negb]. rewrite andb_false_r.
  destruct Hq as [-> | ->]; cbn; destruct (alookup N.eqb _ records); reflexivity.
Qed.

(* a name of a root-apex zone that holds address records only, a single one of type [qt] *)
Lemma zone_resolve_single z fz n front qt x :
  z_apex z = root_domain -> R rootl (z_records z) fz -> labels n = front ++ rootl ->
  qt = RT_A \/ qt = RT_AAAA ->
  (forall r, In (front, r) (f_norm fz) ->
     (zr_type r = RT_A \/ zr_type r = RT_AAAA) /\ (zr_type r = qt -> r = x)) ->
  In (front, x) (f_norm fz) -> zr_type x = qt ->
  zone_resolve z n qt = Some (Ok (ZAnswer [zr_to_rr x n])).
Proof.
  intros Ha HR E Hq Hall Hx Hxt.
  unfold zone_resolve. rewrite relative_rp_rel, Ha. change (labels root_domain) with rootl.
  rewrite (rel_path_intro rootl n front E). cbn [option_map].
  pose proof (HR (rev front)) as He.
  destruct (node_at (rev front) (z_records z)) as [nn|] eqn:Hat; cbn [entry app] in He; rewrite rev_involutive in He.
  2:{ exfalso. apply He. right. exists front, x. split; [apply in_or_app; left; exact Hx|apply is_suffix_refl]. }
  destruct He as [_ Hok]. rewrite (node_resolve_at _ _ n qt true nn Hat).
  assert (Hthis : forall t, rget t (n_this nn) = recs_at (f_norm fz) front t)
    by (intros t; rewrite (ok_this _ _ _ _ Hok), rev_involutive; reflexivity).
  assert (Hnone : forall t, t <> RT_A -> t <> RT_AAAA -> rget t (n_this nn) = []).
  { intros t H4 H6. rewrite Hthis. destruct (recs_at (f_norm fz) front t) as [|r l] eqn:Er; [reflexivity|].
    assert (Hr : In r (recs_at (f_norm fz) front t)) by (rewrite Er; left; reflexivity).
    apply In_recs_at in Hr as [Hr <-]. destruct (Hall r Hr) as [[T|T] _]; congruence. }
  rewrite helper_address by (try exact Hq; apply Hnone; discriminate).
  do 3 f_equal. replace (rget qt (n_this nn)) with [x]; [reflexivity|]. symmetry.
  apply nodup_singleton; [apply (wf_rmap_get qt _ (ok_this_wf _ _ _ _ Hok))|].
  intros y. rewrite Hthis, In_recs_at. split.
  - intros [Hy Ht]. apply (Hall y Hy). exact Ht.
  - intros ->. split; assumption.
Qed.

Definition rr_v4 (n : dname) (a : N) : rr :=
  {| rr_name := n; rr_type := RT_A; rr_class := RC_IN; rr_ttl := HOSTS_TTL; rr_data := RD_A a |}.
Definition rr_v6 (n : dname) (a : list N) : rr :=
  {| rr_name := n; rr_type := RT_AAAA; rr_class := RC_IN; rr_ttl := HOSTS_TTL; rr_data := RD_AAAA a |}.

(* in the zone made from hosts data, every mapped name resolves to
   exactly its address: one A record (TTL 5) for an IPv4 mapping, one AAAA record for an
   IPv6 mapping *)
Theorem hosts_zone_resolves h : wf_hosts h ->
  exists z, hosts_to_zone h = Ok z
            /\ (forall n a, In (n, a) (h_v4 h) -> zone_resolve z n RT_A = Some (Ok (ZAnswer [rr_v4 n a])))
            /\ (forall n a, In (n, a) (h_v6 h) -> zone_resolve z n RT_AAAA = Some (Ok (ZAnswer [rr_v6 n a]))).
Proof.
  intros Hwf. pose proof Hwf as (W4 & W6 & N4 & N6). rewrite hosts_to_zone_build.
  destruct (zone_build_R root_domain None (hosts_ops h) root_wf) as (z & Hz & Ha & _ & HR).
  { apply Forall_app. split; apply Forall_map; assumption. }
  fold (hosts_flat h) in HR. exists z. split; [exact Hz|].
  split; intros n a Hin.
  - rewrite Forall_forall in W4. destruct (wf_name_front n (W4 _ Hin)) as (front & E). rewrite <- Forall_forall in W4.
    apply (zone_resolve_single z (hosts_flat h) n front RT_A (hrec RT_A (RD_A a)) Ha HR E); auto.
    + intros r Hr. apply (hosts_flat_in h front r) in Hr.
      destruct Hr as [(n' & a' & H' & E' & ->)|(n' & a' & H' & E' & ->)]; (split; [auto|]); [|discriminate].
      intros _. rewrite (unique_entry _ n n' a a' W4 N4 Hin H') by congruence. reflexivity.
    + apply hosts_flat_in. left. eauto.
  - rewrite Forall_forall in W6. destruct (wf_name_front n (W6 _ Hin)) as (front & E). rewrite <- Forall_forall in W6.
    apply (zone_resolve_single z (hosts_flat h) n front RT_AAAA (hrec RT_AAAA (RD_AAAA a)) Ha HR E); auto.
    + intros r Hr. apply (hosts_flat_in h front r) in Hr.
      destruct Hr as [(n' & a' & H' & E' & ->)|(n' & a' & H' & E' & ->)]; (split; [auto|]); [discriminate|].
      intros _. rewrite (unique_entry _ n n' a a' W6 N6 Hin H') by congruence. reflexivity.
    + apply hosts_flat_in. right. eauto.
Qed.

(* names whose text survives a hosts file: every label octet is a field character
   (ASCII, not white space, not '#') other than '.' *)
Definition safec (c : N) : Prop := fieldc c /\ c <> 46.
Definition safe_name (n : dname) : Prop := wf_name n /\ Forall (Forall safec) (labels n).

(* an IPv6 address whose printed form is an address field that reads back; every address of
   eight u16 segments is one (v6_ok_of_wf below) *)
Definition v6_ok (g : list N) : Prop :=
  parse_ip (show_v6 g) = Some (V6 g) /\ field (show_v6 g) /\ nopct (show_v6 g).

Definition text_safe (h : hosts) : Prop :=
  wf_hosts h
  /\ Forall (fun kv => safe_name (fst kv) /\ snd kv < 4294967296) (h_v4 h)
  /\ Forall (fun kv => safe_name (fst kv) /\ v6_ok (snd kv)) (h_v6 h).

Lemma ends_with_dot_snoc p c : ends_with_dot (p ++ [c]) = (c =? 46).
Proof.
  unfold ends_with_dot. rewrite rev_app_distr. cbn [rev app].
  destruct c as [|q]; [reflexivity|]. do 6 (try destruct q as [q|q|]); reflexivity.
Qed.

Lemma safe_ascii_nodot n : safe_name n -> ascii_nodot n.
Proof.
  intros [_ H]. unfold ascii_nodot. eapply Forall_impl; [|exact H]. intros l Hl.
  eapply Forall_impl; [|exact Hl]. intros c [(Hc & _) Hd]. split; assumption.
Qed.

Lemma fieldc_dot : fieldc 46.
Proof. unfold fieldc. repeat split; (reflexivity || discriminate). Qed.

Lemma dotjoin_fieldc f : Forall (Forall safec) f -> Forall fieldc (dotjoin f).
Proof.
  induction 1 as [|l f Hl _ IH]; [constructor|]. unfold dotjoin. cbn [map concat]. fold (dotjoin f).
  apply Forall_app. split; [|exact IH]. apply Forall_app. split.
  - eapply Forall_impl; [|exact Hl]. intros c [Hc _]. exact Hc.
  - constructor; [exact fieldc_dot|constructor].
Qed.

Lemma dotjoin_snoc f l : dotjoin (f ++ [l]) = dotjoin f ++ l ++ [46].
Proof. unfold dotjoin. rewrite map_app, concat_app. cbn [map concat]. rewrite app_nil_r. reflexivity. Qed.

(* the text serialise writes for a name: a field that reads back as the name *)
Lemma domain_str_ok n : safe_name n ->
  field (domain_str n) /\ abs_name (domain_str n) = Some n /\ (forall s, domain_str n <> s ++ [13]).
Proof.
  intros Hs. pose proof (safe_ascii_nodot n Hs) as Had. destruct Hs as [Hwf Hsafe].
  pose proof (dotted_roundtrip n Hwf Had) as Hrt.
  destruct (wf_name_dest n Hwf) as (front & -> & Hf & Hlen).
  cbn [labels] in Hsafe. apply Forall_app in Hsafe as [Hsafe _].
  destruct front as [|l0 f0].
  - (* the root *) cbn. split; [split; [discriminate|constructor; [exact fieldc_dot|constructor]]|].
    split; [reflexivity|]. intros s E. destruct s as [|x s]; [discriminate|]. destruct s; discriminate.
  - remember (l0 :: f0) as front eqn:Ef. assert (Hne : front <> []) by (rewrite Ef; discriminate).
    rewrite (to_dotted_nonroot front _ Hne (good_front_nonempty _ Hf)) in Hrt.
    assert (Hroot : is_root {| labels := front ++ [[]]; nlen := sum_lens (front ++ [[]]) |} = false).
    { rewrite Ef. unfold is_root. cbn [labels app]. destruct l0 as [|b l0].
      - exfalso. rewrite Ef in Hf. inversion Hf as [|? ? [Hl _] _]; subst. apply Hl. reflexivity.
      - cbn [label_is_empty]. apply andb_false_r. }
    unfold domain_str. rewrite Hroot. rewrite (to_dotted_nonroot front _ Hne (good_front_nonempty _ Hf)).
    destruct (exists_last Hne) as (f & l & Efl). rewrite Efl in *.
    rewrite dotjoin_snoc.
    apply Forall_app in Hsafe as [Hsf Hsl]. inversion Hsl as [|? ? Hl _]; subst.
    apply Forall_app in Hf as [_ Hfl]. inversion Hfl as [|? ? [Hlne _] _]; subst.
    destruct (exists_last Hlne) as (l' & c & ->).
    apply Forall_app in Hl as [Hl' Hc]. inversion Hc as [|? ? [Hcf Hcd] _]; subst.
    rewrite dotjoin_snoc in Hrt. rewrite !app_assoc in Hrt.
    rewrite !app_assoc, removelast_last.
    split; [|split].
    + split; [intros H0; apply app_eq_nil in H0 as [_ H0]; discriminate|].
      apply Forall_app. split; [|constructor; [exact Hcf|constructor]].
      apply Forall_app. split; [apply dotjoin_fieldc; exact Hsf|].
      eapply Forall_impl; [|exact Hl']. intros x [Hx _]. exact Hx.
    + unfold abs_name. rewrite ends_with_dot_snoc.
      assert (c =? 46 = false) as -> by (apply N.eqb_neq; exact Hcd).
      exact Hrt.
    + intros s Es. apply app_inj_tail in Es as [_ ->]. destruct Hcf as (_ & _ & _ & _ & _ & H13 & _). apply H13. reflexivity.
Qed.

(* the lines serialise writes for one name *)
Definition mkline (addr ds : list N) : mline :=
  {| m_lead := []; m_addr := addr; m_names := [([32], ds)]; m_trail := []; m_comment := None |}.

Definition lines_of (h : hosts) (n : dname) : file :=
  (match alookup dname_eqb n (h_v4 h) with
   | Some a => [(Map (mkline (show_v4 a) (domain_str n)), LF)]
   | None => []
   end)
  ++ (match alookup dname_eqb n (h_v6 h) with
      | Some a => [(Map (mkline (show_v6 a) (domain_str n)), LF)]
      | None => []
      end)
  ++ [(Blank [], LF)].

Lemma render_app f g : render (f ++ g) = render f ++ render g.
Proof. unfold render. rewrite map_app, concat_app. reflexivity. Qed.

Lemma render_mkline addr ds : render_line (Map (mkline addr ds)) = addr ++ 32 :: ds.
Proof. cbn. rewrite !app_nil_r. reflexivity. Qed.

Lemma render_lines_of h n : render (lines_of h n) = serialise_one h n.
Proof.
  unfold lines_of, serialise_one. rewrite !render_app.
  f_equal; [destruct (alookup dname_eqb n (h_v4 h))|f_equal; destruct (alookup dname_eqb n (h_v6 h))]; try reflexivity;
    unfold render; cbn [map concat fst snd render_eol]; rewrite render_mkline, app_nil_r, <- app_assoc; reflexivity.
Qed.

Lemma render_flat_lines h L : render (flat_map (lines_of h) L) = flat_map (serialise_one h) L.
Proof.
  induction L as [|n L IH]; [reflexivity|]. cbn [flat_map]. rewrite render_app, render_lines_of, IH. reflexivity.
Qed.

Lemma addrc_fieldc c : addrc c -> fieldc c /\ c <> 37.
Proof.
  intros [H|[->| ->]].
  - unfold hexc in H. apply orb_true_iff in H as [H|H].
    + apply is_digit_range in H. unfold fieldc. repeat split; lia.
    + apply andb_true_iff in H as [H1 H2]. apply N.leb_le in H1, H2. unfold fieldc. repeat split; lia.
  - unfold fieldc. repeat split; (reflexivity || discriminate).
  - unfold fieldc. repeat split; (reflexivity || discriminate).
Qed.

(* a printed address is an address field without interface suffix *)
Lemma addrc_field s : s <> [] -> Forall addrc s -> field s /\ nopct s.
Proof.
  intros Hne H. apply (Forall_impl _ addrc_fieldc) in H. split; [split; [exact Hne|]|].
  - eapply Forall_impl; [|exact H]. intros c Hc. apply Hc.
  - unfold nopct. destruct s as [|c t]; [constructor|]. inversion H; subst. cbn [tl].
    eapply Forall_impl; [|eassumption]. intros x Hx. apply Hx.
Qed.

Lemma show_v4_field a : field (show_v4 a) /\ nopct (show_v4 a).
Proof.
  apply addrc_field; [|apply show_v4_addrc].
  unfold show_v4. destruct (show_dec ((a / 16777216) mod 256)); discriminate.
Qed.

Lemma mkline_valid addr ds a n :
  field addr -> nopct addr -> parse_ip addr = Some a ->
  field ds -> abs_name ds = Some n -> (forall s, ds <> s ++ [13]) ->
  valid_line (Map (mkline addr ds)) /\ line_contrib (Map (mkline addr ds)) = CMaps a [n].
Proof.
  intros Hf Hp Ha Hd Hn Hcr.
  assert (C : line_contrib (Map (mkline addr ds)) = CMaps a [n]).
  { cbn [line_contrib mkline m_names m_addr map snd all_some]. rewrite Ha, Hn. reflexivity. }
  split; [|exact C]. split; [split|rewrite C; discriminate].
  - cbn [wf_shape]. unfold wf_mline. cbn [mkline m_lead m_addr m_names m_trail m_comment].
    split; [constructor|]. split; [exact Hf|]. split; [exact Hp|]. split; [|split; [constructor|exact I]].
    constructor; [|constructor]. cbn [fst snd]. split; [discriminate|]. split; [|exact Hd].
    constructor; [|constructor]. right. right. right. right. reflexivity.
  - intros s E. rewrite render_mkline in E.
    destruct Hd as [Hdne _]. destruct (exists_last Hdne) as (d' & c & ->).
    change (addr ++ 32 :: d' ++ [c]) with (addr ++ (32 :: d') ++ [c]) in E. rewrite app_assoc in E.
    apply app_inj_tail in E as [_ ->]. apply (Hcr d'). reflexivity.
Qed.

(* the line serialise writes for an address of [n] is valid and maps [n] to that address *)
Lemma line_v4_valid h n a : text_safe h -> alookup dname_eqb n (h_v4 h) = Some a ->
  valid_line (Map (mkline (show_v4 a) (domain_str n)))
  /\ line_contrib (Map (mkline (show_v4 a) (domain_str n))) = CMaps (V4 a) [n].
Proof.
  intros (_ & S4 & _) E. apply alookup_some in E. rewrite Forall_forall in S4.
  destruct (S4 _ E) as [Hsn Ha]. cbn [fst snd] in Hsn, Ha.
  destruct (domain_str_ok n Hsn) as (Dd & Da & Dc). destruct (show_v4_field a) as [F P].
  exact (mkline_valid _ _ (V4 a) n F P (ipv4_roundtrip_ip a Ha) Dd Da Dc).
Qed.

Lemma line_v6_valid h n a : text_safe h -> alookup dname_eqb n (h_v6 h) = Some a ->
  valid_line (Map (mkline (show_v6 a) (domain_str n)))
  /\ line_contrib (Map (mkline (show_v6 a) (domain_str n))) = CMaps (V6 a) [n].
Proof.
  intros (_ & _ & S6) E. apply alookup_some in E. rewrite Forall_forall in S6.
  destruct (S6 _ E) as [Hsn (Hp & Hf & Hn)]. cbn [fst snd] in Hsn, Hp, Hf, Hn.
  destruct (domain_str_ok n Hsn) as (Dd & Da & Dc).
  exact (mkline_valid _ _ (V6 a) n Hf Hn Hp Dd Da Dc).
Qed.

Lemma lines_of_valid h n : text_safe h ->
  Forall (fun le => valid_line (fst le)) (lines_of h n)
  /\ forall d, den_eq (fold_left denote_line (map fst (lines_of h n)) d)
                      {| d4 := (fun k => if dname_eqb k n then match alookup dname_eqb n (h_v4 h) with Some a => Some a | None => d4 d k end else d4 d k);
                         d6 := (fun k => if dname_eqb k n then match alookup dname_eqb n (h_v6 h) with Some a => Some a | None => d6 d k end else d6 d k) |}.
Proof.
  intros Hs. unfold lines_of.
  assert (B : valid_line (Blank []) /\ line_contrib (Blank []) = CNothing).
  { split; [|reflexivity]. split; [split; [constructor|]|discriminate]. intros s E. destruct s; discriminate. }
  destruct (alookup dname_eqb n (h_v4 h)) as [a4|] eqn:E4; [destruct (line_v4_valid h n a4 Hs E4) as [V4l C4]|];
    (destruct (alookup dname_eqb n (h_v6 h)) as [a6|] eqn:E6; [destruct (line_v6_valid h n a6 Hs E6) as [V6l C6]|]).
  all: cbn [app map fst fold_left]; (split; [repeat (apply Forall_cons; [cbn [fst]; tauto|]); apply Forall_nil|]).
  all: intros d k; unfold denote_line; rewrite ?C4, ?C6; cbn [line_contrib fold_left den_insert d4 d6]; unfold upd;
       destruct (dname_eqb k n); split; reflexivity.
Qed.

Lemma sort_names_perm l : Permutation (sort_names l) l.
Proof. exact (Permutation_sym (isort_perm dname_leb l)). Qed.

Lemma existsb_perm {A} (f : A -> bool) l l' : Permutation l l' -> existsb f l = existsb f l'.
Proof.
  intros P. apply Bool.eq_iff_eq_true. rewrite !existsb_exists.
  split; intros (x & Hx & Hf); exists x; (split; [|exact Hf]); [|symmetry in P]; exact (Permutation_in x P Hx).
Qed.

Lemma alookup_some_key {V} k (v : V) m : alookup dname_eqb k m = Some v -> existsb (dname_eqb k) (map fst m) = true.
Proof.
  induction m as [|[k0 v0] m IH]; cbn [alookup map fst existsb]; [discriminate|].
  destruct (dname_eqb k k0); [reflexivity|]. exact IH.
Qed.

Lemma den_lines_closed h L : text_safe h -> forall d k,
  let d' := fold_left denote_line (map fst (flat_map (lines_of h) L)) d in
  d4 d' k = (if existsb (dname_eqb k) L
             then match alookup dname_eqb k (h_v4 h) with Some a => Some a | None => d4 d k end
             else d4 d k)
  /\ d6 d' k = (if existsb (dname_eqb k) L
                then match alookup dname_eqb k (h_v6 h) with Some a => Some a | None => d6 d k end
                else d6 d k).
Proof.
  (* from the right: the lines of the last name act on the meaning of those before *)
  intros Hs. induction L as [|n L IH] using rev_ind; intros d k; cbv zeta; [split; reflexivity|].
  rewrite flat_map_app, map_app, fold_left_app, existsb_app. cbn [flat_map existsb]. rewrite app_nil_r, orb_false_r.
  destruct (lines_of_valid h n Hs) as [_ Hn]. destruct (Hn (fold_left denote_line (map fst (flat_map (lines_of h) L)) d) k) as [F4 F6].
  rewrite F4, F6. cbn [d4 d6]. cbv zeta in IH. destruct (IH d k) as [I4 I6]. rewrite I4, I6.
  destruct (dname_eqb_spec k n) as [->|Hne]; [rewrite orb_true_r|rewrite orb_false_r; split; reflexivity].
  destruct (existsb (dname_eqb n) L); split;
    try (destruct (alookup dname_eqb n (h_v4 h)); reflexivity); destruct (alookup dname_eqb n (h_v6 h)); reflexivity.
Qed.

(* what serialise writes reads back as the same mappings, for hosts data whose names are
   text-safe (well-formed, label octets ASCII other than white space, '#' and '.'), whose IPv4
   addresses are below 2^32 and whose IPv6 addresses satisfy [v6_ok].  [text_safe_wf] below asks
   for eight u16 segments instead and implies [text_safe] (text_safe_of_wf); hosts_roundtrip_wf
   is this theorem under that hypothesis *)
Theorem hosts_roundtrip h : text_safe h ->
  exists h', deserialise (serialise h) = Ok h'
             /\ (forall k, alookup dname_eqb k (h_v4 h') = alookup dname_eqb k (h_v4 h)
                           /\ alookup dname_eqb k (h_v6 h') = alookup dname_eqb k (h_v6 h))
             /\ nodup_keys h'.
Proof.
  intros Hs. unfold serialise. rewrite <- render_flat_lines.
  destruct (hosts_parse_denotes (flat_map (lines_of h) (sort_names (key_set h)))) as (h' & Hd & Ha & Hn).
  { apply Forall_flat_map, Forall_forall. intros n _. apply (lines_of_valid h n Hs). }
  exists h'. split; [exact Hd|]. split; [|exact Hn].
  intros k. destruct (Ha k) as [A4 A6]. rewrite A4, A6. unfold denote.
  destruct (den_lines_closed h (sort_names (key_set h)) Hs hden_empty k) as [C4 C6]. cbv zeta in C4, C6.
  rewrite C4, C6. cbn [hden_empty d4 d6].
  rewrite (existsb_perm _ _ _ (sort_names_perm (key_set h))).
  unfold key_set. fold (dedupe_into (map fst (h_v4 h) ++ map fst (h_v6 h)) []).
  rewrite existsb_dedupe, existsb_app. cbn [existsb orb].
  split.
  - destruct (alookup dname_eqb k (h_v4 h)) as [a|] eqn:E.
    + rewrite (alookup_some_key k a _ E). reflexivity.
    + destruct (existsb (dname_eqb k) (map fst (h_v4 h)) || existsb (dname_eqb k) (map fst (h_v6 h))); reflexivity.
  - destruct (alookup dname_eqb k (h_v6 h)) as [a|] eqn:E.
    + rewrite (alookup_some_key k a _ E), orb_true_r. reflexivity.
    + destruct (existsb (dname_eqb k) (map fst (h_v4 h)) || existsb (dname_eqb k) (map fst (h_v6 h))); reflexivity.
Qed.

Lemma v6_ok_of_wf g : wf_v6 g -> v6_ok g.
Proof.
  intros Hwf. destruct (show_v6_chars g Hwf) as [Hc Hne].
  split; [apply ipv6_roundtrip; exact Hwf|apply addrc_field; assumption].
Qed.

(* unique keys, text-safe names, IPv4 addresses below 2^32, IPv6 addresses of eight u16 segments *)
Definition text_safe_wf (h : hosts) : Prop :=
  wf_hosts h
  /\ Forall (fun kv => safe_name (fst kv) /\ snd kv < 4294967296) (h_v4 h)
  /\ Forall (fun kv => safe_name (fst kv) /\ wf_v6 (snd kv)) (h_v6 h).

Lemma text_safe_of_wf h : text_safe_wf h -> text_safe h.
Proof.
  intros (H & H4 & H6). split; [exact H|]. split; [exact H4|].
  eapply Forall_impl; [|exact H6]. intros kv [Hs Hw]. split; [exact Hs|apply v6_ok_of_wf; exact Hw].
Qed.

Theorem hosts_roundtrip_wf h : text_safe_wf h ->
  exists h', deserialise (serialise h) = Ok h'
             /\ (forall k, alookup dname_eqb k (h_v4 h') = alookup dname_eqb k (h_v4 h)
                           /\ alookup dname_eqb k (h_v6 h') = alookup dname_eqb k (h_v6 h))
             /\ nodup_keys h'.
Proof. intros H. apply hosts_roundtrip. apply text_safe_of_wf. exact H. Qed.

(* the hypotheses are satisfiable: foo. -> 1.2.3.4 and ::1, bar.foo. -> 1.2.3.4 *)
Definition ex_foo : dname := mk [[102;111;111]; []].
Definition ex_barfoo : dname := mk [[98;97;114]; [102;111;111]; []].
Definition ex_hosts : hosts :=
  {| h_v4 := [(ex_foo, 16909060); (ex_barfoo, 16909060)]; h_v6 := [(ex_foo, [0;0;0;0;0;0;0;1])] |}.

(* closes a conjunction of closed (in)equations and Forall facts over a concrete character list *)
Ltac solve_chars := repeat (first [apply Forall_nil | apply Forall_cons | split | discriminate | reflexivity]).

Lemma ex_foo_wf : wf_name ex_foo.
Proof. apply (dotted_wf [102;111;111;46]); [solve_chars|reflexivity]. Qed.
Lemma ex_barfoo_wf : wf_name ex_barfoo.
Proof. apply (dotted_wf [98;97;114;46;102;111;111;46]); [solve_chars|reflexivity]. Qed.

Lemma ex_foo_safe : safe_name ex_foo.
Proof. split; [exact ex_foo_wf|]. cbn [ex_foo mk labels]. unfold safec, fieldc. solve_chars. Qed.
Lemma ex_barfoo_safe : safe_name ex_barfoo.
Proof. split; [exact ex_barfoo_wf|]. cbn [ex_barfoo mk labels]. unfold safec, fieldc. solve_chars. Qed.

Example ex_hosts_wf : wf_hosts ex_hosts.
Proof.
  unfold wf_hosts, ex_hosts. cbn [h_v4 h_v6 map fst].
  split; [constructor; [exact ex_foo_wf|constructor; [exact ex_barfoo_wf|constructor]]|].
  split; [constructor; [exact ex_foo_wf|constructor]|].
  split.
  - constructor; [|constructor; [intros []|constructor]]. intros [H|[]]. discriminate H.
  - constructor; [intros []|constructor].
Qed.

(* " 1.2.3.4 foo\tBar.#c" LF, "#é" CRLF, "fe80::1%eth0 x" LF, "::1 foo" LF, "zzz #c" LF *)
Definition ex_file : file :=
  [ (Map {| m_lead := [32]; m_addr := [49;46;50;46;51;46;52];
            m_names := [([32], [102;111;111]); ([9], [66;97;114;46])]; m_trail := []; m_comment := Some [99] |}, LF);
    (Comment [] [233], CRLF);
    (Scoped [] [102;101;56;48;58;58;49] [101;116;104;48;32;120], LF);
    (Map {| m_lead := []; m_addr := [58;58;49]; m_names := [([32;32], [102;111;111])]; m_trail := [13;32]; m_comment := None |}, LF);
    (Map {| m_lead := []; m_addr := [122;122;122]; m_names := []; m_trail := [32]; m_comment := Some [99] |}, LF) ].

Example ex_file_valid : Forall (fun le => valid_line (fst le)) ex_file.
Proof.
  unfold ex_file. repeat (apply Forall_cons; [cbn [fst]|]); try apply Forall_nil.
  (* no line's text ends in CR: compare the reversed texts *)
  all: (split; [split; [|intros s E; apply (f_equal (@rev N)) in E; rewrite rev_app_distr in E; vm_compute in E; discriminate E]
              |vm_compute; discriminate]); cbn [wf_shape];
    unfold wf_mline, field, nopct, noline, fieldc; cbn [m_lead m_addr m_names m_trail m_comment tl fst snd]; solve_chars.
  (* left over: the white-space characters of the lines *)
  all: unfold wsc; auto 6.
Qed.

Example ex_file_parses :
  deserialise (render ex_file)
  = Ok {| h_v4 := [(ex_foo, 16909060); (mk [[98;97;114]; []], 16909060)]; h_v6 := [(ex_foo, [0;0;0;0;0;0;0;1])] |}.
Proof. vm_compute. reflexivity. Qed.

(* "zzz \n1.2.3.4 foo": the line holding only a malformed address is ignored, the file reads as
   one mapping ... *)
Example ex_bad_address_only_ignored :
  deserialise [122;122;122;32;10; 49;46;50;46;51;46;52;32;102;111;111]
  = Ok {| h_v4 := [(ex_foo, 16909060)]; h_v6 := [] |}.
Proof. vm_compute. reflexivity. Qed.
(* ... while "zzz foo" and "zzz a..b" are errors, the address error before the name error *)
Example ex_bad_address_with_name :
  deserialise [122;122;122;32;102;111;111] = Err (CouldNotParseAddress [122;122;122])
  /\ deserialise [122;122;122;32;97;46;46;98] = Err (CouldNotParseAddress [122;122;122]).
Proof. split; vm_compute; reflexivity. Qed.

Example ex_hosts_text_safe_wf : text_safe_wf ex_hosts.
Proof.
  split; [exact ex_hosts_wf|]. unfold ex_hosts. cbn [h_v4 h_v6]. split.
  - constructor; [split; [exact ex_foo_safe|reflexivity]|]. constructor; [split; [exact ex_barfoo_safe|reflexivity]|constructor].
  - constructor; [|constructor]. split; [exact ex_foo_safe|]. split; [reflexivity|]. repeat (constructor; [reflexivity|]). constructor.
Qed.

Example ex_hosts_text_safe : text_safe ex_hosts.
Proof. exact (text_safe_of_wf ex_hosts ex_hosts_text_safe_wf). Qed.
