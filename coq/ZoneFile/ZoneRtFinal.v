(* ZoneFile/ZoneRtFinal.v -- C13: the corollaries in the form Properties/C13.v quotes them, for
   every codec meeting [codec_rt] / [codec_range] and for the codec the model is run with
   (ZfInstance.zf_codec, for which both are theorems), and instances showing that the
   hypotheses are satisfiable. *)
From RV Require Import Base.Prelude Name.NameModel Name.NameSpec Name.NameProofs Wire.WireTypes
     Zone.ZoneModel Zone.ZoneFlat Zone.ZoneProofs
     ZoneFile.ZoneFileModel ZoneFile.ZoneFileSpec ZoneFile.ZoneSerialiseModel ZoneFile.ZfInstance
     ZoneFile.ZoneFileProofs ZoneFile.ZoneSerialiseProofs ZoneFile.ZoneRtLines ZoneFile.ZoneRtLoop
     ZoneFile.ZoneRoundTrip ZoneFile.ZoneRtOrder ZoneFile.ZoneRtLoaded ZoneFile.ZoneRtCodec.

Section AnyCodec.
  Variable ip : ipcodec.
  Hypothesis Hrt : codec_rt ip.

  (* zone_roundtrip for Zone::serialise as the model runs it (its own record order) *)
  Theorem zone_roundtrip_own z : built z ->
    exists txt z', zone_serialise ip z = Ok txt /\ deserialise ip txt = Ok z' /\ zone_same z z' /\ built z'.
  Proof.
    intro Hb. destruct (zone_roundtrip ip Hrt z _ _ Hb (own_order_admissible z Hb)) as (txt & z' & E & D & S & B & _).
    exists txt, z'. auto.
  Qed.

  Hypothesis Hrange : codec_range ip.

  (* C13 for loaded zones: any zone the parser returns, written in any admissible order, is read
     back as the same zone *)
  Theorem loaded_roundtrip data z recs wrecs :
    deserialise ip data = Ok z -> admissible z recs wrecs ->
    exists txt z', zone_serialise_with ip z recs wrecs = Ok txt /\ deserialise ip txt = Ok z' /\
      zone_same z z' /\ zone_serialise_with ip z' recs wrecs = Ok txt.
  Proof.
    intros Hd Hadm. destruct (zone_roundtrip ip Hrt z recs wrecs (loaded_built ip Hrange data z Hd) Hadm) as (txt & z' & E & D & S & _ & _ & T).
    exists txt, z'. auto.
  Qed.

  (* ztoz: parse, write, parse again, write again *)
  Theorem ztoz_twice data z :
    deserialise ip data = Ok z ->
    exists txt z', zone_serialise ip z = Ok txt /\ deserialise ip txt = Ok z' /\ zone_same z z' /\
      exists txt' z'', zone_serialise ip z' = Ok txt' /\ deserialise ip txt' = Ok z'' /\ zone_same z' z'' /\ zone_same z z''.
  Proof.
    intro Hd. pose proof (loaded_built ip Hrange data z Hd) as Hb.
    destruct (zone_roundtrip_own z Hb) as (txt & z' & E & D & S & B').
    exists txt, z'. split; [exact E|]. split; [exact D|]. split; [exact S|].
    destruct (zone_roundtrip_own z' B') as (txt' & z'' & E' & D' & S' & _).
    exists txt', z''. split; [exact E'|]. split; [exact D'|]. split; [exact S'|]. eapply zone_same_trans; eassumption.
  Qed.
End AnyCodec.

(* the codec of the model driver: no hypothesis left *)

Theorem zf_zone_roundtrip z : built z ->
  exists txt z', zf_serialise z = Ok txt /\ zf_deserialise txt = Ok z' /\ zone_same z z'.
Proof.
  intro Hb. destruct (zone_roundtrip_own zf_codec zf_codec_rt z Hb) as (txt & z' & E & D & S & _). exists txt, z'. auto.
Qed.

Theorem zf_loaded_roundtrip data z : zf_deserialise data = Ok z ->
  exists txt z', zf_serialise z = Ok txt /\ zf_deserialise txt = Ok z' /\ zone_same z z' /\
    exists txt' z'', zf_serialise z' = Ok txt' /\ zf_deserialise txt' = Ok z'' /\ zone_same z' z'' /\ zone_same z z''.
Proof. apply (ztoz_twice zf_codec zf_codec_rt zf_codec_range). Qed.

(* [built] is what Zone::new and insert / insert_wildcard generate *)
Lemma built_new apex s : head_ok apex s -> built (zone_new apex s).
Proof. intro H. exists apex, s, []. split; [exact H|]. split; [constructor|reflexivity]. Qed.

Lemma built_insert z o : built z -> op_src_ok o -> exists z', zone_apply z o = Ok z' /\ built z'.
Proof.
  intros (apex & s & ops & Hh & Hops & Hb) Ho.
  destruct (built_data z apex s ops Hh Hops Hb) as (Ea & Es & HR & _).
  destruct (zone_apply_R apex s z _ o Ea Es HR (proj1 (proj1 Ho))) as (z' & Hz' & _).
  exists z'. split; [exact Hz'|]. exists apex, s, (ops ++ [o]). split; [exact Hh|]. split.
  - apply Forall_app. split; [exact Hops|constructor; [exact Ho|constructor]].
  - unfold zone_build in *. rewrite zone_apply_all_app, Hb. cbn [bind zone_apply_all]. rewrite Hz'. reflexivity.
Qed.

(* for the concrete names of the examples below: [ascii_nodot] label by label, [name_ok] = wf_name and that *)
Ltac ascii_nd :=
  unfold ascii_nodot, ZoneProofs.nm, mkname; cbn [labels app];
  repeat (first [apply Forall_nil | apply Forall_cons]); try (split; [lia|discriminate]).
Ltac name_ok_tac := split; [first [exact root_wf | wf_nm] | ascii_nd].

Module Examples.
  Local Notation ex := ([101; 120; 97; 109; 112; 108; 101] : label).
  Local Notation com := ([99; 111; 109] : label).
  Definition apex1 := ZoneProofs.nm [ex; com].
  Definition so1 : soa :=
    {| soa_mname := ZoneProofs.nm [[110; 115]; ex; com]; soa_rname := ZoneProofs.nm [[64]; ex; com];
       soa_serial := 1; soa_refresh := 2; soa_retry := 3; soa_expire := 4; soa_minimum := 60 |}.
  Definition mkop w n t d ttl := {| op_wild := w; op_name := n; op_type := t; op_data := d; op_ttl := ttl |}.
  Ltac ops_ok_tac :=
    repeat (first [apply Forall_nil | apply Forall_cons]); unfold op_src_ok, mkop; cbn [op_name op_wild op_type op_data op_ttl rdata_ok];
      repeat match goal with |- _ /\ _ => split end;
      try reflexivity; try discriminate; try lia; try name_ok_tac; try (intros _; discriminate);
      try apply root_name_ok; try (repeat constructor; lia).
  (* `\@.example.com.` (the label `@`), a wildcard at the apex holding a TXT with every kind of
     special octet, NS at the apex, the owner `*a` (starts with '*', is not `*`), an owner with a
     space and a ';' label, a wildcard CNAME to the apex *)
  Definition ops1 : list zop :=
    [ mkop false (ZoneProofs.nm [[64]; ex; com]) RT_A (RD_A 16909060) 300;
      mkop true apex1 RT_TXT (RD_Octets [0; 34; 92; 59; 40; 41; 32; 64; 127; 255; 97]) 5;
      mkop false apex1 RT_NS (RD_Name (ZoneProofs.nm [[110; 115]; ex; com])) 3600;
      mkop false (ZoneProofs.nm [[42; 97]; ex; com]) RT_MX (RD_MX 10 (ZoneProofs.nm [[109]; [111; 114; 103]])) 3600;
      mkop false (ZoneProofs.nm [[97; 32; 98]; [59]; ex; com]) RT_AAAA (RD_AAAA [8193; 3512; 0; 0; 0; 0; 0; 1]) 3600;
      mkop true (ZoneProofs.nm [[119]; ex; com]) RT_CNAME (RD_Name apex1) 3600 ].

  Lemma head1 : head_ok apex1 (Some so1).
  Proof.
    split; [name_ok_tac|]. split; [discriminate|].
    unfold soa_ok, so1. cbn [soa_to_rdata rdata_ok soa_mname soa_rname soa_serial soa_refresh soa_retry soa_expire soa_minimum].
    repeat match goal with |- _ /\ _ => split end; try lia; name_ok_tac.
  Qed.

  Lemma ops1_ok : Forall op_src_ok ops1.
  Proof. unfold ops1. ops_ok_tac. Qed.

  Example built1 : exists z, zone_build apex1 (Some so1) ops1 = Ok z /\ built z.
  Proof.
    destruct (zone_build apex1 (Some so1) ops1) as [z| | |] eqn:E; try (vm_compute in E; discriminate).
    exists z. split; [reflexivity|]. exists apex1, (Some so1), ops1. split; [exact head1|]. split; [exact ops1_ok|exact E].
  Qed.

  (* what is written for it: `$ORIGIN example.com.` / `@ IN SOA ns @.example.com. 1 2 3 4 60` /
     `*a 3600 IN MX 10 m.org.` / `@.example.com. 300 IN A 1.2.3.4` / `a\032b.\; 3600 IN AAAA 2001:db8::1` /
     `@   3600 IN NS ns` / `*.@ 60 IN TXT `\000\`\\;\(\) @\127\255a`` / `*.w 3600 IN CNAME @` *)
  Example text1 :
    match zone_build apex1 (Some so1) ops1 with
    | Ok z => zf_serialise z
    | _ => Panic
    end = Ok [36;79;82;73;71;73;78;32;101;120;97;109;112;108;101;46;99;111;109;46;10;10;
              64;32;73;78;32;83;79;65;32;110;115;32;64;46;101;120;97;109;112;108;101;46;99;111;109;46;32;49;32;50;32;51;32;52;32;54;48;10;10;
              42;97;32;51;54;48;48;32;73;78;32;77;88;32;49;48;32;109;46;111;114;103;46;10;10;
              64;46;101;120;97;109;112;108;101;46;99;111;109;46;32;51;48;48;32;73;78;32;65;32;49;46;50;46;51;46;52;10;10;
              97;92;48;51;50;98;46;92;59;32;51;54;48;48;32;73;78;32;65;65;65;65;32;50;48;48;49;58;100;98;56;58;58;49;10;10;
              64;32;32;32;51;54;48;48;32;73;78;32;78;83;32;110;115;10;
              42;46;64;32;54;48;32;73;78;32;84;88;84;32;34;92;48;48;48;92;34;92;92;92;59;92;40;92;41;32;64;92;49;50;55;92;50;53;53;97;34;10;10;
              42;46;119;32;51;54;48;48;32;73;78;32;67;78;65;77;69;32;64;10;10].
  Proof. vm_compute. reflexivity. Qed.

  Example roundtrip1 : exists z txt z', zone_build apex1 (Some so1) ops1 = Ok z /\
    zf_serialise z = Ok txt /\ zf_deserialise txt = Ok z' /\ zone_same z z'.
  Proof.
    destruct built1 as (z & E & Hb). destruct (zf_zone_roundtrip z Hb) as (txt & z' & H). exists z, txt, z'. tauto.
  Qed.

  (* the root apex, not authoritative: names are written in full; `a b.c.` HINFO ``, the label `@`
     directly under the root, a wildcard at the root *)
  Definition ops2 : list zop :=
    [ mkop false (ZoneProofs.nm [[97; 32; 98]; [99]]) RT_HINFO (RD_Octets []) 0;
      mkop false (ZoneProofs.nm [[64]]) RT_A (RD_A 7) 5;
      mkop true root_domain RT_SRV (RD_SRV 1 2 3 (ZoneProofs.nm [[116]])) 9 ].

  Lemma ops2_ok : Forall op_src_ok ops2.
  Proof. unfold ops2. ops_ok_tac. Qed.

  Example built2 : exists z, zone_build root_domain None ops2 = Ok z /\ built z.
  Proof.
    destruct (zone_build root_domain None ops2) as [z| | |] eqn:E; try (vm_compute in E; discriminate).
    exists z. split; [reflexivity|]. exists root_domain, None, ops2.
    split; [split; [apply root_name_ok|split; [discriminate|reflexivity]]|]. split; [exact ops2_ok|exact E].
  Qed.

  (* `*.. 9 IN SRV 1 2 3 t.` / `@. 5 IN A 0.0.0.7` / `a\032b.c. 0 IN HINFO ``` *)
  Example text2 :
    match zone_build root_domain None ops2 with Ok z => zf_serialise z | _ => Panic end
    = Ok [42;46;46;32;57;32;73;78;32;83;82;86;32;49;32;50;32;51;32;116;46;10;10;
          64;46;32;53;32;73;78;32;65;32;48;46;48;46;48;46;55;10;10;
          97;92;48;51;50;98;46;99;46;32;48;32;73;78;32;72;73;78;70;79;32;34;34;10;10].
  Proof. vm_compute. reflexivity. Qed.

  Example roundtrip2 : exists z txt z', zone_build root_domain None ops2 = Ok z /\
    zf_serialise z = Ok txt /\ zf_deserialise txt = Ok z' /\ zone_same z z'.
  Proof.
    destruct built2 as (z & E & Hb). destruct (zf_zone_roundtrip z Hb) as (txt & z' & H). exists z, txt, z'. tauto.
  Qed.

  (* a loaded zone: `$ORIGIN *.e.` / `@ 5 IN A 1.2.3.4`, where "@" is an owner whose leftmost label is "*" *)
  Definition star_text : list N := [36;79;82;73;71;73;78;32;42;46;101;46;10;64;32;53;32;73;78;32;65;32;49;46;50;46;51;46;52;10].
  Example loaded_star : exists z, zf_deserialise star_text = Ok z /\
    zone_all_records z = [] /\ map fst (zone_all_wildcard_records z) = [ZoneProofs.nm [[101]]] /\
    exists txt z', zf_serialise z = Ok txt /\ zf_deserialise txt = Ok z' /\ zone_same z z'.
  Proof.
    destruct (zf_deserialise star_text) as [z| | |] eqn:E; try (vm_compute in E; discriminate).
    exists z. split; [reflexivity|].
    assert (Hz : zone_all_records z = [] /\ map fst (zone_all_wildcard_records z) = [ZoneProofs.nm [[101]]]).
    { vm_compute in E. injection E as <-. split; reflexivity. }
    destruct Hz as [H1 H2]. split; [exact H1|]. split; [exact H2|].
    destruct (zf_loaded_roundtrip star_text z E) as (txt & z' & A & B & C & _). exists txt, z'. auto.
  Qed.
End Examples.
