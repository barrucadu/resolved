(* ZoneFile/ZoneRoundTrip.v -- C13, zone level: the flat zone made of the records of the text
   Zone::serialise writes holds, per (name, type), the same record list as the flat zone the tree
   represents, whatever admissible order the serialiser met (text_ops_flat); hence zone_roundtrip
   for the zones of the insertion API ([built]) and normalise_idempotent. *)
From RV Require Import Base.Prelude Name.NameModel Name.NameSpec Name.NameProofs Wire.WireTypes
     Zone.ZoneModel Zone.ZoneFlat Zone.ZoneProofs Zone.ZoneMergeProofs
     ZoneFile.ZoneFileModel ZoneFile.ZoneFileSpec ZoneFile.ZoneSerialiseModel
     ZoneFile.ZoneFileProofs ZoneFile.ZoneSerialiseProofs ZoneFile.ZoneRtLines ZoneFile.ZoneRtLoop.

(* the insertion reaches the (ordinary / wildcard) type map of the owner with relative path q *)
Definition hitsn (apexl : list label) (w : bool) (q : path) (o : zop) : bool :=
  Bool.eqb (op_wild o) w && match rel_path apexl (op_name o) with Some p => lleqb p q | None => false end.

(* ... and the record list of type t there *)
Definition hits (apexl : list label) (w : bool) (q : path) (t : N) (o : zop) : bool :=
  hitsn apexl w q o && (op_type o =? t).

Lemma recs_at_fold apexl s w q t : forall ops fz,
  recs_at (side w (fold_left (fz_apply apexl s) ops fz)) q t
  = fold_left push_new (map (op_zrec s) (filter (hits apexl w q t) ops)) (recs_at (side w fz) q t).
Proof.
  induction ops as [|o ops IH]; intro fz; cbn [fold_left filter map]; [reflexivity|].
  rewrite IH. unfold fz_apply, hits, hitsn. destruct (rel_path apexl (op_name o)) as [p|]; [|rewrite andb_false_r; reflexivity].
  rewrite recs_side_add. cbn [op_zrec zr_type]. destruct (_ && _ && _); reflexivity.
Qed.

(* what a flat zone must satisfy to be the content of a zone the serialiser can write *)
Record fz_ok (s : option soa) (fz : fzone) : Prop := {
  fo_nodup : forall w p t, NoDup (recs_at (side w fz) p t);
  fo_ttl : forall w p r, In (p, r) (side w fz) -> clamp s (zr_ttl r) = zr_ttl r;
  fo_soa : forall p, recs_at (f_norm fz) p RT_SOA = recs_at (f_norm (fz_init s)) p RT_SOA;
  fo_wsoa : forall p, recs_at (f_wild fz) p RT_SOA = [] }.

Lemma init_nodup s w p t : NoDup (recs_at (side w (fz_init s)) p t).
Proof.
  assert (H : forall l : list (path * zrec), (length l <= 1)%nat -> NoDup (recs_at l p t)).
  { intros l Hl. destruct l as [|x [|y l]]; [constructor| |cbn [length] in Hl; lia].
    unfold recs_at. cbn [filter]. destruct (_ && _); cbn [map]; repeat constructor; intros []. }
  apply H. destruct w, s; cbn; lia.
Qed.

Lemma clamp_idem s x : clamp s (clamp s x) = clamp s x.
Proof. unfold clamp. destruct s; [lia|reflexivity]. Qed.

Lemma flat_of_ops_ok apex s ops : Forall (fun o => op_type o <> RT_SOA) ops -> fz_ok s (flat_of_ops apex s ops).
Proof.
  intro Hns.
  assert (Hf : forall w q, filter (hits (labels apex) w q RT_SOA) ops = []).
  { intros w q. induction Hns as [|o ops Ho _ IH]; [reflexivity|]. cbn [filter]. unfold hits at 1.
    rewrite (proj2 (N.eqb_neq _ _) Ho), andb_false_r. exact IH. }
  constructor.
  - intros w p t. unfold flat_of_ops. rewrite recs_at_fold. apply fold_push_NoDup, init_nodup.
  - intros w p r Hin. apply flat_of_ops_sound in Hin as [(_ & _ & so & -> & ->)|(o & _ & _ & _ & ->)].
    + cbn [soa_zrec zr_ttl clamp]. lia.
    + cbn [op_zrec zr_ttl]. apply clamp_idem.
  - intro p. unfold flat_of_ops. change (f_norm ?z) with (side false z). rewrite recs_at_fold, Hf. reflexivity.
  - intro p. unfold flat_of_ops. change (f_wild ?z) with (side true z). rewrite recs_at_fold, Hf.
    destruct s; reflexivity.
Qed.

(* [l] lists the records of one side of a flat zone: one entry per owner holding records;
   under an owner the records of each type in the zone's order (the types may come in any
   order, even interleaved) *)
Record describes (apexl : list label) (side : list (path * zrec)) (l : list (dname * list zrec)) : Prop := {
  ds_nodup : NoDup (map fst l);
  ds_recs : forall n zrs, In (n, zrs) l -> exists p, n = mkname (p ++ apexl) /\ forall t, of_type t zrs = recs_at side p t;
  ds_all : forall p r, In (p, r) side -> In (mkname (p ++ apexl)) (map fst l) }.

Lemma lookup_describes apexl side l q t : describes apexl side l ->
  of_type t (lookup (mkname (q ++ apexl)) l) = recs_at side q t.
Proof.
  intros [_ Hr Ha]. unfold lookup. destruct (alookup dname_eqb (mkname (q ++ apexl)) l) as [zrs|] eqn:E.
  - apply alookup_some in E. destruct (Hr _ _ E) as (p & Hp & Ht). injection Hp as Hp _. apply app_inv_tail in Hp. subst p. apply Ht.
  - destruct (recs_at side q t) as [|r rs] eqn:Er; [reflexivity|]. exfalso.
    assert (Hin : In r (recs_at side q t)) by (rewrite Er; left; reflexivity).
    apply In_recs_at in Hin as [Hin _]. apply Ha in Hin. apply in_map_iff in Hin as ([n zrs] & En & Hin). cbn [fst] in En. subst n.
    exact (alookup_none _ _ zrs E Hin).
Qed.

Lemma filter_flat_map {A B} (f : B -> bool) (g : A -> list B) l : filter f (flat_map g l) = flat_map (fun x => filter f (g x)) l.
Proof. induction l as [|x l IH]; cbn [flat_map filter]; [reflexivity|]. rewrite filter_app, IH. reflexivity. Qed.

Lemma flat_map_nil {A B} (h : A -> list B) ds : (forall d, In d ds -> h d = []) -> flat_map h ds = [].
Proof.
  induction ds as [|d ds IH]; intro H; cbn [flat_map]; [reflexivity|].
  rewrite (H d (or_introl eq_refl)), IH; [reflexivity|]. intros x Hx. apply H. right. exact Hx.
Qed.

Lemma flat_map_one {B} (h : dname -> list B) ds d0 :
  NoDup ds -> (forall d, In d ds -> d <> d0 -> h d = []) -> (~ In d0 ds -> h d0 = []) -> flat_map h ds = h d0.
Proof.
  induction ds as [|d ds IH]; intros Hnd Ho Hn; cbn [flat_map]; [symmetry; apply Hn; intros []|].
  inversion Hnd as [|? ? Hnotin Hnd']; subst.
  destruct (dname_eqb d d0) eqn:E.
  - apply dname_eqb_eq in E. subst d. rewrite flat_map_nil; [apply app_nil_r|].
    intros x Hx. apply Ho; [right; exact Hx|]. intros ->. contradiction.
  - assert (Hne : d <> d0) by (intro F; subst; rewrite (proj2 (dname_eqb_eq d0 d0) eq_refl) in E; discriminate).
    rewrite (Ho d (or_introl eq_refl) Hne). cbn [app]. apply IH; [exact Hnd'| |].
    + intros x Hx. apply Ho. right. exact Hx.
    + intro H. apply Hn. intros [F|F]; [contradiction|exact (H F)].
Qed.

(* the insertions of one name block that reach the owner q *)
Lemma filter_hitsn_block apexl w q d p zrs : d = mkname (p ++ apexl) ->
  filter (hitsn apexl w q) (map (op_of_rr w) (map (fun zr => zr_to_rr zr d) zrs))
  = if lleqb p q then map (fun zr => op_of_rr w (zr_to_rr zr d)) zrs else [].
Proof.
  intros ->. assert (Hrp : rel_path apexl (mkname (p ++ apexl)) = Some p) by (apply rel_path_intro; reflexivity).
  induction zrs as [|zr zrs IH]; cbn [map filter]; [destruct (lleqb p q); reflexivity|].
  unfold hitsn at 1. cbn [op_of_rr zr_to_rr op_wild op_name rr_name]. rewrite Hrp, Bool.eqb_reflx. cbn [andb].
  destruct (lleqb p q); [cbn [map]; rewrite IH; reflexivity|exact IH].
Qed.

Lemma filter_hitsn_other apexl w q rrs : filter (hitsn apexl w q) (map (op_of_rr (negb w)) rrs) = [].
Proof.
  induction rrs as [|r rrs IH]; [reflexivity|]. cbn [map filter]. unfold hitsn at 1. cbn [op_of_rr op_wild].
  destruct w; cbn [negb Bool.eqb andb]; exact IH.
Qed.

Lemma filter_hits apexl w q t ops :
  filter (hits apexl w q t) ops = filter (fun o => op_type o =? t) (filter (hitsn apexl w q) ops).
Proof.
  induction ops as [|o ops IH]; [reflexivity|]. cbn [filter]. unfold hits at 1.
  destruct (hitsn apexl w q o); cbn [andb filter]; rewrite IH; reflexivity.
Qed.

Lemma filter_type_ops w d t zrs :
  filter (fun o => op_type o =? t) (map (fun zr => op_of_rr w (zr_to_rr zr d)) zrs)
  = map (fun zr => op_of_rr w (zr_to_rr zr d)) (of_type t zrs).
Proof.
  induction zrs as [|zr zrs IH]; [reflexivity|]. cbn [map filter of_type op_of_rr zr_to_rr op_type rr_type].
  unfold of_type in IH. destruct (zr_type zr =? t); cbn [map]; rewrite IH; reflexivity.
Qed.

Lemma lookup_absent d l : ~ In d (map fst l) -> lookup d l = [].
Proof.
  intro H. unfold lookup. rewrite (alookup_notin_none dname_eqb dname_eqb_eq d l H). reflexivity.
Qed.

(* the insertions of the whole text that reach the owner q: those of its block *)
Section TextKeys.
  Variables (apexl : list label) (recs wrecs : list (dname * list zrec)).
  Hypothesis Hkeys : forall d, In d (zone_ds recs wrecs) -> exists p, d = mkname (p ++ apexl).

  Lemma hitsn_blocks w q (blk : dname -> list zrec) :
    (forall d, ~ In d (zone_ds recs wrecs) -> blk d = []) ->
    filter (hitsn apexl w q) (map (op_of_rr w) (flat_map (fun d => map (fun zr => zr_to_rr zr d) (blk d)) (zone_ds recs wrecs)))
    = map (fun zr => op_of_rr w (zr_to_rr zr (mkname (q ++ apexl)))) (blk (mkname (q ++ apexl))).
  Proof.
    intro Habs. rewrite map_flat_map, filter_flat_map.
    rewrite (flat_map_one _ (zone_ds recs wrecs) (mkname (q ++ apexl))).
    - rewrite (filter_hitsn_block _ w q _ q _ eq_refl), lleqb_refl. reflexivity.
    - apply (zone_ds_spec recs wrecs).
    - intros d Hd Hne. destruct (Hkeys d Hd) as [p Hp]. rewrite (filter_hitsn_block _ w q d p _ Hp).
      rewrite lleqb_false; [reflexivity|]. intros ->. contradiction.
    - intro Hnot. rewrite (Habs _ Hnot). reflexivity.
  Qed.

  (* ... hence, of the whole text, the records its block lists, in that order *)
  Lemma text_ops_at w q :
    filter (hitsn apexl w q) (text_ops recs wrecs)
    = map (fun zr => op_of_rr w (zr_to_rr zr (mkname (q ++ apexl))))
          (if w then lookup (mkname (q ++ apexl)) wrecs else filter nonsoa (lookup (mkname (q ++ apexl)) recs)).
  Proof.
    assert (Habs : forall (l : list (dname * list zrec)) d, incl (map fst l) (map fst recs ++ map fst wrecs) ->
                     ~ In d (zone_ds recs wrecs) -> lookup d l = []).
    { intros l d Hl Hd. apply lookup_absent. intro F. apply Hd, (zone_ds_spec recs wrecs), Hl, F. }
    unfold text_ops. rewrite filter_app. unfold block_rrs, block_wrrs. destruct w.
    - rewrite (filter_hitsn_other apexl true q). cbn [app].
      apply (hitsn_blocks true q (fun d => lookup d wrecs)). intros d. apply Habs. apply incl_appr, incl_refl.
    - change (map (op_of_rr true)) with (map (op_of_rr (negb false))).
      rewrite (filter_hitsn_other apexl false q), app_nil_r.
      apply (hitsn_blocks false q (fun d => filter nonsoa (lookup d recs))).
      intros d Hd. rewrite (Habs recs d); [reflexivity|apply incl_appl, incl_refl|exact Hd].
  Qed.
End TextKeys.

Lemma filter_nonsoa_typed t L : Forall (fun r => zr_type r = t) L ->
  filter nonsoa L = if t =? RT_SOA then [] else L.
Proof.
  intro H. destruct (t =? RT_SOA) eqn:E.
  - apply filter_none. revert H. apply Forall_impl. intros r <-. unfold nonsoa. rewrite E. reflexivity.
  - apply filter_all. revert H. apply Forall_impl. intros r <-. unfold nonsoa. rewrite E. reflexivity.
Qed.

Section Compare.
  Variables (apex : dname) (s : option soa) (fz : fzone) (recs wrecs : list (dname * list zrec)).
  Hypothesis Hfz : fz_ok s fz.
  Hypothesis Hn : describes (labels apex) (f_norm fz) recs.
  Hypothesis Hw : describes (labels apex) (f_wild fz) wrecs.

  Let ds := zone_ds recs wrecs.

  Lemma ds_key d : In d ds -> exists p, d = mkname (p ++ labels apex).
  Proof.
    intro H. apply (proj2 (zone_ds_spec recs wrecs)) in H. apply in_app_or in H as [H|H];
      apply in_map_iff in H as ([n zrs] & E & Hin); cbn [fst] in E; subst n;
      [destruct (ds_recs _ _ _ Hn _ _ Hin) as (p & Hp & _)|destruct (ds_recs _ _ _ Hw _ _ Hin) as (p & Hp & _)]; eauto.
  Qed.

  Lemma map_clamp_id w q t :
    map (fun zr => op_zrec s (op_of_rr w (zr_to_rr zr (mkname (q ++ labels apex))))) (recs_at (side w fz) q t)
    = recs_at (side w fz) q t.
  Proof.
    rewrite <- (map_id (recs_at (side w fz) q t)) at 2. apply map_ext_in. intros r Hr.
    apply In_recs_at in Hr as [Hin _]. unfold op_zrec. cbn [op_of_rr zr_to_rr op_type op_data op_ttl rr_type rr_data rr_ttl].
    rewrite (fo_ttl _ _ Hfz w q r Hin). destruct r; reflexivity.
  Qed.

  (* C13, the heart: whatever admissible order the serialiser met, the records of the text give
     back, per owner and type, the record lists of the zone *)
  Theorem text_ops_flat : forall w q t,
    recs_at (side w (flat_of_ops apex s (text_ops recs wrecs))) q t = recs_at (side w fz) q t.
  Proof.
    intros w q t. unfold flat_of_ops. rewrite recs_at_fold, filter_hits, (text_ops_at _ _ _ ds_key), filter_type_ops, map_map.
    destruct w.
    - rewrite (lookup_describes _ _ _ q t Hw).
      change (f_wild fz) with (side true fz). rewrite (map_clamp_id true q t).
      assert (E : recs_at (side true (fz_init s)) q t = []) by (destruct s; reflexivity).
      rewrite E. apply fold_push_nil, (fo_nodup _ _ Hfz true).
    - unfold of_type. rewrite filter_comm. fold (of_type t (lookup (mkname (q ++ labels apex)) recs)).
      rewrite (lookup_describes _ _ _ q t Hn).
      rewrite (filter_nonsoa_typed t).
      2: { apply Forall_forall. intros r Hr. apply In_recs_at in Hr. apply Hr. }
      destruct (t =? RT_SOA) eqn:Et.
      + apply N.eqb_eq in Et. subst t. cbn [map fold_left side]. symmetry. apply (fo_soa _ _ Hfz).
      + change (f_norm fz) with (side false fz). rewrite (map_clamp_id false q t).
        assert (E : recs_at (side false (fz_init s)) q t = []).
        { destruct s as [so|]; [|reflexivity]. cbn [side fz_init f_norm]. unfold recs_at. cbn [filter fst snd soa_zrec zr_type].
          rewrite N.eqb_sym, Et, andb_false_r. reflexivity. }
        rewrite E. apply fold_push_nil, (fo_nodup _ _ Hfz false).
  Qed.
End Compare.

(* the records of type t (ordinary / wildcard) at the node reached by a path *)
Definition node_recs (w : bool) (t : N) (o : option node) : list zrec :=
  match o with Some n => rget t (if w then wmap n else n_this n) | None => [] end.

Lemma R_content apexl nd fz rq w t : R apexl nd fz ->
  node_recs w t (node_at rq nd) = recs_at (side w fz) (rev rq) t.
Proof.
  intro HR. unfold R, Rsub in HR. specialize (HR rq). unfold ZoneProofs.entry in HR. cbn [app] in HR.
  destruct (node_at rq nd) as [n|].
  - destruct HR as [_ Hok]. destruct w; cbn [node_recs side]; [apply (ok_wild _ _ _ _ Hok)|apply (ok_this _ _ _ _ Hok)].
  - cbn [node_recs]. destruct (no_node_no_recs fz (rev rq) HR) as (H1 & H2 & _). destruct w; cbn [side]; symmetry; auto.
Qed.

Lemma R_exists apexl nd fz rq : R apexl nd fz ->
  (is_some (node_at rq nd) = true <-> rq = [] \/ exists_node fz (rev rq)).
Proof.
  intro HR. unfold R, Rsub in HR. specialize (HR rq). unfold ZoneProofs.entry in HR. cbn [app] in HR.
  destruct (node_at rq nd) as [n|] eqn:E; cbn [is_some].
  - destruct HR as [Hex _]. split; [intros _|reflexivity]. destruct rq; [left; reflexivity|right; apply Hex; discriminate].
  - split; [discriminate|]. intros [->|H]; [cbn [node_at] in E; discriminate|contradiction].
Qed.

Definition fz_eq (a b : fzone) : Prop := forall w q t, recs_at (side w a) q t = recs_at (side w b) q t.

(* a tree represents one flat zone only, up to the order of independent records *)
Lemma R_unique apexl nd fz fz' : R apexl nd fz -> R apexl nd fz' -> fz_eq fz fz'.
Proof.
  intros H H' w q t. rewrite <- (rev_involutive q), <- (R_content apexl nd fz (rev q) w t H).
  exact (R_content apexl nd fz' (rev q) w t H').
Qed.

Lemma fz_eq_in a b w q r : fz_eq a b -> In (q, r) (side w a) -> In (q, r) (side w b).
Proof.
  intros H Hin. assert (Hr : In r (recs_at (side w a) q (zr_type r))) by (apply In_recs_at; auto).
  rewrite (H w q (zr_type r)) in Hr. apply In_recs_at in Hr. apply Hr.
Qed.

Lemma fz_eq_exists a b p : fz_eq a b -> exists_node a p -> exists_node b p.
Proof.
  intros H [->|(q & r & Hin & Hs)]; [left; reflexivity|]. right. exists q, r. split; [|exact Hs].
  unfold entries in *. apply in_app_or in Hin as [Hin|Hin]; apply in_or_app; [left|right].
  - apply (fz_eq_in a b false q r H Hin).
  - apply (fz_eq_in a b true q r H Hin).
Qed.

(* C13's "equal zone": same apex, same SOA, the same nodes, and at every node, for every record
   type, the same list of ordinary records and the same list of wildcard records (data and TTLs,
   in the same order) *)
Definition zone_same (z z' : zone) : Prop :=
  z_apex z' = z_apex z /\ z_soa z' = z_soa z /\
  forall rq, is_some (node_at rq (z_records z')) = is_some (node_at rq (z_records z)) /\
             forall w t, node_recs w t (node_at rq (z_records z')) = node_recs w t (node_at rq (z_records z)).

Lemma same_from_flat z z' fz fz' :
  z_apex z' = z_apex z -> z_soa z' = z_soa z ->
  R (labels (z_apex z)) (z_records z) fz -> R (labels (z_apex z)) (z_records z') fz' -> fz_eq fz' fz ->
  zone_same z z'.
Proof.
  intros Ha Hs HR HR' He. split; [exact Ha|]. split; [exact Hs|]. intro rq. split.
  - apply Bool.eq_iff_eq_true. rewrite (R_exists _ _ _ rq HR), (R_exists _ _ _ rq HR').
    split; (intros [H|H]; [left; exact H|right]); [exact (fz_eq_exists _ _ _ He H)|exact (fz_eq_exists _ _ _ (fun w q t => eq_sym (He w q t)) H)].
  - intros w t. rewrite (R_content _ _ _ rq w t HR), (R_content _ _ _ rq w t HR'). apply He.
Qed.

Lemma zone_same_refl z : zone_same z z.
Proof. split; [reflexivity|]. split; [reflexivity|]. intro rq. split; reflexivity. Qed.

Lemma zone_same_trans a b c : zone_same a b -> zone_same b c -> zone_same a c.
Proof.
  intros (A1 & S1 & H1) (A2 & S2 & H2). split; [congruence|]. split; [congruence|]. intro rq.
  destruct (H1 rq) as [E1 C1]. destruct (H2 rq) as [E2 C2]. split; [congruence|]. intros w t. rewrite C2. apply C1.
Qed.

(* an insertion the zone-file syntax can express (D5, D7): the owner well formed with ASCII
   dot-free labels, an ordinary owner's leftmost label not "*", one of the 18 record types the
   parser knows other than SOA, RDATA of that type's shape with names as above and integers in
   range *)
Definition op_src_ok (o : zop) : Prop :=
  name_ok (op_name o) /\ (op_wild o = false -> first_label (op_name o) <> S_STAR) /\
  rtype_known (op_type o) = true /\ op_type o <> RT_SOA /\
  shape_of_rdata (op_data o) = shape_of_type (op_type o) /\ rdata_ok (op_data o) /\ op_ttl o < 4294967296.

(* the apex: the root, or the zone has a SOA (D5); its leftmost label not "*" *)
Definition head_ok (apex : dname) (s : option soa) : Prop :=
  name_ok apex /\ first_label apex <> S_STAR /\ match s with Some so => soa_ok so | None => apex = root_domain end.

Definition built (z : zone) : Prop :=
  exists apex s ops, head_ok apex s /\ Forall op_src_ok ops /\ zone_build apex s ops = Ok z.

(* an order in which the serialiser may meet the records of z (HashMap iteration order) *)
Definition nonempty_lists (l : list (dname * list zrec)) : Prop := forall n zrs, In (n, zrs) l -> zrs <> [].
Definition admissible (z : zone) (recs wrecs : list (dname * list zrec)) : Prop :=
  nonempty_lists recs /\ nonempty_lists wrecs /\
  exists fz, R (labels (z_apex z)) (z_records z) fz /\
             describes (labels (z_apex z)) (f_norm fz) recs /\ describes (labels (z_apex z)) (f_wild fz) wrecs.

Lemma describes_ext apexl side side' l :
  (forall p t, recs_at side p t = recs_at side' p t) -> describes apexl side l -> describes apexl side' l.
Proof.
  intros He [H1 H2 H3]. constructor; [exact H1| |].
  - intros n zrs Hin. destruct (H2 n zrs Hin) as (p & Hp & Ht). exists p. split; [exact Hp|]. intro t. rewrite <- He. apply Ht.
  - intros p r Hin. apply (H3 p r).
    assert (Hr : In r (recs_at side' p (zr_type r))) by (apply In_recs_at; auto).
    rewrite <- He in Hr. apply In_recs_at in Hr. apply Hr.
Qed.

Lemma built_data z apex s ops : head_ok apex s -> Forall op_src_ok ops -> zone_build apex s ops = Ok z ->
  z_apex z = apex /\ z_soa z = s /\ R (labels apex) (z_records z) (flat_of_ops apex s ops) /\ fz_ok s (flat_of_ops apex s ops).
Proof.
  intros (Ha & _ & _) Hops Hb.
  destruct (zone_build_R apex s ops (proj1 Ha)) as (z0 & Hb0 & A0 & S0 & R0).
  { revert Hops. apply Forall_impl. intros o Ho. apply Ho. }
  rewrite Hb in Hb0. injection Hb0 as <-. split; [exact A0|]. split; [exact S0|]. split; [exact R0|].
  apply flat_of_ops_ok. revert Hops. apply Forall_impl. intros o Ho. apply Ho.
Qed.

Lemma mkname_of_wf n p apexl : wf_name n -> labels n = p ++ apexl -> mkname (p ++ apexl) = n.
Proof. intros [_ Hn] Hl. destruct n as [ls len]. cbn [labels nlen] in *. subst. reflexivity. Qed.

Lemma clamp_u32 s x : match s with Some so => soa_ok so | None => True end -> x < 4294967296 -> clamp s x < 4294967296.
Proof.
  intros Hs Hx. unfold clamp. destruct s as [so|]; [|exact Hx].
  unfold soa_ok, soa_to_rdata in Hs. cbn [rdata_ok] in Hs. destruct Hs as (_ & _ & _ & _ & _ & _ & Hm). lia.
Qed.

(* the records of a built zone, under any admissible order, are what the serialiser can write *)
Lemma admissible_src_ok z apex s ops recs wrecs :
  head_ok apex s -> Forall op_src_ok ops -> zone_build apex s ops = Ok z -> admissible z recs wrecs ->
  zone_src_ok z recs wrecs /\
  describes (labels apex) (f_norm (flat_of_ops apex s ops)) recs /\ describes (labels apex) (f_wild (flat_of_ops apex s ops)) wrecs.
Proof.
  intros Hh Hops Hb (Hne & Hwne & fz & HR & Hd & Hdw).
  destruct (built_data z apex s ops Hh Hops Hb) as (Ea & Es & HR0 & Hok).
  rewrite Ea in *.
  pose proof (R_unique _ _ _ _ HR HR0) as Hu.
  assert (Hd0 : describes (labels apex) (f_norm (flat_of_ops apex s ops)) recs) by (eapply describes_ext; [apply (Hu false)|exact Hd]).
  assert (Hdw0 : describes (labels apex) (f_wild (flat_of_ops apex s ops)) wrecs) by (eapply describes_ext; [apply (Hu true)|exact Hdw]).
  split; [|split; assumption].
  destruct Hh as (Hap & Hafl & Hsoa).
  assert (Hsoa' : match s with Some so => soa_ok so | None => True end) by (destruct s; [exact Hsoa|exact I]).
  (* every record listed comes from the SOA or from an insertion *)
  assert (Hrec : forall (w : bool) l n zrs, describes (labels apex) (side w (flat_of_ops apex s ops)) l -> nonempty_lists l -> In (n, zrs) l ->
             name_ok n /\ under apex n /\ (w = false -> first_label n <> S_STAR) /\
             Forall (fun zr => (w = false /\ zr_type zr = RT_SOA) \/ rec_ok zr) zrs).
  { intros w l n zrs Hdesc Hnel Hin. destruct (ds_recs _ _ _ Hdesc n zrs Hin) as (p & -> & Ht).
    assert (Hall : forall zr, In zr zrs -> from_ops (labels apex) s ops w p zr).
    { intros zr Hzr. apply flat_of_ops_sound.
      assert (Hr : In zr (of_type (zr_type zr) zrs)) by (apply filter_In; split; [exact Hzr|apply N.eqb_refl]).
      rewrite Ht in Hr. apply In_recs_at in Hr. destruct w; apply Hr. }
    assert (Hname : name_ok (mkname (p ++ labels apex)) /\ under apex (mkname (p ++ labels apex)) /\
                    (w = false -> first_label (mkname (p ++ labels apex)) <> S_STAR)).
    { destruct zrs as [|zr0 zrs0]; [exfalso; exact (Hnel _ _ Hin eq_refl)|].
      destruct (Hall zr0 (or_introl eq_refl)) as [(-> & -> & _)|(o & Ho & Hw & Hp & _)].
      - rewrite (mkname_of_wf apex [] (labels apex) (proj1 Hap) eq_refl).
        split; [exact Hap|]. split; [|intros _; exact Hafl].
        unfold under. apply subdomain_is_suffix. exists []. reflexivity.
      - rewrite Forall_forall in Hops. destruct (Hops o Ho) as (Hon & Hofl & _).
        apply rel_path_some in Hp. rewrite (mkname_of_wf (op_name o) p (labels apex) (proj1 Hon) Hp).
        split; [exact Hon|]. split; [|intro E; apply Hofl; congruence].
        unfold under. apply subdomain_is_suffix. exists p. exact Hp. }
    destruct Hname as (N1 & N2 & N3). split; [exact N1|]. split; [exact N2|]. split; [exact N3|].
    apply Forall_forall. intros zr Hzr. destruct (Hall zr Hzr) as [(-> & -> & so & -> & ->)|(o & Ho & Hw & Hp & ->)].
    - left. split; reflexivity.
    - right. rewrite Forall_forall in Hops. destruct (Hops o Ho) as (_ & _ & Hk & Hns & Hsh & Hrd & Httl).
      split; [|exact Hns]. unfold zrec_ok. cbn [op_zrec zr_type zr_data zr_ttl].
      split; [exact Hk|]. split; [exact Hsh|]. split; [exact Hrd|]. apply clamp_u32; assumption. }
  unfold zone_src_ok. rewrite Ea, Es. split; [exact Hap|]. split; [exact Hafl|]. split; [exact Hsoa|]. split.
  - intros n zrs Hin. exact (Hrec false recs n zrs Hd0 Hne Hin).
  - intros n zrs Hin. exact (Hrec true wrecs n zrs Hdw0 Hwne Hin).
Qed.

(* the serialiser looks at the apex and the SOA of the zone it is given, and at the record
   lists passed in; not at the tree *)
Section SerialiseExt.
  Variable ip : ipcodec.
  Variables z z' : zone.
  Hypothesis Ha : z_apex z' = z_apex z.
  Hypothesis Hs : z_soa z' = z_soa z.

  Lemma serialise_domain_ext n : serialise_domain z' n = serialise_domain z n.
  Proof. unfold serialise_domain, zone_is_authoritative. rewrite Ha, Hs. reflexivity. Qed.

  Lemma serialise_rdata_ext d : serialise_rdata ip z' d = serialise_rdata ip z d.
  Proof. destruct d; cbn [serialise_rdata]; rewrite ?serialise_domain_ext; reflexivity. Qed.

  Lemma record_line_ext o zr : record_line ip z' o zr = record_line ip z o zr.
  Proof. unfold record_line. rewrite serialise_rdata_ext. reflexivity. Qed.

  Lemma normal_lines_ext o zrs : normal_lines ip z' o zrs = normal_lines ip z o zrs.
  Proof. induction zrs as [|zr zrs IH]; cbn [normal_lines]; [reflexivity|]. rewrite record_line_ext, IH. reflexivity. Qed.

  Lemma wildcard_lines_ext o zrs : wildcard_lines ip z' o zrs = wildcard_lines ip z o zrs.
  Proof. induction zrs as [|zr zrs IH]; cbn [wildcard_lines]; [reflexivity|]. rewrite record_line_ext, IH. reflexivity. Qed.

  Lemma domain_blocks_ext recs wrecs ds : domain_blocks ip z' recs wrecs ds = domain_blocks ip z recs wrecs ds.
  Proof.
    induction ds as [|d ds IH]; cbn [domain_blocks]; [reflexivity|]. rewrite IH. f_equal.
    unfold domain_block. rewrite serialise_domain_ext.
    destruct (serialise_domain z d); cbn [bind]; try reflexivity.
    destruct (alookup dname_eqb d recs); destruct (alookup dname_eqb d wrecs); rewrite ?normal_lines_ext, ?wildcard_lines_ext; reflexivity.
  Qed.

  Lemma serialise_with_ext recs wrecs : zone_serialise_with ip z' recs wrecs = zone_serialise_with ip z recs wrecs.
  Proof.
    unfold zone_serialise_with, soa_block. rewrite Hs, Ha, domain_blocks_ext.
    assert (E : forall so, serialise_rdata ip z' (soa_to_rdata so) = serialise_rdata ip z (soa_to_rdata so))
      by (intro; apply serialise_rdata_ext).
    destruct (z_soa z) as [so|]; [rewrite E|]; reflexivity.
  Qed.
End SerialiseExt.

Section RoundTrip.
  Variable ip : ipcodec.
  Hypothesis Hip : codec_rt ip.

  Lemma src_ok_op apex w l d zr : recs_src_ok apex w l -> In zr (lookup d l) -> w = true \/ zr_type zr <> RT_SOA ->
    op_src_ok (op_of_rr w (zr_to_rr zr d)).
  Proof.
    intros H Hzr Hw. destruct (lookup_src_ok apex w l d H) as [[E|(N1 & _ & N3)] Hall]; [rewrite E in Hzr; destruct Hzr|].
    rewrite Forall_forall in Hall. destruct (Hall zr Hzr) as [[F1 F2]|[(K & Sh & Rd & Tt) Ns]]; [destruct Hw; congruence|].
    unfold op_src_ok. cbn [op_of_rr zr_to_rr op_name op_wild op_type op_data op_ttl rr_name rr_type rr_data rr_ttl]. auto 10.
  Qed.

  Lemma text_ops_src_ok z recs wrecs : zone_src_ok z recs wrecs -> Forall op_src_ok (text_ops recs wrecs).
  Proof.
    intros (_ & _ & _ & Hrecs & Hwrecs).
    unfold text_ops, block_rrs, block_wrrs. apply Forall_app. split; apply Forall_forall; intros o Ho;
      apply in_map_iff in Ho as (r & <- & Hr); apply in_flat_map in Hr as (d & _ & Hr); apply in_map_iff in Hr as (zr & <- & Hzr).
    - apply filter_In in Hzr as [Hzr Hns]. apply (src_ok_op _ _ _ _ _ Hrecs Hzr). right.
      unfold nonsoa in Hns. apply negb_true_iff, N.eqb_neq in Hns. exact Hns.
    - apply (src_ok_op _ _ _ _ _ Hwrecs Hzr). left. reflexivity.
  Qed.

  (* C13: for every built zone and every admissible record order, the text the serialiser
     writes is read back as the same zone; the zone read back is again a built zone for which the
     same order is admissible, and serialising it in that order gives the same text *)
  Theorem zone_roundtrip z recs wrecs : built z -> admissible z recs wrecs ->
    exists txt z', zone_serialise_with ip z recs wrecs = Ok txt /\ deserialise ip txt = Ok z' /\
      zone_same z z' /\ built z' /\ admissible z' recs wrecs /\ zone_serialise_with ip z' recs wrecs = Ok txt.
  Proof.
    intros (apex & s & ops & Hh & Hops & Hb) Hadm.
    destruct (admissible_src_ok z apex s ops recs wrecs Hh Hops Hb Hadm) as (Hsrc & Hd & Hdw).
    destruct (built_data z apex s ops Hh Hops Hb) as (Ea & Es & HR0 & Hok).
    destruct (serialise_deserialise ip Hip z recs wrecs Hsrc) as (txt & z' & Etxt & Ed & Ea' & Es' & Hb' & HR').
    rewrite Ea, Es in *.
    pose proof (text_ops_flat apex s (flat_of_ops apex s ops) recs wrecs Hok Hd Hdw) as Hflat.
    exists txt, z'. split; [exact Etxt|]. split; [exact Ed|]. split.
    { eapply same_from_flat; rewrite ?Ea; try eassumption; congruence. }
    split.
    { exists apex, s, (text_ops recs wrecs). split; [exact Hh|]. split; [apply (text_ops_src_ok z); exact Hsrc|exact Hb']. }
    split.
    { destruct Hadm as (Hne & Hwne & _). split; [exact Hne|]. split; [exact Hwne|].
      exists (flat_of_ops apex s (text_ops recs wrecs)). rewrite Ea'. split; [exact HR'|]. split.
      - eapply describes_ext; [|exact Hd]. intros p t. symmetry. apply (Hflat false).
      - eapply describes_ext; [|exact Hdw]. intros p t. symmetry. apply (Hflat true). }
    rewrite <- Etxt. apply serialise_with_ext; congruence.
  Qed.

  (* normalising twice changes nothing more: the zone read back from the text, written again
     (in any order admissible for it) and read again, is the same zone; and written in the
     order of the first pass it is the very same text *)
  Theorem normalise_idempotent z recs wrecs txt z' :
    built z -> admissible z recs wrecs ->
    zone_serialise_with ip z recs wrecs = Ok txt -> deserialise ip txt = Ok z' ->
    zone_serialise_with ip z' recs wrecs = Ok txt /\
    forall recs' wrecs', admissible z' recs' wrecs' ->
      exists txt' z'', zone_serialise_with ip z' recs' wrecs' = Ok txt' /\ deserialise ip txt' = Ok z'' /\
                       zone_same z' z'' /\ zone_same z z''.
  Proof.
    intros Hb Hadm Etxt Ed.
    destruct (zone_roundtrip z recs wrecs Hb Hadm) as (txt0 & z0 & E0 & D0 & S0 & B0 & A0 & T0).
    rewrite Etxt in E0. injection E0 as <-. rewrite Ed in D0. injection D0 as <-.
    split; [exact T0|]. intros recs' wrecs' Hadm'.
    destruct (zone_roundtrip z' recs' wrecs' B0 Hadm') as (txt' & z'' & E1 & D1 & S1 & _).
    exists txt', z''. split; [exact E1|]. split; [exact D1|]. split; [exact S1|]. eapply zone_same_trans; eassumption.
  Qed.
End RoundTrip.
