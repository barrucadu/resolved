(* ZoneFile/ZoneFileProofs.v -- proofs about ZoneFile/ZoneFileModel.v.
   C17: the tokeniser and the whole parser return Ok or Err for every list of scalar values, never
   Panic, never OutOfFuel.  C11: tokenise_render, parse_rr_forms, the rejection lemmas, soa_raises_ttls. *)
From RV Require Import Zone.ZoneFlat Zone.ZoneProofs Zone.ZoneMergeProofs Zone.ZoneEnum.
From RV Require Import Base.Prelude Name.NameModel Name.NameSpec Name.NameProofs
     Wire.WireTypes Zone.ZoneModel ZoneFile.ZoneFileModel ZoneFile.ZoneFileSpec.

Definition total {E A} (r : res E A) : Prop :=
  match r with Ok _ | Err _ => True | Panic | OutOfFuel => False end.

Lemma total_ok {E A} (a : A) : total (@Ok E A a).
Proof. exact I. Qed.
Lemma total_err {E A} (e : E) : total (@Err E A e).
Proof. exact I. Qed.

Lemma opt_of_res_total {E A} (r : res E A) : total r -> total (opt_of_res r).
Proof. destruct r; cbn; auto. Qed.

(* Ok a with P a, or Err; never Panic / OutOfFuel *)
Definition good {E A} (P : A -> Prop) (r : res E A) : Prop :=
  match r with Ok a => P a | Err _ => True | Panic | OutOfFuel => False end.

Lemma good_total {E A} (P : A -> Prop) (r : res E A) : good P r -> total r.
Proof. destruct r; cbn; auto. Qed.

Lemma good_weaken {E A} (P Q : A -> Prop) (r : res E A) :
  good Q r -> (forall a, Q a -> P a) -> good P r.
Proof. destruct r; cbn; auto. Qed.

Lemma good_bind {E A B} (Q : A -> Prop) (P : B -> Prop) (r : res E A) (f : A -> res E B) :
  good Q r -> (forall a, Q a -> good P (f a)) -> good P (bind r f).
Proof. destruct r; cbn; intros H Hf; try contradiction; [apply Hf; exact H | exact I]. Qed.

Lemma total_good {E A} (r : res E A) : total r -> good (fun _ => True) r.
Proof. destruct r; cbn; auto. Qed.

Lemma good_of_opt {E A} (P : A -> Prop) (o : option A) (e : E) :
  (forall a, o = Some a -> P a) -> good P (of_opt o e).
Proof. destruct o; cbn; auto. Qed.

Lemma good_opt_of_res {E A} (P : A -> Prop) (r : res E A) :
  good P r -> good (fun o => match o with Some a => P a | None => True end) (opt_of_res r).
Proof. destruct r; cbn; auto. Qed.

Lemma len_ge_spec {A} n (l : list A) : len_ge n l = true <-> (n <= length l)%nat.
Proof.
  revert l; induction n as [|n IH]; intros l; cbn [len_ge]; [split; [lia|reflexivity]|].
  destruct l as [|x t]; cbn [length]; [split; [discriminate|lia]|].
  rewrite IH. lia.
Qed.

Lemma len_ge_S {A} n (l : list A) : len_ge (S n) l = true -> len_ge n l = true.
Proof. rewrite !len_ge_spec. lia. Qed.

Lemma len_is_spec {A} n (l : list A) : len_is n l = true <-> length l = n.
Proof.
  revert l; induction n as [|n IH]; intros [|x t]; cbn [len_is length]; try (split; [discriminate|lia]).
  - split; reflexivity.
  - rewrite IH. lia.
Qed.

Lemma idx_ok {E A} (l : list A) i : (i < length l)%nat -> exists x, @idx E A l i = Ok x.
Proof.
  intro H. unfold idx. destruct (nth_error l i) eqn:En; [eauto|].
  apply nth_error_None in En. lia.
Qed.

Lemma last_opt_some {A} (l : list A) : l <> [] -> exists x, last_opt l = Some x.
Proof.
  induction l as [|x t IH]; intro H; [congruence|].
  destruct t as [|y t'].
  - exists x. reflexivity.
  - destruct IH as [z Hz]; [discriminate|]. exists z. exact Hz.
Qed.

Lemma tokenise_escape_good s :
  good (fun p => fst p < 256 /\ (length (snd p) < length s)%nat) (tokenise_escape s).
Proof.
  unfold tokenise_escape.
  repeat match goal with
         | |- good _ (match ?x with _ => _ end) => destruct x eqn:?
         | |- good _ (if ?b then _ else _) => destruct b eqn:?
         end; cbn [good fst snd length]; try exact I; (split; [|lia]).
  - match goal with B : (_ <=? U8_MAX) = true |- _ => apply N.leb_le in B; unfold U8_MAX in B; lia end.
  - match goal with B : is_ascii _ = true |- _ => unfold is_ascii in B; apply N.ltb_lt in B; lia end.
Qed.

Lemma tokenise_escape_shorter s o r : tokenise_escape s = Ok (o, r) -> (length r < length s)%nat.
Proof. intro H. pose proof (tokenise_escape_good s) as G. rewrite H in G. apply G. Qed.

Definition tok_ok (t : token) : Prop := Forall (fun o => o < 256) (snd t).

Lemma push_tok_ok acc tokens : Forall (fun o => o < 256) acc -> Forall tok_ok tokens -> Forall tok_ok (push_tok acc tokens).
Proof. intros Ha Ht. constructor; [unfold tok_ok, rev'; cbn [snd]; rewrite <- rev_alt; apply Forall_rev, Ha|exact Ht]. Qed.

Lemma flush_tok_ok acc tokens : Forall (fun o => o < 256) acc -> Forall tok_ok tokens -> Forall tok_ok (flush_tok acc tokens).
Proof. intros Ha Ht. unfold flush_tok. destruct (is_nil acc); [exact Ht|apply push_tok_ok; assumption]. Qed.

Lemma finish_toks_ok acc tokens : Forall (fun o => o < 256) acc -> Forall tok_ok tokens -> Forall tok_ok (finish_toks acc tokens).
Proof. intros Ha Ht. unfold finish_toks, rev'. rewrite <- rev_alt. apply Forall_rev. apply flush_tok_ok; assumption. Qed.

Lemma ascii_octet c : is_ascii c = true -> c < 256.
Proof. unfold is_ascii. intro H. apply N.ltb_lt in H. lia. Qed.

(* every iteration of the tokeniser consumes at least one character: with a fuel list at least as long as
   the stream it never panics and never runs out of fuel; what is left of the stream is strictly shorter
   unless the stream was empty; and the tokens are octet strings *)
Lemma tok_loop_good : forall fuel s tokens acc st lc, (length s <= length fuel)%nat ->
  good (fun r => ((s = [] /\ snd r = []) \/ (length (snd r) < length s)%nat) /\
                 (Forall tok_ok tokens -> Forall (fun o => o < 256) acc -> Forall tok_ok (fst r)))
       (tok_loop fuel s tokens acc st lc).
Proof.
  (* every branch of the loop body is an error, a stop that leaves less of the stream, or a recursive call
     on a shorter stream with octets added to the pending token or the token pushed *)
  induction fuel as [|f fuel IH]; intros s tokens acc st lc Hlen;
    (destruct s as [|c rest]; [cbn [tok_loop good fst snd]; split; [left; auto|intros Ht Ha; apply finish_toks_ok; assumption]|]);
    cbn [length] in Hlen; [lia|].
  cbn [tok_loop].
  destruct st;
    repeat match goal with
           | |- context [tokenise_escape ?r] =>
             let E := fresh "E" in
             pose proof (tokenise_escape_good r) as E;
             destruct (tokenise_escape r) as [[? ?]| | |]; cbn [good fst snd] in E; try contradiction; destruct E
           | |- context [if ?b then _ else _] => destruct b eqn:?
           end;
    try exact I;
    try (split; [right; cbn [length snd]; lia|intros Ht Ha; apply finish_toks_ok; auto using flush_tok_ok]);
    (eapply good_weaken; [apply IH; lia|]);
    intros [toks r] [H1 H2]; cbn [fst snd] in *;
    (split;
     [right; destruct H1 as [[-> ->]|H1]; cbn [length] in *; lia
     |intros Ht Ha; apply H2;
      eauto using flush_tok_ok, push_tok_ok, Forall_cons, Forall_nil, ascii_octet]).
Qed.

Lemma tok_loop_total fuel s tokens acc st lc :
  (length s <= length fuel)%nat -> total (tok_loop fuel s tokens acc st lc).
Proof. intro H. exact (good_total _ _ (tok_loop_good fuel s tokens acc st lc H)). Qed.

(* the fuel does not matter once it covers the stream: exactly the characters are the steps *)
Lemma tok_loop_fuel_irrelevant : forall f1 f2 s tokens acc st lc,
  (length s <= length f1)%nat -> (length s <= length f2)%nat ->
  tok_loop f1 s tokens acc st lc = tok_loop f2 s tokens acc st lc.
Proof.
  induction f1 as [|x f1 IH]; intros f2 s tokens acc st lc H1 H2.
  - destruct s as [|c r]; [destruct f2; reflexivity|cbn [length] in H1; lia].
  - destruct s as [|c r]; [destruct f2; reflexivity|].
    destruct f2 as [|y f2]; [cbn [length] in H2; lia|]. cbn [length] in H1, H2.
    cbn [tok_loop]. destruct st;
      repeat match goal with
             | |- context [tokenise_escape ?r] =>
               let E := fresh "E" in
               destruct (tokenise_escape r) as [[? ?]| | |] eqn:E;
               [ apply tokenise_escape_shorter in E | | | ]
             | |- context [if ?b then _ else _] => destruct b
             end;
      try reflexivity; apply IH; cbn [length] in *; lia.
Qed.

Lemma tokenise_entry_good s :
  good (fun r => ((s = [] /\ snd r = []) \/ (length (snd r) < length s)%nat) /\ Forall tok_ok (fst r)) (tokenise_entry s).
Proof.
  eapply good_weaken; [apply (tok_loop_good s s [] [] SInitial false (le_n _))|].
  intros r [H1 H2]. split; [exact H1|apply H2; constructor].
Qed.

Lemma tokenise_entry_total s : total (tokenise_entry s).
Proof. exact (good_total _ _ (tokenise_entry_good s)). Qed.

Lemma tokenise_entry_rest s toks rest :
  tokenise_entry s = Ok (toks, rest) -> (s = [] /\ rest = []) \/ (length rest < length s)%nat.
Proof. intro H. pose proof (tokenise_entry_good s) as G. rewrite H in G. apply G. Qed.

Definition wf_opt (o : option dname) : Prop := match o with Some n => wf_name n | None => True end.
Definition mw_name (w : mwild) : dname := match w with MNormal n | MWildcard n => n end.
Definition wf_mw (o : option mwild) : Prop := match o with Some w => wf_name (mw_name w) | None => True end.

Lemma ascii_scalar s : forallb is_ascii s = true -> Forall scalar s.
Proof.
  intro H. rewrite forallb_forall in H. apply Forall_forall. intros c Hc. apply H in Hc.
  unfold is_ascii in Hc. apply N.ltb_lt in Hc. unfold scalar. lia.
Qed.

Lemma last_char_ok {E} s : is_nil s = false -> exists c, @last_char E s = Ok c.
Proof.
  intro H. unfold last_char. destruct (last_opt_some s) as [c Hc]; [destruct s; [discriminate|congruence]|].
  rewrite Hc. eauto.
Qed.

Lemma good_imp {E A} (H : Prop) (P : A -> Prop) (r : res E A) : good (fun a => H -> P a) r -> H -> good P r.
Proof. destruct r; cbn; auto. Qed.

(* parse_domain never panics, and yields well-formed names when the origin is one *)
Lemma parse_domain_spec origin s : good (fun n => wf_opt origin -> wf_name n) (parse_domain origin s).
Proof.
  unfold parse_domain.
  destruct (is_nil s) eqn:En; [exact I|].
  destruct (forallb is_ascii s) eqn:Ea; cbn [negb]; [|exact I].
  destruct (leqb s S_AT); [apply good_of_opt; intros a -> Ho; exact Ho|].
  destruct (last_char_ok (E:=zerr) s En) as [c ->]. cbn [bind].
  destruct (c =? 46).
  - apply good_of_opt. intros a Ha _. eapply dotted_wf; [apply ascii_scalar; exact Ea|exact Ha].
  - destruct origin as [o|]; [|exact I]. apply good_of_opt. intros a Ha Ho.
    eapply join_wf; [exact Ho|apply ascii_scalar; exact Ea|exact Ha].
Qed.

Lemma parse_domain_good origin s : wf_opt origin -> good wf_name (parse_domain origin s).
Proof. apply good_imp, parse_domain_spec. Qed.

Lemma parse_domain_total origin s : total (parse_domain origin s).
Proof. exact (good_total _ _ (parse_domain_spec origin s)). Qed.

Lemma forallb_skipn {A} (f : A -> bool) n l : forallb f l = true -> forallb f (skipn n l) = true.
Proof.
  revert l; induction n as [|n IH]; intros l H; [exact H|]. destruct l as [|x t]; [reflexivity|].
  cbn [skipn]. apply IH. cbn [forallb] in H. apply andb_true_iff in H. apply H.
Qed.

Lemma normal_or_star_spec name : good (fun w => wf_name name -> wf_name (mw_name w)) (normal_or_star name).
Proof.
  unfold normal_or_star.
  destruct (labels name) as [|l0 [|l1 t]] eqn:E; cbn [len_ge idx nth_error bind slice_from skipn]; try (intro Hn; exact Hn).
  destruct (leqb l0 S_STAR); cbn [bind]; [|intro Hn; exact Hn].
  destruct (from_labels (l1 :: t)) as [parent|] eqn:F; [|intro Hn; exact Hn].
  intro Hn. cbn [mw_name]. apply from_labels_wf in F; [apply F|].
  destruct Hn as [Hl _]. apply wf_labels_all in Hl. rewrite E in Hl. apply Forall_cons_iff in Hl. apply Hl.
Qed.

Lemma pdw_spec origin s : good (fun w => wf_opt origin -> wf_name (mw_name w)) (parse_domain_or_wildcard origin s).
Proof.
  unfold parse_domain_or_wildcard.
  destruct (is_nil s); [exact I|].
  destruct (leqb s S_STAR); [destruct origin; [intro Ho; exact Ho|exact I]|].
  assert (Hn : forall x, good (fun w => wf_opt origin -> wf_name (mw_name w)) (let* name := parse_domain origin x in normal_or_star name)).
  { intro x. eapply good_bind; [apply parse_domain_spec|]. intros a Ha.
    eapply good_weaken; [apply normal_or_star_spec|]. intros w Hw Ho. exact (Hw (Ha Ho)). }
  destruct s as [|c0 [|c1 t]]; cbn [len_ge len_is idx nth_error bind slice_from skipn]; try apply Hn.
  destruct (c0 =? 42); cbn [bind]; [|apply Hn].
  destruct (c1 =? 46); [|apply Hn].
  destruct t as [|c2 t']; cbn [len_is bind]; [intros _; apply root_wf|].
  eapply good_bind; [apply parse_domain_spec|]. intros a Ha. exact Ha.
Qed.

Lemma pdw_total origin s : total (parse_domain_or_wildcard origin s).
Proof. exact (good_total _ _ (pdw_spec origin s)). Qed.

Lemma parse_u32_good s : good (fun _ => True) (parse_u32 s).
Proof. unfold parse_u32. apply good_of_opt. auto. Qed.

Section Parser.
  Variable ip : ipcodec.

  (* solves [good (fun _ => True) r] goals made of binds, ifs and matches over total pieces *)
  Ltac gtrue :=
    repeat first
      [ exact I
      | apply parse_u32_good
      | lazymatch goal with
        | |- good _ (bind (opt_of_res (parse_domain _ _)) _) =>
          eapply good_bind;
          [ apply good_opt_of_res; eapply good_weaken; [apply parse_domain_good; assumption | intros ? ?; exact I]
          | intros ? _ ]
        | |- good _ (if ?b then _ else _) => destruct b
        | |- good _ (match ?x with _ => _ end) => destruct x
        end
      | progress cbn [bind idx nth_error len_is len_ge is_nil slice_from skipn good] ].

  Lemma try_parse_good origin tokens :
    wf_opt origin -> good (fun _ => True) (try_parse_rtype_with_data ip origin tokens).
  Proof.
    intro Ho. unfold try_parse_rtype_with_data.
    destruct tokens as [|t0 [|t1 [|t2 [|t3 [|t4 [|t5 [|t6 [|t7 [|t8 r]]]]]]]]];
      cbn [bind idx nth_error len_is len_ge is_nil good];
      try exact I;
      (destruct (rtype_from_str (fst t0)) as [ty|]; [|exact I]);
      gtrue.
  Qed.

  Definition is_include (e : entry) : Prop := match e with EInclude _ _ => True | _ => False end.

  Lemma parse_include_good origin tokens : good is_include (parse_include origin tokens).
  Proof.
    unfold parse_include.
    destruct tokens as [|t0 [|t1 [|t2 [|t3 r]]]]; cbn [len_is negb andb idx nth_error bind]; try exact I.
    - destruct (leqb (fst t0) S_INCLUDE); cbn [negb]; exact I.
    - destruct (leqb (fst t0) S_INCLUDE); cbn [negb]; [|exact I].
      eapply good_bind with (Q := fun _ => True); [|intros; exact I].
      eapply good_bind; [apply total_good, parse_domain_total|]. intros a Ha. exact I.
  Qed.

End Parser.

Definition optP {A} (P : A -> Prop) (o : option A) : Prop := match o with Some a => P a | None => True end.

Lemma good_intro {E A} (P : A -> Prop) (r : res E A) : total r -> (forall a, r = Ok a -> P a) -> good P r.
Proof. destruct r; cbn; auto. Qed.

(* One pass over the parser, for any predicates on what it produces -- names (PN), owners (PW), type with
   RDATA (PD), TTLs (PT) -- that its leaves establish: nothing panics, no loop runs out of fuel, and the
   state of the main loop holds only such values. *)
Section Chain.
  Variable ip : ipcodec.
  Variables (PN : dname -> Prop) (PW : mwild -> Prop) (PD : N * rdata -> Prop) (PT : N -> Prop).
  Hypothesis Hpd : forall o s, optP PN o -> good PN (parse_domain o s).
  Hypothesis Hpdw : forall o s, optP PN o -> good PW (parse_domain_or_wildcard o s).
  Hypothesis Htry : forall o toks, optP PN o -> Forall tok_ok toks -> good (optP PD) (try_parse_rtype_with_data ip o toks).
  Hypothesis Hu32 : forall s, good PT (parse_u32 s).
  Hypothesis Hzero : PT 0.
  Hypothesis Hsoa : forall ty m r a b c e f, PD (ty, RD_SOA m r a b c e f) -> PT f.

  Definition rr_P (w : bool) (r : rr) : Prop :=
    PW (if w then MWildcard (rr_name r) else MNormal (rr_name r)) /\ PD (rr_type r, rr_data r) /\ PT (rr_ttl r).
  Definition entry_P (e : entry) : Prop :=
    match e with
    | EOrigin n => PN n
    | EInclude _ _ => True
    | ERR r => rr_P false r
    | EWildcardRR r => rr_P true r
    end.

  Lemma to_rr_P w td ttl : PW w -> PD td -> PT ttl -> entry_P (to_rr w td ttl).
  Proof.
    intros Hw Htd Httl. destruct td as [ty d].
    assert (Ht' : PT (match d with RD_SOA _ _ _ _ _ _ minimum => minimum | _ => ttl end))
      by (destruct d; try exact Httl; exact (Hsoa _ _ _ _ _ _ _ _ Htd)).
    destruct w; cbn in *; repeat split; assumption.
  Qed.

  Lemma with_prev_ttl_good pt w td : optP PT pt -> PW w -> PD td -> good entry_P (with_prev_ttl pt w td).
  Proof.
    intros Hpt Hw Htd. unfold with_prev_ttl. destruct pt; [apply to_rr_P; assumption|].
    destruct (fst td =? RT_SOA); [apply to_rr_P; assumption|exact I].
  Qed.

  Ltac gpdw Ho :=
    eapply good_bind; [apply Hpdw; exact Ho | intros ? ?].
  Ltac gu32 :=
    eapply good_bind; [apply Hu32 | intros ? ?].

  (* the owner is inherited *)
  Lemma prev_owner_good pd (f : mwild -> res zerr entry) :
    optP PW pd -> (forall w, PW w -> good entry_P (f w)) ->
    good entry_P (match pd with Some w => f w | None => Err MissingDomainName end).
  Proof. intros Hpd' Hf. destruct pd; [apply Hf, Hpd'|exact I]. Qed.

  Lemma parse_rr_1_good pd pt td : optP PW pd -> optP PT pt -> PD td -> good entry_P (parse_rr_1 pd pt td).
  Proof. intros Hpd' Hpt Htd. apply prev_owner_good; [exact Hpd'|]. intros w Hw. apply with_prev_ttl_good; assumption. Qed.

  Lemma parse_rr_2_good origin pd pt t0 r td :
    optP PN origin -> optP PW pd -> optP PT pt -> PD td -> good entry_P (parse_rr_2 origin pd pt (t0 :: r) td).
  Proof.
    intros Ho Hpd' Hpt Htd. unfold parse_rr_2. cbn [idx nth_error bind].
    destruct (leqb (fst t0) S_IN); [apply (parse_rr_1_good pd pt td Hpd' Hpt Htd)|].
    destruct (all_digits (fst t0)).
    - gu32. apply prev_owner_good; [exact Hpd'|]. intros w Hw. apply to_rr_P; assumption.
    - gpdw Ho. apply with_prev_ttl_good; assumption.
  Qed.

  Lemma parse_rr_3_good origin pd pt t0 t1 r td :
    optP PN origin -> optP PW pd -> optP PT pt -> PD td -> good entry_P (parse_rr_3 origin pd pt (t0 :: t1 :: r) td).
  Proof.
    intros Ho Hpd' Hpt Htd. unfold parse_rr_3. cbn [idx nth_error bind].
    destruct (leqb (fst t1) S_IN).
    - destruct (all_digits (fst t0)).
      + gu32. apply prev_owner_good; [exact Hpd'|]. intros w Hw. apply to_rr_P; assumption.
      + gpdw Ho. apply with_prev_ttl_good; assumption.
    - destruct (leqb (fst t0) S_IN).
      + gu32. apply prev_owner_good; [exact Hpd'|]. intros w Hw. apply to_rr_P; assumption.
      + gpdw Ho. gu32. apply to_rr_P; assumption.
  Qed.

  Lemma parse_rr_4_good origin t0 t1 t2 r td :
    optP PN origin -> PD td -> good entry_P (parse_rr_4 origin (t0 :: t1 :: t2 :: r) td).
  Proof.
    intros Ho Htd. unfold parse_rr_4. cbn [idx nth_error bind]. gpdw Ho.
    eapply good_bind with (Q := PT).
    - destruct (leqb (fst t2) S_IN); [apply Hu32|].
      destruct (leqb (fst t1) S_IN); [apply Hu32|exact I].
    - intros ttl Httl. apply to_rr_P; assumption.
  Qed.

  Lemma parse_rr_good origin pd pt tokens :
    optP PN origin -> optP PW pd -> optP PT pt -> Forall tok_ok tokens -> good entry_P (parse_rr ip origin pd pt tokens).
  Proof.
    intros Ho Hpd' Hpt Htok. unfold parse_rr, try_from.
    assert (Htp : forall n, good (optP PD) (try_parse_rtype_with_data ip origin (skipn n tokens)))
      by (intro n; apply Htry; [exact Ho|apply Forall_skipn, Htok]).
    (* by the number of tokens: the attempts that are made, each on tokens that are there *)
    destruct tokens as [|t0 [|t1 [|t2 [|t3 r]]]];
      cbn [is_nil len_ge slice_from skipn bind]; [exact I|..];
      repeat (eapply good_bind;
              [first [exact (Htp 3%nat)|exact (Htp 2%nat)|exact (Htp 1%nat)|exact (Htp 0%nat)]|]; intros [?td|] ?Htd;
              [first [apply parse_rr_4_good|apply parse_rr_3_good|apply parse_rr_2_good|apply parse_rr_1_good]; assumption|]);
      exact I.
  Qed.

  Lemma parse_origin_good origin tokens : optP PN origin -> good entry_P (parse_origin origin tokens).
  Proof.
    intro Ho. unfold parse_origin.
    destruct tokens as [|t0 [|t1 [|t2 r]]]; cbn [len_is negb idx nth_error bind]; try exact I.
    destruct (leqb (fst t0) S_ORIGIN); cbn [negb]; [|exact I].
    eapply good_bind; [apply Hpd; exact Ho|]. intros a Ha. exact Ha.
  Qed.

  (* parse_entry: an entry of such values, and it has consumed at least one character *)
  Definition entry_post (s : list N) (r : option entry * list N) : Prop :=
    match fst r with
    | Some e => entry_P e /\ (length (snd r) < length s)%nat
    | None => True
    end.

  Lemma parse_entry_loop_good : forall fuel origin pd pt s,
    optP PN origin -> optP PW pd -> optP PT pt -> (length s < length fuel)%nat ->
    good (entry_post s) (parse_entry_loop ip fuel origin pd pt s).
  Proof.
    induction fuel as [|f fuel IH]; intros origin pd pt s Ho Hpd' Hpt Hlen; [cbn [length] in Hlen; lia|].
    cbn [parse_entry_loop].
    pose proof (tokenise_entry_good s) as G.
    destruct (tokenise_entry s) as [[tokens rest]| | |] eqn:Et0; cbn [good bind fst snd] in *; try contradiction; [|exact I].
    destruct G as [Et Htok].
    destruct tokens as [|t0 tokens']; cbn [is_nil].
    - destruct rest as [|c rest']; cbn [is_nil]; [exact I|].
      destruct Et as [[_ E]|Hlt]; [discriminate|].
      eapply good_weaken; [apply IH; try assumption; cbn [length] in *; lia|].
      intros [oe r'] Hp. unfold entry_post in *. cbn [fst snd] in *.
      destruct oe; [|exact I]. destruct Hp as [Hw Hl]. split; [exact Hw|cbn [length] in *; lia].
    - assert (Hlt : (length rest < length s)%nat).
      { destruct Et as [[-> ->]|H]; [|exact H]. exfalso.
        (* an empty stream yields no tokens *)
        cbv in Et0. discriminate. }
      cbn [idx nth_error bind].
      destruct (leqb (fst t0) S_ORIGIN).
      + eapply good_bind; [apply parse_origin_good; exact Ho|]. intros e He.
        unfold entry_post. cbn [fst snd]. split; assumption.
      + destruct (leqb (fst t0) S_INCLUDE).
        * eapply good_bind; [apply parse_include_good|]. intros [| | |] He; try contradiction.
          unfold entry_post. cbn [fst snd]. split; [exact I|assumption].
        * eapply good_bind; [apply parse_rr_good; assumption|]. intros e He.
          unfold entry_post. cbn [fst snd]. split; assumption.
  Qed.

  (* the state of the main loop: such values only; SOA data only as the apex's, never in a list *)
  Definition st_P (st : dstate) : Prop :=
    Forall (fun r => rr_P false r /\ match rr_data r with RD_SOA _ _ _ _ _ _ _ => False | _ => True end) (d_rrs st) /\
    Forall (fun r => rr_P true r /\ rr_type r <> RT_SOA) (d_wrrs st) /\
    match d_apex_soa st with Some (a, s) => PW (MNormal a) /\ exists ty, PD (ty, soa_to_rdata s) | None => True end /\
    optP PN (d_origin st) /\ optP PW (d_prev_domain st) /\ optP PT (d_prev_ttl st).

  Lemma st_P_init : st_P dstate_init.
  Proof. unfold st_P, dstate_init. cbn. repeat split; constructor. Qed.

  Lemma deser_step_good st e : st_P st -> entry_P e -> good st_P (deser_step st e).
  Proof.
    intros (H1 & H2 & H3 & H4 & H5 & H6) He. destruct e as [n|p o|r|r]; cbn [deser_step entry_P] in *.
    - unfold st_P. cbn. auto 10.
    - exact I.
    - pose proof He as (Hw & Hd & Ht).
      destruct (rr_data r) eqn:Ed;
        try (unfold st_P; cbn; repeat split; try assumption; constructor; [rewrite Ed; auto|assumption]).
      destruct (d_apex_soa st) eqn:Es; [exact I|]. unfold st_P. cbn. repeat split; try assumption. eauto.
    - destruct (rr_type r =? RT_SOA) eqn:Et; [exact I|]. apply N.eqb_neq in Et. pose proof He as (Hw & Hd & Ht).
      unfold st_P. cbn. repeat split; try assumption. constructor; auto.
  Qed.

  Lemma deser_loop_good : forall fuel st s,
    st_P st -> (length s < length fuel)%nat -> good st_P (deser_loop ip fuel st s).
  Proof.
    induction fuel as [|f fuel IH]; intros st s Hst Hlen; [cbn [length] in Hlen; lia|].
    cbn [deser_loop]. unfold parse_entry.
    eapply good_bind.
    - apply parse_entry_loop_good; [apply Hst|apply Hst|apply Hst|cbn [length]; lia].
    - intros [oe rest] Hp. unfold entry_post in Hp. cbn [fst snd] in *.
      destruct oe as [e|]; [|exact Hst]. destruct Hp as [He Hl].
      eapply good_bind; [apply deser_step_good; assumption|].
      intros st' Hst'. apply IH; [exact Hst'|cbn [length] in Hlen; lia].
  Qed.
End Chain.

(* zones/types.rs ZoneRecords::insert unwraps from_labels on the name of a new child *)

(* a non-empty suffix of the labels of a name is again accepted by from_labels *)
Lemma from_labels_suffix a b n :
  from_labels (a ++ b) = Some n -> b <> [] -> exists m, from_labels b = Some m /\ labels m = b.
Proof.
  intros H Hb. apply from_labels_inv in H as (_ & _ & Hs & front & Hab & Hf).
  destruct (exists_last Hb) as (b' & z & ->).
  rewrite app_assoc in Hab. apply app_inj_tail in Hab as [Hfront ->].
  assert (Hf' : Forall nonempty b') by (rewrite <- Hfront in Hf; apply Forall_app in Hf; apply Hf).
  assert (Hs' : sum_lens (b' ++ [[]]) <= 255).
  { rewrite app_assoc, sum_lens_app in Hs. rewrite sum_lens_app in Hs. rewrite sum_lens_app. unfold label, byte in *. lia. }
  eexists. split; [apply from_labels_intro; assumption|reflexivity].
Qed.

(* a tree that represents a flat zone (relation R of Zone/ZoneProofs.v) takes every insertion of a well-formed name *)
Definition zone_ok (z : zone) : Prop :=
  wf_name (z_apex z) /\ exists fz, R (labels (z_apex z)) (z_records z) fz.

Lemma zone_new_ok apex s : wf_name apex -> zone_ok (zone_new apex s).
Proof.
  intro H. split; [destruct s; exact H|]. exists (fz_init s).
  replace (z_apex (zone_new apex s)) with apex by (destruct s; reflexivity). apply R_zone_new, H.
Qed.

Lemma zone_insert_ok w z name ty d ttl :
  zone_ok z -> wf_name name ->
  exists z', zone_insert w z name ty d ttl = Ok z' /\ zone_ok z' /\ z_apex z' = z_apex z /\ z_soa z' = z_soa z.
Proof.
  intros (Ha & fz & HR) Hn.
  destruct (zone_apply_R (z_apex z) (z_soa z) z fz
              {| op_wild := w; op_name := name; op_type := ty; op_data := d; op_ttl := ttl |} eq_refl eq_refl HR Hn)
    as (z' & Hz & A & S & HR').
  exists z'. split; [exact Hz|]. split; [|split; assumption]. rewrite <- A in HR'. split; [rewrite A; exact Ha|eauto].
Qed.

Lemma sum_lens_ge_length ls : N.of_nat (length ls) <= sum_lens ls.
Proof. apply sum_lens_ge. Qed.

(* the insertion recurses once per label below the apex; a name of at most 255 octets has at most
   128 labels (each costs at least its length octet) *)
Lemma wf_name_labels_bound n : wf_name n -> (length (labels n) <= 128)%nat.
Proof.
  intros [(front & Hl & Hfront & Hle) _].
  (* labels n = front ++ [[]] : the root label costs one octet, every other at least two *)
  rewrite Hl in *. clear Hl.
  assert (Hge : forall f : list label, Forall (fun l : label => l <> [] /\ wf_label l) f ->
                                       2 * N.of_nat (length f) + 1 <= sum_lens (f ++ [[]])).
  { induction f as [|l t IH]; intro Hf; [cbn; lia|].
    apply Forall_cons_iff in Hf as [[Hne _] Ht]. specialize (IH Ht).
    cbn [app sum_lens length]. destruct l as [|x l]; [congruence|]. rewrite llen_cons. unfold label, byte in *. lia. }
  specialize (Hge front Hfront). rewrite app_length. cbn [length]. unfold label, byte in *. lia.
Qed.

Lemma relative_rp_depth z name rp :
  wf_name name -> relative_rp z name = Some rp -> (length rp <= 128)%nat.
Proof.
  intros Hn H. unfold relative_rp in H. destruct (is_subdomain_of name (z_apex z)); [|discriminate].
  inversion H; subst. rewrite rev_length, firstn_length. pose proof (wf_name_labels_bound name Hn). lia.
Qed.

Section Deserialise.
  Variable ip : ipcodec.

  Definition dstate_wf (st : dstate) : Prop :=
    Forall (fun r => wf_name (rr_name r)) (d_rrs st) /\
    Forall (fun r => wf_name (rr_name r)) (d_wrrs st) /\
    match d_apex_soa st with Some (a, _) => wf_name a | None => True end /\
    wf_opt (d_origin st) /\ wf_mw (d_prev_domain st).

  (* the chain with "well formed" for names and owners and nothing for the rest *)
  Lemma deser_loop_wf fuel s : (length s < length fuel)%nat -> good dstate_wf (deser_loop ip fuel dstate_init s).
  Proof.
    intros Hlen.
    eapply good_weaken;
      [apply (deser_loop_good ip wf_name (fun w => wf_name (mw_name w)) (fun _ => True) (fun _ => True));
       [exact parse_domain_good|exact (fun o s => good_imp _ _ _ (pdw_spec o s))| |exact parse_u32_good|exact I|intros; exact I|apply st_P_init|exact Hlen]|].
    - intros o toks Ho _. eapply good_weaken; [apply try_parse_good, Ho|]. intros [a|] _; exact I.
    - intros st (H1 & H2 & H3 & H4 & H5 & _). split; [|split; [|split; [|split]]]; try assumption.
      + eapply Forall_impl; [|exact H1]. intros r [[Hw _] _]. exact Hw.
      + eapply Forall_impl; [|exact H2]. intros r [[Hw _] _]. exact Hw.
      + destruct (d_apex_soa st) as [[a s0]|]; [apply H3|exact I].
  Qed.

  Lemma insert_all_good w : forall rrs z,
    Forall (fun r => wf_name (rr_name r)) rrs -> zone_ok z ->
    good (fun z' => zone_ok z' /\ z_soa z' = z_soa z /\ z_apex z' = z_apex z) (insert_all w rrs z).
  Proof.
    induction rrs as [|r t IH]; intros z Hr Hz; cbn [insert_all]; [cbn; auto|].
    apply Forall_cons_iff in Hr as [Hr Ht].
    destruct (is_subdomain_of (rr_name r) (z_apex z)); cbn [negb]; [|exact I].
    destruct (zone_insert_ok w z (rr_name r) (rr_type r) (rr_data r) (rr_ttl r) Hz Hr) as (z' & Hz' & Hok & Ha & Hs).
    rewrite Hz'. cbn [lift_unit bind].
    eapply good_weaken; [apply IH; assumption|]. intros z'' (H1 & H2 & H3). split; [exact H1|split; congruence].
  Qed.

  Lemma Forall_rev' {A} (P : A -> Prop) l : Forall P l -> Forall P (rev' l).
  Proof.
    intro H. unfold rev'. rewrite <- rev_alt. apply Forall_rev. exact H.
  Qed.

  Lemma assemble_good st : dstate_wf st -> good zone_ok (assemble st).
  Proof.
    intros (H1 & H2 & H3 & _ & _). unfold assemble.
    set (z0 := match d_apex_soa st with Some (apex, s) => zone_new apex (Some s) | None => zone_new root_domain None end).
    assert (Hz0 : zone_ok z0).
    { unfold z0. destruct (d_apex_soa st) as [[a s]|]; apply zone_new_ok; [exact H3|apply root_wf]. }
    eapply good_bind; [apply insert_all_good; [apply Forall_rev'; exact H1|exact Hz0]|].
    intros z1 (Hz1 & _ & _).
    eapply good_weaken; [apply insert_all_good; [apply Forall_rev'; exact H2|exact Hz1]|].
    intros z2 (Hz2 & _). exact Hz2.
  Qed.

  (* C17, zone part: for EVERY text the parser returns a zone or an error *)
  Theorem parse_zone_total data : total (deserialise ip data).
  Proof.
    unfold deserialise. eapply good_total. eapply good_bind.
    - apply deser_loop_wf. cbn [length]. lia.
    - intros st Hst. apply assemble_good. exact Hst.
  Qed.

  (* in particular, with the fuel deserialise passes to its loops, neither OutOfFuel nor Panic *)
  Theorem parse_zone_never_out_of_fuel data : deserialise ip data <> OutOfFuel /\ deserialise ip data <> Panic.
  Proof.
    pose proof (parse_zone_total data) as H. destruct (deserialise ip data); cbn in H; try contradiction;
      split; discriminate.
  Qed.
End Deserialise.

(* the tokeniser loop fuelled by its own input (as tokenise_entry calls it) *)
Definition T (s : list N) (tokens : list token) (acc : list N) (st : tstate) (lc : bool) :=
  tok_loop s s tokens acc st lc.

Lemma T_fuel fuel s tokens acc st lc :
  (length s <= length fuel)%nat -> tok_loop fuel s tokens acc st lc = T s tokens acc st lc.
Proof. intro H. apply tok_loop_fuel_irrelevant; [exact H|lia]. Qed.

Lemma T_nil tokens acc st lc : T [] tokens acc st lc = Ok (finish_toks acc tokens, []).
Proof. reflexivity. Qed.

(* escapes, seen from the loop: the stream continues after the escape *)
Lemma T_escape rest tokens acc st lc o rest' :
  tokenise_escape rest = Ok (o, rest') ->
  T (92 :: rest) tokens acc st lc =
  match st with
  | SInitial | SUnquoted => T rest' tokens (o :: acc) SUnquoted lc
  | SQuoted => T rest' tokens (o :: acc) SQuoted lc
  | SComment => T rest tokens acc SComment lc
  end.
Proof.
  intros He. unfold T at 1. cbn [tok_loop].
  pose proof (tokenise_escape_shorter _ _ _ He) as Hl.
  change (92 =? 10) with false. change (92 =? 59) with false. change (92 =? 40) with false.
  change (92 =? 41) with false. change (92 =? 34) with false. change (92 =? 92) with true.
  destruct st; cbn [orb andb]; rewrite ?He; try (apply T_fuel; lia).
Qed.

(* a character that is none of the structural ones *)
Definition ordinary (c : N) : Prop :=
  c <> 10 /\ c <> 59 /\ c <> 40 /\ c <> 41 /\ c <> 34 /\ c <> 92.

Lemma neq_eqb a b : a <> b -> (a =? b) = false.
Proof. apply N.eqb_neq. Qed.

Lemma plain_char_facts c : plain_char c = true ->
  is_ascii c = true /\ is_whitespace c = false /\ (c =? 10) = false /\ (c =? 59) = false /\
  (c =? 40) = false /\ (c =? 41) = false /\ (c =? 34) = false /\ (c =? 92) = false.
Proof.
  intro Hp. unfold plain_char in Hp.
  apply andb_true_iff in Hp as [Hp Hs]. apply andb_true_iff in Hp as [Ha Hw].
  apply negb_true_iff in Hw. apply negb_true_iff in Hs.
  apply orb_false_iff in Hs as [Hs H92]. apply orb_false_iff in Hs as [Hs H34].
  apply orb_false_iff in Hs as [Hs H41]. apply orb_false_iff in Hs as [H59 H40].
  assert (H10 : (c =? 10) = false).
  { destruct (c =? 10) eqn:E; [|reflexivity]. apply N.eqb_eq in E. subst. discriminate. }
  repeat split; assumption.
Qed.

Lemma to_digit_48 x : x < 10 -> to_digit (48 + x) = Some x.
Proof.
  intro H. unfold to_digit, is_digit.
  replace (48 <=? 48 + x) with true by (symmetry; apply N.leb_le; lia).
  replace (48 + x <=? 57) with true by (symmetry; apply N.leb_le; lia).
  cbn [andb]. f_equal. lia.
Qed.

Lemma escape_ddd o rest : o < 256 ->
  tokenise_escape (48 + o / 100 :: 48 + (o / 10) mod 10 :: 48 + o mod 10 :: rest) = Ok (o, rest).
Proof.
  intro Ho.
  assert (H1 : o / 100 < 10) by (apply N.div_lt_upper_bound; lia).
  assert (H2 : (o / 10) mod 10 < 10) by (apply N.mod_lt; lia).
  assert (H3 : o mod 10 < 10) by (apply N.mod_lt; lia).
  unfold tokenise_escape. rewrite (to_digit_48 _ H1), (to_digit_48 _ H2), (to_digit_48 _ H3).
  assert (Hv : o / 100 * 100 + (o / 10) mod 10 * 10 + o mod 10 = o).
  { apply N.eqb_eq.
    apply (N_lt_sweep (fun o => o / 100 * 100 + (o / 10) mod 10 * 10 + o mod 10 =? o) 256); [vm_compute; reflexivity|exact Ho]. }
  rewrite Hv. unfold U8_MAX. replace (o <=? 255) with true by (symmetry; apply N.leb_le; lia). reflexivity.
Qed.

Lemma escape_x c rest : is_ascii c = true -> is_digit c = false -> tokenise_escape (c :: rest) = Ok (c, rest).
Proof. intros Ha Hd. unfold tokenise_escape, to_digit. rewrite Hd, Ha. reflexivity. Qed.

(* the state in which the octets of a quoted / unquoted token are read *)
Definition tok_state (q : bool) : tstate := if q then SQuoted else SUnquoted.

Lemma T_piece q p tail tokens acc st lc :
  piece_ok q p = true -> st = tok_state q \/ (q = false /\ st = SInitial) ->
  T (piece_text p ++ tail) tokens acc st lc = T tail tokens (piece_octet p :: acc) (tok_state q) lc.
Proof.
  intros Hp Hst. destruct p as [c|c|o]; cbn [piece_ok piece_text piece_octet app] in *.
  - destruct q.
    + destruct Hst as [->|[F _]]; [|discriminate]. unfold quoted_char in Hp. apply andb_true_iff in Hp as [Ha Hs].
      apply negb_true_iff in Hs. apply orb_false_iff in Hs as [H34 H92]. unfold T. cbn [tok_loop tok_state]. rewrite H34, H92, Ha. reflexivity.
    + destruct (plain_char_facts c Hp) as (Ha & Hw & H10 & H59 & H40 & H41 & H34 & H92). unfold T. cbn [tok_loop tok_state].
      destruct Hst as [->|[_ ->]]; rewrite H10, H59, H40, H41, ?H34, H92, Hw, Ha; reflexivity.
  - apply andb_true_iff in Hp as [Ha Hd]. apply negb_true_iff in Hd.
    rewrite (T_escape _ tokens acc st lc c tail (escape_x c tail Ha Hd)).
    destruct Hst as [->|[-> ->]]; [destruct q|]; reflexivity.
  - apply N.ltb_lt in Hp.
    rewrite (T_escape _ tokens acc st lc o tail (escape_ddd o tail Hp)).
    destruct Hst as [->|[-> ->]]; [destruct q|]; reflexivity.
Qed.

Lemma pieces_text_cons p ps : pieces_text (p :: ps) = piece_text p ++ pieces_text ps.
Proof. reflexivity. Qed.

Lemma T_pieces q ps : forall tail tokens acc lc,
  forallb (piece_ok q) ps = true ->
  T (pieces_text ps ++ tail) tokens acc (tok_state q) lc
  = T tail tokens (rev (map piece_octet ps) ++ acc) (tok_state q) lc.
Proof.
  induction ps as [|p ps IH]; intros tail tokens acc lc H; [reflexivity|].
  cbn [forallb] in H. apply andb_true_iff in H as [Hp Hps].
  rewrite pieces_text_cons, <- app_assoc, (T_piece q) by (auto; exact Hp).
  rewrite IH by exact Hps. cbn [map rev]. rewrite <- app_assoc. reflexivity.
Qed.

(* the list of tokens that a configuration of the tokeniser stands for *)

Definition final (pend : list N) (tokens : list token) : list token :=
  rev tokens ++ (if is_nil pend then [] else [dup (rev pend)]).

Lemma finish_final pend tokens : finish_toks pend tokens = final pend tokens.
Proof.
  unfold finish_toks, final, flush_tok, push_tok, rev', dup.
  destruct pend as [|x t]; cbn [is_nil]; rewrite <- !rev_alt; [rewrite app_nil_r; reflexivity|].
  cbn [rev]. reflexivity.
Qed.

Lemma final_flush pend tokens : final [] (flush_tok pend tokens) = final pend tokens.
Proof.
  unfold final, flush_tok, push_tok, rev', dup. destruct pend as [|x t]; cbn [is_nil]; [reflexivity|].
  rewrite <- rev_alt. cbn [rev]. rewrite app_nil_r. reflexivity.
Qed.

Lemma final_push pend tokens : final [] (push_tok pend tokens) = final [] tokens ++ [dup (rev pend)].
Proof.
  unfold final, push_tok, rev', dup. rewrite <- rev_alt. cbn [rev is_nil]. rewrite !app_nil_r. reflexivity.
Qed.

Lemma ws_not c k : is_whitespace c = true -> is_whitespace k = false -> (c =? k) = false.
Proof.
  intros Hc Hk. destruct (c =? k) eqn:E; [|reflexivity]. apply N.eqb_eq in E. subst. congruence.
Qed.

Lemma ws_char_facts c : ws_char c = true ->
  is_whitespace c = true /\ (c =? 10) = false /\ (c =? 59) = false /\ (c =? 40) = false /\
  (c =? 41) = false /\ (c =? 34) = false /\ (c =? 92) = false.
Proof.
  intro H. unfold ws_char in H. apply andb_true_iff in H as [Hw H10]. apply negb_true_iff in H10.
  split; [exact Hw|]. split; [exact H10|].
  repeat split; apply ws_not; try exact Hw; reflexivity.
Qed.

(* the tokeniser's configuration between items: in the Initial state with nothing pending, or
   in the UnquotedString state with a non-empty pending token (and then the previous item was a
   token) *)
Definition cfg_inv (glued : bool) (pend : list N) (st : tstate) : Prop :=
  (st = SInitial /\ pend = []) \/ (st = SUnquoted /\ pend <> [] /\ glued = true).

(* a comment body: stays in the comment state *)
Lemma T_comment txt : forall tail tokens acc lc,
  no_newline txt = true ->
  T (txt ++ tail) tokens acc SComment lc = T tail tokens acc SComment lc.
Proof.
  induction txt as [|c txt IH]; intros tail tokens acc lc H; [reflexivity|].
  cbn [no_newline forallb] in H. apply andb_true_iff in H as [Hc Ht]. apply negb_true_iff in Hc.
  cbn [app]. unfold T at 1. cbn [tok_loop]. rewrite Hc. apply IH. exact Ht.
Qed.

(* one step of [layout_ok] *)
Definition item_step (inside glued : bool) (it : item) : option (bool * bool) :=
  match it with
  | IWs c => if ws_char c then Some (inside, false) else None
  | INl => if inside then Some (inside, false) else None
  | IOpen => if inside then None else Some (true, false)
  | IClose => if inside then Some (false, false) else None
  | IComment txt => if inside && no_newline txt then Some (inside, false) else None
  | ITok w => if glued then None else if wtoken_ok w then Some (inside, true) else None
  end.

Lemma layout_ok_step inside glued it rest :
  layout_ok inside glued (it :: rest)
  = match item_step inside glued it with Some (i, g) => layout_ok i g rest | None => None end.
Proof.
  destruct it; cbn [layout_ok item_step];
    repeat match goal with |- context [if ?b then _ else _] => destruct b end; reflexivity.
Qed.

(* a separator character -- white space, a newline inside parentheses, a parenthesis -- pushes a pending
   unquoted token and leaves the tokeniser in its initial state; a semicolon does the same and starts a comment *)
Lemma T_sep c tail tokens pend st glued (lc lc' : bool) :
  cfg_inv glued pend st ->
  (ws_char c = true /\ lc' = lc) \/ (c = 10 /\ lc = true /\ lc' = true) \/
  (c = 40 /\ lc = false /\ lc' = true) \/ (c = 41 /\ lc = true /\ lc' = false) ->
  T (c :: tail) tokens pend st lc = T tail (flush_tok pend tokens) [] SInitial lc'.
Proof.
  intros Hinv [[Hw ->]|[(-> & -> & ->)|[(-> & -> & ->)|(-> & -> & ->)]]];
    destruct Hinv as [[-> ->]|(-> & _ & _)]; try reflexivity;
    destruct (ws_char_facts c Hw) as (Hws & H10 & H59 & H40 & H41 & H34 & H92);
    unfold T at 1; cbn [tok_loop]; rewrite H10, H59, H40, H41, ?H34, H92, Hws; reflexivity.
Qed.

Lemma T_semi rest tokens pend st glued lc :
  cfg_inv glued pend st -> T (59 :: rest) tokens pend st lc = T rest (flush_tok pend tokens) [] SComment lc.
Proof. intros [[-> ->]|(-> & _ & _)]; reflexivity. Qed.

(* the conclusion of T_item for an item that is no token ([++ []]: it adds no token) *)
Lemma sep_cfg text tail tokens pend st inside inside' :
  T (text ++ tail) tokens pend st inside = T tail (flush_tok pend tokens) [] SInitial inside' ->
  exists tokens' pend' st',
    T (text ++ tail) tokens pend st inside = T tail tokens' pend' st' inside'
    /\ cfg_inv false pend' st' /\ final pend' tokens' = final pend tokens ++ [].
Proof.
  intro E. exists (flush_tok pend tokens), [], SInitial.
  split; [exact E|split; [left; auto|rewrite app_nil_r; apply final_flush]].
Qed.

Lemma T_item it tail tokens pend st inside glued inside' glued' :
  cfg_inv glued pend st ->
  item_step inside glued it = Some (inside', glued') ->
  exists tokens' pend' st',
    T (item_text it ++ tail) tokens pend st inside = T tail tokens' pend' st' inside'
    /\ cfg_inv glued' pend' st'
    /\ final pend' tokens' = final pend tokens ++ map dup (map wtoken_octets (items_tokens [it])).
Proof.
  intros Hinv Hit. destruct it as [c| | | |txt|w]; cbn [item_step item_text items_tokens map] in *.
  - destruct (ws_char c) eqn:Hw; [|discriminate]. inversion Hit; subst.
    apply sep_cfg, (T_sep _ _ _ _ _ _ _ _ Hinv). auto.
  - destruct inside; [|discriminate]. inversion Hit; subst. apply sep_cfg, (T_sep _ _ _ _ _ _ _ _ Hinv). auto.
  - destruct inside; [discriminate|]. inversion Hit; subst. apply sep_cfg, (T_sep _ _ _ _ _ _ _ _ Hinv). auto 6.
  - destruct inside; [|discriminate]. inversion Hit; subst. apply sep_cfg, (T_sep _ _ _ _ _ _ _ _ Hinv). auto 6.
  - (* a comment inside parentheses: up to its newline *)
    destruct inside; cbn [andb] in Hit; [|discriminate].
    destruct (no_newline txt) eqn:Hn; [|discriminate]. inversion Hit; subst. apply sep_cfg.
    cbn [app]. rewrite <- app_assoc, (T_semi _ _ _ _ _ _ Hinv), T_comment by exact Hn. reflexivity.
  - destruct glued; [discriminate|]. destruct (wtoken_ok w) eqn:Hw; [|discriminate].
    inversion Hit; subst; clear Hit.
    destruct Hinv as [[-> ->]|(_ & _ & Hg)]; [|discriminate].
    unfold wtoken_ok in Hw. apply andb_true_iff in Hw as [Hne Hps].
    unfold wtoken_text, wtoken_octets. destruct w as [q ps]. cbn [wt_quoted wt_pieces] in *.
    destruct q; cbn [orb] in Hne.
    + exists (push_tok (rev (map piece_octet ps)) tokens), [], SInitial.
      split; [|split; [left; auto|]].
      * cbn [app]. unfold T at 1. cbn [tok_loop].
        change (34 =? 10) with false. change (34 =? 59) with false. change (34 =? 40) with false.
        change (34 =? 41) with false. change (34 =? 34) with true. cbn iota.
        change (tok_loop ((pieces_text ps ++ [34]) ++ tail) ((pieces_text ps ++ [34]) ++ tail) tokens [] SQuoted inside')
          with (T ((pieces_text ps ++ [34]) ++ tail) tokens [] SQuoted inside').
        rewrite <- app_assoc, (T_pieces true) by exact Hps. rewrite app_nil_r. reflexivity.
      * rewrite final_push, rev_involutive. reflexivity.
    + destruct ps as [|p ps]; [discriminate|].
      assert (Hnn : rev (map piece_octet (p :: ps)) <> [])
        by (cbn [map rev]; intro E; apply app_eq_nil in E as [_ E]; discriminate).
      exists tokens, (rev (map piece_octet (p :: ps))), SUnquoted.
      split; [|split; [right; split; [reflexivity|split; [exact Hnn|reflexivity]]|]].
      * cbn [forallb] in Hps. apply andb_true_iff in Hps as [Hp Hps].
        rewrite pieces_text_cons, <- app_assoc, (T_piece false) by (auto; exact Hp).
        rewrite (T_pieces false) by exact Hps. cbn [map rev]. reflexivity.
      * unfold final. cbn [is_nil app]. rewrite app_nil_r.
        destruct (rev (map piece_octet (p :: ps))) eqn:E; [congruence|].
        cbn [is_nil]. rewrite <- E, rev_involutive. reflexivity.
Qed.

Lemma items_tokens_app a b : items_tokens (a ++ b) = items_tokens a ++ items_tokens b.
Proof.
  induction a as [|it a IH]; [reflexivity|]. destruct it; cbn [app items_tokens]; rewrite ?IH; reflexivity.
Qed.

Lemma T_items : forall items tail tokens pend st inside glued inside',
  cfg_inv glued pend st ->
  layout_ok inside glued items = Some inside' ->
  exists tokens' pend' st' glued',
    T (items_text items ++ tail) tokens pend st inside = T tail tokens' pend' st' inside'
    /\ cfg_inv glued' pend' st'
    /\ final pend' tokens' = final pend tokens ++ map dup (map wtoken_octets (items_tokens items)).
Proof.
  induction items as [|it items IH]; intros tail tokens pend st inside glued inside' Hinv Hl.
  - cbn [layout_ok] in Hl. inversion Hl; subst. exists tokens, pend, st, glued.
    split; [reflexivity|split; [exact Hinv|rewrite app_nil_r; reflexivity]].
  - rewrite layout_ok_step in Hl. destruct (item_step inside glued it) as [[i g]|] eqn:Es; [|discriminate].
    destruct (T_item it (items_text items ++ tail) tokens pend st inside glued i g Hinv Es)
      as (tokens1 & pend1 & st1 & Heq1 & Hinv1 & Hfin1).
    destruct (IH tail tokens1 pend1 st1 i g inside' Hinv1 Hl) as (tokens2 & pend2 & st2 & g2 & Heq2 & Hinv2 & Hfin2).
    exists tokens2, pend2, st2, g2. split; [|split; [exact Hinv2|]].
    + unfold items_text. cbn [flat_map]. rewrite <- app_assoc. fold (items_text items). rewrite Heq1. exact Heq2.
    + rewrite Hfin2, Hfin1, <- app_assoc, <- !map_app. f_equal. f_equal. f_equal.
      change (it :: items) with ([it] ++ items). rewrite items_tokens_app. reflexivity.
Qed.

Lemma T_terminator t rest tokens pend st glued :
  cfg_inv glued pend st -> terminator_ok t = true ->
  T (terminator_text t rest) tokens pend st false = Ok (final pend tokens, terminator_rest t rest).
Proof.
  intros Hinv Ht. destruct t as [| |txt|txt]; cbn [terminator_text terminator_rest terminator_ok] in *.
  - destruct Hinv as [[-> ->]|(-> & Hp & _)]; unfold T; cbn [tok_loop]; change (10 =? 10) with true; cbn iota;
      rewrite finish_final, ?final_flush; reflexivity.
  - rewrite T_nil, finish_final. reflexivity.
  - rewrite (T_semi _ _ _ _ _ _ Hinv), T_comment by exact Ht. unfold T. cbn [tok_loop]. change (10 =? 10) with true. cbn iota.
    rewrite finish_final, final_flush. reflexivity.
  - rewrite (T_semi _ _ _ _ _ _ Hinv), <- (app_nil_r txt), T_comment by exact Ht.
    rewrite T_nil, finish_final, final_flush. reflexivity.
Qed.

(* tokenise_render (C11): an entry written in the layout family -- tokens as raw characters and
   \X / \DDD escapes, quoted or not, separated by white space, parenthesised groups spanning
   lines (parentheses may touch the tokens), comments -- is read back as exactly its tokens,
   and the stream continues after the end of the entry *)
Theorem tokenise_render items t rest :
  layout_ok false false items = Some false -> terminator_ok t = true ->
  tokenise_entry (items_text items ++ terminator_text t rest)
  = Ok (map dup (map wtoken_octets (items_tokens items)), terminator_rest t rest).
Proof.
  intros Hl Ht. unfold tokenise_entry.
  change (tok_loop (items_text items ++ terminator_text t rest) (items_text items ++ terminator_text t rest) [] [] SInitial false)
    with (T (items_text items ++ terminator_text t rest) [] [] SInitial false).
  destruct (T_items items (terminator_text t rest) [] [] SInitial false false false) as (tk & pd & st & g & Heq & Hinv & Hfin);
    [left; auto|exact Hl|].
  rewrite Heq, (T_terminator t rest tk pd st g Hinv Ht), Hfin. reflexivity.
Qed.

(* the simple layout as an instance *)
Definition rawtok (t : list N) : wtoken := {| wt_quoted := false; wt_pieces := map PRaw t |}.

Fixpoint simple_items (toks : list (list N)) : list item :=
  match toks with
  | [] => []
  | t :: rest => match rest with
                 | [] => [ITok (rawtok t)]
                 | _ :: _ => ITok (rawtok t) :: IWs 32 :: simple_items rest
                 end
  end.

Lemma pieces_text_raw t : pieces_text (map PRaw t) = t.
Proof.
  induction t as [|c t IH]; [reflexivity|]. cbn [map]. rewrite pieces_text_cons, IH. reflexivity.
Qed.

Lemma item_text_raw t : item_text (ITok (rawtok t)) = t.
Proof. unfold item_text, wtoken_text, rawtok. cbn [wt_quoted wt_pieces]. apply pieces_text_raw. Qed.

Lemma octets_raw t : wtoken_octets (rawtok t) = t.
Proof.
  unfold wtoken_octets, rawtok. cbn [wt_pieces]. rewrite map_map. apply map_id.
Qed.

Lemma rawtok_ok t : plain_token t = true -> wtoken_ok (rawtok t) = true.
Proof.
  intro H. unfold plain_token in H. apply andb_true_iff in H as [Hn Hp].
  unfold wtoken_ok, rawtok. cbn [wt_quoted wt_pieces orb]. apply andb_true_iff. split.
  - destruct t; [discriminate|reflexivity].
  - clear Hn. induction t as [|c t IH]; [reflexivity|]. cbn [forallb map piece_ok] in *.
    apply andb_true_iff in Hp as [-> Ht]. cbn [andb]. apply IH. exact Ht.
Qed.

Lemma simple_items_ok toks : forallb plain_token toks = true ->
  layout_ok false false (simple_items toks) = Some false.
Proof.
  induction toks as [|t toks IH]; intro H; [reflexivity|].
  cbn [forallb] in H. apply andb_true_iff in H as [Ht Hts].
  cbn [simple_items]. destruct toks as [|t2 toks2]; cbn [layout_ok]; rewrite (rawtok_ok t Ht); [reflexivity|].
  change (ws_char 32) with true. cbn iota. apply IH. exact Hts.
Qed.

Lemma simple_items_tokens toks : map wtoken_octets (items_tokens (simple_items toks)) = toks.
Proof.
  induction toks as [|t toks IH]; [reflexivity|].
  cbn [simple_items]. destruct toks as [|t2 toks2]; cbn [items_tokens map]; rewrite octets_raw; [reflexivity|f_equal; exact IH].
Qed.

Lemma simple_items_text toks : items_text (simple_items toks) = render_simple toks.
Proof.
  induction toks as [|t toks IH]; [reflexivity|].
  cbn [simple_items render_simple]. unfold items_text in *.
  destruct toks as [|t2 toks2]; cbn [flat_map]; rewrite item_text_raw; [apply app_nil_r|].
  cbn [item_text app]. f_equal. f_equal. exact IH.
Qed.

(* tokens that need no quoting separated by single spaces, ended by a newline, by the end of
   input, or by a comment *)
Theorem tokenise_render_simple toks t rest :
  forallb plain_token toks = true -> terminator_ok t = true ->
  tokenise_entry (render_simple toks ++ terminator_text t rest) = Ok (map dup toks, terminator_rest t rest).
Proof.
  intros H Ht. rewrite <- simple_items_text.
  rewrite (tokenise_render (simple_items toks) t rest (simple_items_ok toks H) Ht).
  rewrite simple_items_tokens. reflexivity.
Qed.

Example tokenise_render_simple_ex :
  tokenise_entry (render_simple [[119;119;119]; [73;78]; [65]; [49;46;50;46;51;46;52]] ++ terminator_text TNl [120])
  = Ok (map dup [[119;119;119]; [73;78]; [65]; [49;46;50;46;51;46;52]], [120]).
Proof. apply tokenise_render_simple; reflexivity. Qed.

(* an instance: "@ IN SOA ns h (1 2 3 4" newline " 60)", with the parentheses touching the tokens *)
Example tokenise_render_ex :
  let t s := ITok (rawtok s) in
  let items := [t [64]; IWs 32; t [73;78]; IWs 32; t [83;79;65]; IWs 32; t [110;115]; IWs 32; t [104]; IWs 32;
                IOpen; t [49]; IWs 32; t [50]; IWs 32; t [51]; IWs 32; t [52]; INl; IWs 32; t [54;48]; IClose] in
  layout_ok false false items = Some false /\
  tokenise_entry (items_text items ++ terminator_text TEof [])
  = Ok (map dup [[64]; [73;78]; [83;79;65]; [110;115]; [104]; [49]; [50]; [51]; [52]; [54;48]], []).
Proof. cbv zeta. split; [reflexivity|]. rewrite tokenise_render by reflexivity. reflexivity. Qed.

Lemma leqb_refl' s : leqb s s = true.
Proof. apply leqb_eq. reflexivity. Qed.

Section Forms.
  Variable ip : ipcodec.

  (* what an entry of each shape means: the owner is parsed or inherited (wildcard-ness
     included), the TTL is given or inherited (0 for a SOA, whose TTL is its MINIMUM anyway) *)
  Definition denote_rr (sh : rr_shape) (origin : option dname) (pd : option mwild) (pt : option N)
             (o : token) (n : N) (td : N * rdata) : res zerr entry :=
    if has_owner sh then
      let* w := parse_domain_or_wildcard origin (fst o) in
      if has_ttl sh then Ok (to_rr w td n) else with_prev_ttl pt w td
    else
      match pd with
      | Some w => if has_ttl sh then Ok (to_rr w td n) else with_prev_ttl pt w td
      | None => Err MissingDomainName
      end.

  (* a later position cannot be read as type + RDATA when its token is no type mnemonic *)
  Lemma try_from_not_type origin (tokens : list token) q :
    match nth_error tokens q with Some t => rtype_from_str (fst t) = None | None => True end ->
    try_from ip origin tokens q = Ok None.
  Proof.
    intro H. unfold try_from.
    match goal with |- (if ?b then _ else _) = _ => destruct b eqn:El; [|reflexivity] end.
    assert (Hq : len_ge q tokens = true) by (apply len_ge_S; exact El).
    unfold slice_from. rewrite Hq. cbn [bind].
    apply len_ge_spec in El.
    destruct (nth_error tokens q) as [t|] eqn:En; [|apply nth_error_None in En; lia].
    rewrite skipn_nth, En. unfold try_parse_rtype_with_data. cbn [is_nil idx nth_error bind]. rewrite H. reflexivity.
  Qed.

  Theorem parse_rr_forms sh origin pd pt o ttl ty rd n td :
    (* the type token and the RDATA tokens parse to td *)
    try_parse_rtype_with_data ip origin (ty :: rd) = Ok (Some td) ->
    (* unambiguous: no later position reads as type + RDATA ... *)
    (forall q, (type_pos sh < q <= 3)%nat -> try_from ip origin (shape_tokens sh o ttl ty rd) q = Ok None) ->
    (* ... the owner text is not all digits and not IN, the TTL is a number *)
    all_digits (fst o) = false -> leqb (fst o) S_IN = false ->
    all_digits (fst ttl) = true -> uint_from_str U32_MAX (fst ttl) = Some n ->
    parse_rr ip origin pd pt (shape_tokens sh o ttl ty rd) = denote_rr sh origin pd pt o n td.
  Proof.
    intros Htd Hun Hod Hoi Htdg Htn.
    assert (Hti : leqb (fst ttl) S_IN = false)
      by (destruct (leqb (fst ttl) S_IN) eqn:E; [apply leqb_eq in E; rewrite E in Htdg; discriminate|reflexivity]).
    assert (Hu32 : parse_u32 (fst ttl) = Ok n) by (unfold parse_u32; rewrite Htn; reflexivity).
    assert (Hin : leqb (fst T_IN) S_IN = true) by reflexivity.
    unfold denote_rr.
    (* the positions after the type token do not read as a type, the type position does; then the tests
       parse_rr_4 .. parse_rr_1 make on the tokens before it are decided by the hypotheses *)
    destruct sh; cbn [shape_tokens type_pos has_owner has_ttl] in *; unfold parse_rr; cbn [is_nil];
      rewrite ?(Hun 3%nat), ?(Hun 2%nat), ?(Hun 1%nat) by lia; cbn [bind];
      unfold try_from at 1; cbn [len_ge slice_from skipn bind]; rewrite Htd; cbn [bind];
      unfold parse_rr_4, parse_rr_3, parse_rr_2, parse_rr_1; cbn [idx nth_error bind];
      rewrite ?Hin, ?Hti, ?Hoi, ?Hod, ?Htdg, ?Hu32; cbn [bind]; try reflexivity;
      destruct (parse_domain_or_wildcard origin (fst o)); reflexivity.
  Qed.

  (* the hypotheses are satisfiable, for every shape: www / 300 / TXT hello *)
  Example parse_rr_forms_ex : forall sh,
    let o := dup [119; 119; 119] in let ttl := dup [51; 48; 48] in
    let ty := dup [84; 88; 84] in let rd := [dup [104; 101; 108; 108; 111]] in
    let origin := Some root_domain in
    try_parse_rtype_with_data ip origin (ty :: rd) = Ok (Some (RT_TXT, RD_Octets [104; 101; 108; 108; 111]))
    /\ (forall q, (type_pos sh < q <= 3)%nat -> try_from ip origin (shape_tokens sh o ttl ty rd) q = Ok None)
    /\ all_digits (fst o) = false /\ leqb (fst o) S_IN = false
    /\ all_digits (fst ttl) = true /\ uint_from_str U32_MAX (fst ttl) = Some 300.
  Proof.
    intros sh o ttl ty rd origin. split; [reflexivity|]. split; [|repeat split; reflexivity].
    intros q Hq. apply try_from_not_type.
    destruct sh; cbn [type_pos shape_tokens] in *;
      (destruct q as [|[|[|[|q]]]]; try lia; cbn [nth_error]; try reflexivity; try exact I).
  Qed.
End Forms.

(* C11: one rejection lemma per fault; nothing is loaded in part *)

Section Reject.
  Variable ip : ipcodec.

  Lemma deser_loop_unfold f fuel st s :
    deser_loop ip (f :: fuel) st s =
    let* er := parse_entry ip (d_origin st) (d_prev_domain st) (d_prev_ttl st) s in
    match fst er with
    | None => Ok st
    | Some e => let* st' := deser_step st e in deser_loop ip fuel st' (snd er)
    end.
  Proof. reflexivity. Qed.

  Lemma deser_loop_err f fuel st s e rest x :
    parse_entry ip (d_origin st) (d_prev_domain st) (d_prev_ttl st) s = Ok (Some e, rest) ->
    deser_step st e = Err x -> deser_loop ip (f :: fuel) st s = Err x.
  Proof. intros Hp Hs. rewrite deser_loop_unfold, Hp. cbn [bind fst snd]. rewrite Hs. reflexivity. Qed.

  Lemma deser_loop_parse_err f fuel st s x :
    parse_entry ip (d_origin st) (d_prev_domain st) (d_prev_ttl st) s = Err x ->
    deser_loop ip (f :: fuel) st s = Err x.
  Proof. intros Hp. rewrite deser_loop_unfold, Hp. reflexivity. Qed.

  (* a zone is returned only at the very end: every entry accepted, then the assembly *)
  Theorem no_partial_load data z :
    deserialise ip data = Ok z ->
    exists st, deser_loop ip (0 :: data) dstate_init data = Ok st /\ assemble st = Ok z.
  Proof.
    unfold deserialise. destruct (deser_loop ip (0 :: data) dstate_init data) as [st| | |]; cbn [bind]; try discriminate.
    intro H. exists st. split; [reflexivity|exact H].
  Qed.

  Theorem loop_error_is_final data x :
    deser_loop ip (0 :: data) dstate_init data = Err x -> deserialise ip data = Err x.
  Proof. intro H. unfold deserialise. rewrite H. reflexivity. Qed.

  (* $INCLUDE *)
  Theorem reject_include st s t0 toks rest f fuel :
    tokenise_entry s = Ok (t0 :: toks, rest) -> fst t0 = S_INCLUDE ->
    exists e, deser_loop ip (f :: fuel) st s = Err e.
  Proof.
    intros Ht H0. rewrite deser_loop_unfold. unfold parse_entry. cbn [parse_entry_loop]. rewrite Ht.
    cbn [bind fst snd is_nil idx nth_error]. rewrite H0.
    change (leqb S_INCLUDE S_ORIGIN) with false. change (leqb S_INCLUDE S_INCLUDE) with true. cbn iota.
    pose proof (parse_include_good (d_origin st) (t0 :: toks)) as Hs.
    destruct (parse_include (d_origin st) (t0 :: toks)) as [e|x| |]; cbn [bind good] in *; try contradiction.
    - destruct e; try contradiction. cbn [fst bind deser_step]. eauto.
    - eauto.
  Qed.

  (* a class other than IN, owner explicit: <owner> <x> <y> <type> <rdata> with neither x nor y = IN *)
  Theorem reject_class_5 origin pd pt o x y ty rd td :
    try_parse_rtype_with_data ip origin (ty :: rd) = Ok (Some td) ->
    leqb (fst x) S_IN = false -> leqb (fst y) S_IN = false ->
    exists e, parse_rr ip origin pd pt (o :: x :: y :: ty :: rd) = Err e.
  Proof.
    intros Htd Hx Hy. unfold parse_rr. cbn [is_nil].
    unfold try_from at 1. cbn [len_ge slice_from skipn bind]. rewrite Htd. cbn [bind].
    unfold parse_rr_4. cbn [idx nth_error bind]. rewrite Hx, Hy.
    pose proof (pdw_total origin (fst o)) as Ht.
    destruct (parse_domain_or_wildcard origin (fst o)); cbn [bind total] in *; try contradiction; eauto.
  Qed.

  (* <owner> <class> <type> <rdata>: the class is taken for a TTL and is no number *)
  Theorem reject_class_4 origin pd pt o c ty rd td :
    try_parse_rtype_with_data ip origin (ty :: rd) = Ok (Some td) ->
    try_from ip origin (o :: c :: ty :: rd) 3 = Ok None ->
    leqb (fst c) S_IN = false -> leqb (fst o) S_IN = false -> uint_from_str U32_MAX (fst c) = None ->
    exists e, parse_rr ip origin pd pt (o :: c :: ty :: rd) = Err e.
  Proof.
    intros Htd H3 Hc Ho Hn. unfold parse_rr. cbn [is_nil]. rewrite H3. cbn [bind].
    unfold try_from at 1. cbn [len_ge slice_from skipn bind]. rewrite Htd. cbn [bind].
    unfold parse_rr_3. cbn [idx nth_error bind]. rewrite Hc, Ho.
    pose proof (pdw_total origin (fst o)) as Ht.
    destruct (parse_domain_or_wildcard origin (fst o)); cbn [bind total] in *; try contradiction; [|eauto].
    unfold parse_u32. rewrite Hn. cbn [of_opt bind]. eauto.
  Qed.

  (* a second SOA *)
  Theorem reject_second_soa st r m rn a b c d e x :
    rr_data r = RD_SOA m rn a b c d e -> d_apex_soa st = Some x ->
    deser_step st (ERR r) = Err MultipleSOA.
  Proof. intros Hd Hs. cbn [deser_step]. rewrite Hd, Hs. reflexivity. Qed.

  (* a wildcard SOA: what to_rr builds from a wildcard owner and a SOA is refused by the step *)
  Theorem reject_wildcard_soa st n d ttl :
    match to_rr (MWildcard n) (RT_SOA, d) ttl with
    | EWildcardRR r => deser_step st (EWildcardRR r) = Err WildcardSOA
    | _ => False
    end.
  Proof. cbn [to_rr fst snd]. destruct d; cbn [deser_step rr_type]; reflexivity. Qed.

  (* a relative name, @ or * when no origin has been set *)
  Theorem reject_relative_without_origin s c :
    forallb is_ascii s = true -> last_opt s = Some c -> (c <> 46 \/ s = S_AT) ->
    parse_domain None s = Err ExpectedOrigin.
  Proof.
    intros Ha Hl Hc. unfold parse_domain.
    destruct s as [|x t]; [discriminate|]. cbn [is_nil]. rewrite Ha. cbn [negb].
    destruct (leqb (x :: t) S_AT) eqn:E; [reflexivity|].
    unfold last_char. rewrite Hl. cbn [bind].
    destruct Hc as [Hc|Hc]; [|rewrite Hc in E; discriminate].
    apply N.eqb_neq in Hc. rewrite Hc. reflexivity.
  Qed.

  Theorem reject_star_without_origin : parse_domain_or_wildcard None S_STAR = Err ExpectedOrigin.
  Proof. reflexivity. Qed.

  (* no TTL to inherit: every shape without a TTL field, nothing to inherit, not a SOA *)
  Theorem reject_no_ttl sh origin pd o n td :
    has_ttl sh = false -> (fst td =? RT_SOA) = false ->
    exists e, denote_rr sh origin pd None o n td = Err e.
  Proof.
    intros Ht Hs. unfold denote_rr. rewrite Ht.
    assert (Hw : forall w, with_prev_ttl None w td = Err MissingTTL) by (intro w; unfold with_prev_ttl; rewrite Hs; reflexivity).
    destruct (has_owner sh).
    - pose proof (pdw_total origin (fst o)) as Hp.
      destruct (parse_domain_or_wildcard origin (fst o)); cbn [bind total] in *; try contradiction; [|eauto].
      rewrite Hw. eauto.
    - destruct pd; [rewrite Hw|]; eauto.
  Qed.

  (* an owner outside the apex *)
  Lemma insert_all_outside w : forall rrs z r,
    zone_ok z -> Forall (fun r => wf_name (rr_name r)) rrs ->
    In r rrs -> is_subdomain_of (rr_name r) (z_apex z) = false ->
    exists e, insert_all w rrs z = Err e.
  Proof.
    induction rrs as [|r0 t IH]; intros z r Hz Hwf Hin Hout; [contradiction|].
    apply Forall_cons_iff in Hwf as [Hr0 Ht]. cbn [insert_all].
    destruct (is_subdomain_of (rr_name r0) (z_apex z)) eqn:Es; cbn [negb]; [|eauto].
    destruct (zone_insert_ok w z (rr_name r0) (rr_type r0) (rr_data r0) (rr_ttl r0) Hz Hr0) as (z' & Hz' & Hok & Ha & _).
    rewrite Hz'. cbn [lift_unit bind].
    destruct Hin as [->|Hin]; [congruence|].
    apply (IH z' r Hok Ht Hin). rewrite Ha. exact Hout.
  Qed.

  Definition state_apex (st : dstate) : dname :=
    match d_apex_soa st with Some (a, _) => a | None => root_domain end.

  Theorem reject_outside_apex st r :
    dstate_wf st -> In r (d_rrs st) \/ In r (d_wrrs st) ->
    is_subdomain_of (rr_name r) (state_apex st) = false ->
    exists e, assemble st = Err e.
  Proof.
    intros (H1 & H2 & H3 & _ & _) Hin Hout. unfold assemble.
    set (z0 := match d_apex_soa st with Some (apex, s) => zone_new apex (Some s) | None => zone_new root_domain None end).
    assert (Hz0 : zone_ok z0 /\ z_apex z0 = state_apex st).
    { unfold z0, state_apex. destruct (d_apex_soa st) as [[a s]|]; (split; [apply zone_new_ok; [exact H3 || apply root_wf]|reflexivity]). }
    destruct Hz0 as [Hz0 Ha0].
    assert (Hr1 : Forall (fun r => wf_name (rr_name r)) (rev' (d_rrs st))) by (apply Forall_rev'; exact H1).
    assert (Hr2 : Forall (fun r => wf_name (rr_name r)) (rev' (d_wrrs st))) by (apply Forall_rev'; exact H2).
    destruct Hin as [Hin|Hin].
    - destruct (insert_all_outside false (rev' (d_rrs st)) z0 r Hz0 Hr1) as [e He].
      + unfold rev'. rewrite <- rev_alt. apply in_rev in Hin. exact Hin.
      + rewrite Ha0. exact Hout.
      + rewrite He. cbn [bind]. eauto.
    - pose proof (insert_all_good false (rev' (d_rrs st)) z0 Hr1 Hz0) as Hg.
      destruct (insert_all false (rev' (d_rrs st)) z0) as [z1|e| |]; cbn [good bind] in *; try contradiction; [|eauto].
      destruct Hg as (Hz1 & _ & Ha1).
      destruct (insert_all_outside true (rev' (d_wrrs st)) z1 r Hz1 Hr2) as [e He].
      + unfold rev'. rewrite <- rev_alt. apply in_rev in Hin. exact Hin.
      + rewrite Ha1, Ha0. exact Hout.
      + eauto.
  Qed.
End Reject.

(* the listing of one side: all_records / all_wildcard_records (per node: ZoneEnum.rmap_entry of ZoneProofs.nside) *)
Definition all_of (w : bool) (nd : node) : list (dname * list zrec) :=
  if w then node_all_wildcard_records nd else node_all_records nd.

Lemma all_of_unfold w nsd a b cs :
  all_of w (Node nsd a b cs) = rmap_entry nsd (nside w (Node nsd a b cs)) ++ flat_map (fun kc => all_of w (snd kc)) cs.
Proof. destruct w; [apply node_all_wildcard_records_unfold|apply node_all_records_unfold]. Qed.

(* every record held anywhere in the tree has a TTL of at least m *)
Definition rmap_min (m : N) (rm : rmap) : Prop :=
  Forall (fun kv => Forall (fun z => m <= zr_ttl z) (snd kv)) rm.

Inductive node_min (m : N) : node -> Prop :=
| NodeMin nsd this wild cs :
    (forall w, rmap_min m (nside w (Node nsd this wild cs))) -> Forall (fun kc => node_min m (snd kc)) cs ->
    node_min m (Node nsd this wild cs).

Lemma rmap_insert_min m rm new : rmap_min m rm -> m <= zr_ttl new -> rmap_min m (rmap_insert rm new).
Proof.
  intros H Hn. unfold rmap_insert.
  destruct (alookup N.eqb (zr_type new) rm) as [entries|] eqn:El.
  - destruct (existsb (zrec_eqb new) entries); [exact H|].
    apply (areplace_forall N.eqb N.eqb_eq); [exact H|]. cbn [snd].
    apply (alookup_in N.eqb N.eqb_eq) in El. unfold rmap_min in H. rewrite Forall_forall in H. specialize (H _ El). cbn [snd] in H.
    apply Forall_app. split; [exact H|constructor; [exact Hn|constructor]].
  - apply Forall_app. split; [exact H|]. constructor; [|constructor]. cbn [snd]. constructor; [exact Hn|constructor].
Qed.

Lemma node_insert_min m : forall rp nd w new nd',
  node_min m nd -> m <= zr_ttl new -> node_insert w rp new nd = Ok nd' -> node_min m nd'.
Proof.
  induction rp as [|l rest IH]; intros nd w new nd' Hm Hn H; destruct Hm as [nsd this wild cs Hs Hc];
    cbn [node_insert n_nsdname n_this n_wild n_children] in H.
  - destruct w; inversion H; subst; clear H; (constructor; [|exact Hc]); intros [|]; cbn [nside wmap n_wild n_this];
      try apply rmap_insert_min; try exact Hn; try exact (Hs true); try exact (Hs false).
  - assert (Hch : forall c c', node_min m c -> node_insert w rest new c = Ok c' -> node_min m c')
      by (intros c c' Hc0 Ec; exact (IH c w new c' Hc0 Hn Ec)).
    destruct (alookup leqb l cs) as [child|] eqn:El.
    + destruct (node_insert w rest new child) as [c'| | |] eqn:Ec; cbn [bind] in H; try discriminate.
      inversion H; subst; clear H. constructor; [exact Hs|].
      apply (alookup_in leqb leqb_eq) in El. apply (areplace_forall leqb leqb_eq); [exact Hc|]. cbn [snd].
      rewrite Forall_forall in Hc. exact (Hch _ _ (Hc _ El) Ec).
    + destruct (from_labels (l :: labels nsd)) as [nsd'|]; [|discriminate].
      destruct (node_insert w rest new (node_new nsd')) as [c'| | |] eqn:Ec; cbn [bind] in H; try discriminate.
      inversion H; subst; clear H. constructor; [exact Hs|].
      apply Forall_app. split; [exact Hc|]. constructor; [|constructor]. cbn [snd].
      apply (Hch (node_new nsd') c'); [|exact Ec]. constructor; [intros [|]; constructor|constructor].
Qed.

Lemma node_min_all m w : forall nd, node_min m nd ->
  forall n zrs zr, In (n, zrs) (all_of w nd) -> In zr zrs -> m <= zr_ttl zr.
Proof.
  induction nd as [nsd this wild cs IH] using node_ind_nested. intros Hm n zrs zr Hin Hz.
  inversion Hm as [? ? ? ? Hs Hc]; subst. rewrite all_of_unfold in Hin. apply in_app_or in Hin as [Hin|Hin].
  - unfold rmap_entry in Hin. destruct (is_nil _); [contradiction|]. destruct Hin as [Hin|[]]. inversion Hin; subst.
    apply in_flat_map in Hz as (kv & Hkv & Hzr). specialize (Hs w). unfold rmap_min in Hs. rewrite Forall_forall in Hs.
    specialize (Hs _ Hkv). rewrite Forall_forall in Hs. exact (Hs _ Hzr).
  - apply in_flat_map in Hin as (kc & Hkc & Hx).
    rewrite Forall_forall in IH, Hc. exact (IH _ Hkc (Hc _ Hkc) n zrs zr Hx Hz).
Qed.

Section SoaTtl.
  Variable ip : ipcodec.

  Definition zone_min (z : zone) : Prop :=
    match z_soa z with Some s => node_min (soa_minimum s) (z_records z) | None => True end.

  Lemma zone_new_min apex s : zone_min (zone_new apex s).
  Proof.
    unfold zone_min, zone_new. destruct s as [s|]; cbn [z_soa z_records]; [|exact I].
    constructor; [|constructor]. intros [|]; cbn [nside wmap n_wild n_this]; [constructor|].
    apply rmap_insert_min; [constructor|]. cbn [zr_ttl]. lia.
  Qed.

  Lemma zone_insert_min w z name ty d ttl z' :
    zone_min z -> zone_insert w z name ty d ttl = Ok z' -> zone_min z' /\ z_soa z' = z_soa z.
  Proof.
    intros Hm H. unfold zone_insert in H. destruct (relative_rp z name) as [rp|]; [|inversion H; subst; auto].
    destruct (node_insert w rp {| zr_type := ty; zr_data := d; zr_ttl := actual_ttl z ttl |} (z_records z)) as [nd| | |] eqn:En;
      cbn [bind] in H; try discriminate.
    inversion H; subst; clear H. unfold zone_min in *. cbn [z_soa z_records]. split; [|reflexivity].
    destruct (z_soa z) as [s|] eqn:Es; [|exact I].
    eapply node_insert_min; [exact Hm| |exact En]. cbn [zr_ttl]. unfold actual_ttl. rewrite Es. lia.
  Qed.

  Lemma insert_all_min w : forall rrs z z',
    zone_min z -> insert_all w rrs z = Ok z' -> zone_min z' /\ z_soa z' = z_soa z.
  Proof.
    induction rrs as [|r t IH]; intros z z' Hm H; cbn [insert_all] in H; [inversion H; subst; auto|].
    destruct (is_subdomain_of (rr_name r) (z_apex z)); cbn [negb] in H; [|discriminate].
    destruct (zone_insert w z (rr_name r) (rr_type r) (rr_data r) (rr_ttl r)) as [z1| | |] eqn:Ez;
      cbn [lift_unit bind] in H; try discriminate.
    destruct (zone_insert_min _ _ _ _ _ _ _ Hm Ez) as [Hm1 Hs1].
    destruct (IH z1 z' Hm1 H) as [Hm' Hs']. split; [exact Hm'|congruence].
  Qed.

  (* a SOA makes the zone authoritative with every TTL raised to the SOA minimum: every record
     of the zone the parser returns -- normal and wildcard, the SOA RR itself included -- has a
     TTL not below the MINIMUM field *)
  Theorem soa_raises_ttls data z s :
    deserialise ip data = Ok z -> z_soa z = Some s ->
    forall n zrs zr,
      In (n, zrs) (zone_all_records z) \/ In (n, zrs) (zone_all_wildcard_records z) ->
      In zr zrs -> soa_minimum s <= zr_ttl zr.
  Proof.
    intros Hd Hs n zrs zr Hin Hz.
    destruct (no_partial_load ip data z Hd) as (st & _ & Ha). unfold assemble in Ha.
    set (z0 := match d_apex_soa st with Some (apex, s) => zone_new apex (Some s) | None => zone_new root_domain None end) in Ha.
    assert (Hz0 : zone_min z0) by (unfold z0; destruct (d_apex_soa st) as [[a s0]|]; apply zone_new_min).
    destruct (insert_all false (rev' (d_rrs st)) z0) as [z1| | |] eqn:E1; cbn [bind] in Ha; try discriminate.
    destruct (insert_all_min _ _ _ _ Hz0 E1) as [Hm1 _].
    destruct (insert_all_min _ _ _ _ Hm1 Ha) as [Hm _].
    unfold zone_min in Hm. rewrite Hs in Hm.
    destruct Hin as [Hin|Hin]; [exact (node_min_all _ false _ Hm n zrs zr Hin Hz)|exact (node_min_all _ true _ Hm n zrs zr Hin Hz)].
  Qed.
End SoaTtl.
