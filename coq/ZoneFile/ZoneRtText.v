(* ZoneFile/ZoneRtText.v -- C13, "normalising twice changes nothing more", literally: for the
   MODEL's own record order (names sorted by the derived Ord; under a name the type groups in the
   insertion order of the association list standing for the HashMap; inside a group Vec order),
   the zone z' read back from the text of z serialises to the very same text.

   The piece ZoneRoundTrip.v lacks is the ORDER of the type groups of z': the abstraction
   relation R speaks about each type group separately.  Here:

     1. the derived Ord of DomainName is a total order, so the sorted list of a set of names
        does not depend on the order the names were met in (sort_names_unique);
     2. node_insert_keys: the key order of the type map at a node after an insertion --
        HashMap::entry(type).or_default() appends a new key, keeps an old one (structural, on
        the tree; independent of R);
     3. keys_build: hence, for a zone built by a list of insertions, the key order at a node is
        the order of first occurrence of the types among the insertions reaching that node;
     4. for z' = the zone built from the records of the text of z (ZoneRtLoop.text_ops), those
        insertions are the records of the node of z, in the order z's map lists them: the
        non-empty type groups of z' come in the order of z's (same_flat);
     5. the serialiser reads the record lists only through the sorted name set and the
        per-name look-ups (serialise_with_lookups), whence the text.  *)
From Coq Require Import Permutation Sorted.
From RV Require Import Base.Prelude Name.NameModel Name.NameSpec Name.NameProofs Wire.WireTypes
     Zone.ZoneModel Zone.ZoneFlat Zone.ZoneProofs Zone.ZoneMergeProofs
     ZoneFile.ZoneFileModel ZoneFile.ZoneFileSpec ZoneFile.ZoneSerialiseModel ZoneFile.ZfInstance
     ZoneFile.ZoneFileProofs ZoneFile.ZoneSerialiseProofs ZoneFile.ZoneRtLines ZoneFile.ZoneRtLoop
     ZoneFile.ZoneRoundTrip ZoneFile.ZoneRtOrder ZoneFile.ZoneRtLoaded ZoneFile.ZoneRtCodec
     ZoneFile.ZoneRtFinal.

(* the derived Ord of DomainName is a total order *)

Section ListCmp.
  Context {A : Type} (cmp : A -> A -> comparison).
  Hypothesis cmp_eq : forall x y, cmp x y = Eq -> x = y.
  Hypothesis cmp_refl : forall x, cmp x x = Eq.
  Hypothesis cmp_opp : forall x y, cmp y x = CompOpp (cmp x y).
  Hypothesis cmp_trans : forall x y z, cmp x y = Lt -> cmp y z = Lt -> cmp x z = Lt.

  Lemma list_cmp_eq : forall a b, list_cmp cmp a b = Eq -> a = b.
  Proof.
    induction a as [|x a IH]; intros [|y b] H; cbn [list_cmp] in H; try discriminate; [reflexivity|].
    destruct (cmp x y) eqn:E; try discriminate. apply cmp_eq in E. subst y. f_equal. apply IH, H.
  Qed.

  Lemma list_cmp_refl : forall a, list_cmp cmp a a = Eq.
  Proof. induction a as [|x a IH]; cbn [list_cmp]; [reflexivity|]. rewrite cmp_refl. exact IH. Qed.

  Lemma list_cmp_opp : forall a b, list_cmp cmp b a = CompOpp (list_cmp cmp a b).
  Proof.
    induction a as [|x a IH]; intros [|y b]; cbn [list_cmp]; try reflexivity.
    rewrite (cmp_opp x y). destruct (cmp x y); cbn [CompOpp]; [apply IH|reflexivity|reflexivity].
  Qed.

  Lemma list_cmp_trans : forall a b c,
    list_cmp cmp a b = Lt -> list_cmp cmp b c = Lt -> list_cmp cmp a c = Lt.
  Proof.
    induction a as [|x a IH]; intros [|y b] [|z c] H1 H2; cbn [list_cmp] in *; try discriminate; try reflexivity.
    destruct (cmp x y) eqn:E1; try discriminate.
    - apply cmp_eq in E1. subst y. destruct (cmp x z); try discriminate; [|reflexivity]. eapply IH; eassumption.
    - destruct (cmp y z) eqn:E2; try discriminate.
      + apply cmp_eq in E2. subst z. rewrite E1. reflexivity.
      + rewrite (cmp_trans _ _ _ E1 E2). reflexivity.
  Qed.
End ListCmp.

Lemma ncmp_trans x y z : N.compare x y = Lt -> N.compare y z = Lt -> N.compare x z = Lt.
Proof. rewrite !N.compare_lt_iff. lia. Qed.

Lemma label_cmp_eq a b : label_cmp a b = Eq -> a = b.
Proof. apply list_cmp_eq. apply N.compare_eq. Qed.
Lemma label_cmp_refl a : label_cmp a a = Eq.
Proof. apply list_cmp_refl. apply N.compare_refl. Qed.
Lemma label_cmp_opp a b : label_cmp b a = CompOpp (label_cmp a b).
Proof. apply list_cmp_opp. intros x y. apply N.compare_antisym. Qed.
Lemma label_cmp_trans a b c : label_cmp a b = Lt -> label_cmp b c = Lt -> label_cmp a c = Lt.
Proof. apply list_cmp_trans; [apply N.compare_eq|apply ncmp_trans]. Qed.

Lemma dname_cmp_eq a b : dname_cmp a b = Eq -> a = b.
Proof.
  unfold dname_cmp. destruct (list_cmp label_cmp (labels a) (labels b)) eqn:E; try discriminate.
  intro H. apply (list_cmp_eq label_cmp label_cmp_eq) in E. apply N.compare_eq in H.
  destruct a, b. cbn in *. subst. reflexivity.
Qed.

Lemma dname_cmp_refl a : dname_cmp a a = Eq.
Proof. unfold dname_cmp. rewrite (list_cmp_refl label_cmp label_cmp_refl). apply N.compare_refl. Qed.

Lemma dname_cmp_opp a b : dname_cmp b a = CompOpp (dname_cmp a b).
Proof.
  unfold dname_cmp. rewrite (list_cmp_opp label_cmp label_cmp_opp (labels a) (labels b)).
  destruct (list_cmp label_cmp (labels a) (labels b)); cbn [CompOpp]; try reflexivity. apply N.compare_antisym.
Qed.

Lemma dname_cmp_trans a b c : dname_cmp a b = Lt -> dname_cmp b c = Lt -> dname_cmp a c = Lt.
Proof.
  unfold dname_cmp. intros H1 H2.
  destruct (list_cmp label_cmp (labels a) (labels b)) eqn:E1; try discriminate;
    destruct (list_cmp label_cmp (labels b) (labels c)) eqn:E2; try discriminate.
  - apply (list_cmp_eq label_cmp label_cmp_eq) in E1. rewrite E1, E2. eapply ncmp_trans; eassumption.
  - apply (list_cmp_eq label_cmp label_cmp_eq) in E1. rewrite E1, E2. reflexivity.
  - apply (list_cmp_eq label_cmp label_cmp_eq) in E2. rewrite <- E2, E1. reflexivity.
  - rewrite (list_cmp_trans label_cmp label_cmp_eq label_cmp_trans _ _ _ E1 E2). reflexivity.
Qed.

Lemma dname_leb_total a b : dname_leb a b = false -> dname_leb b a = true.
Proof. unfold dname_leb. rewrite (dname_cmp_opp a b). destruct (dname_cmp a b); cbn [CompOpp]; congruence. Qed.

Lemma dname_leb_refl a : dname_leb a a = true.
Proof. unfold dname_leb. rewrite dname_cmp_refl. reflexivity. Qed.

Lemma dname_leb_antisym a b : dname_leb a b = true -> dname_leb b a = true -> a = b.
Proof.
  unfold dname_leb. rewrite (dname_cmp_opp a b). destruct (dname_cmp a b) eqn:E; cbn [CompOpp]; try discriminate.
  intros _ _. apply dname_cmp_eq, E.
Qed.

Lemma dname_leb_trans a b c : dname_leb a b = true -> dname_leb b c = true -> dname_leb a c = true.
Proof.
  unfold dname_leb. destruct (dname_cmp a b) eqn:E1; try discriminate; destruct (dname_cmp b c) eqn:E2; try discriminate; intros _ _.
  - apply dname_cmp_eq in E1. subst b. rewrite E2. reflexivity.
  - apply dname_cmp_eq in E1. subst b. rewrite E2. reflexivity.
  - apply dname_cmp_eq in E2. subst c. rewrite E1. reflexivity.
  - rewrite (dname_cmp_trans _ _ _ E1 E2). reflexivity.
Qed.

Definition dle (a b : dname) : Prop := dname_leb a b = true.

Lemma sort_names_sorted l : StronglySorted dle (sort_names l).
Proof. exact (isort_sorted dname_leb dname_leb_total dname_leb_trans l). Qed.

(* the sorted list of a duplicate-free list of names depends on the set only *)
Theorem sort_names_unique l1 l2 : NoDup l1 -> NoDup l2 -> (forall x, In x l1 <-> In x l2) ->
  sort_names l1 = sort_names l2.
Proof.
  intros N1 N2 H. apply (sorted_perm_unique dname_leb dname_leb_antisym); try apply sort_names_sorted.
  eapply Permutation_trans; [apply sort_names_perm|]. eapply Permutation_trans; [|apply Permutation_sym, sort_names_perm].
  apply NoDup_Permutation; assumption.
Qed.

Lemma zone_ds_ext recs wrecs recs' wrecs' :
  (forall x, In x (map fst recs ++ map fst wrecs) <-> In x (map fst recs' ++ map fst wrecs')) ->
  zone_ds recs wrecs = zone_ds recs' wrecs'.
Proof.
  intro H. unfold zone_ds.
  destruct (dedup_names_spec (map fst recs ++ map fst wrecs) [] (NoDup_nil _)) as [N1 M1].
  destruct (dedup_names_spec (map fst recs' ++ map fst wrecs') [] (NoDup_nil _)) as [N2 M2].
  apply sort_names_unique; [exact N1|exact N2|]. intro x. rewrite M1, M2, H. reflexivity.
Qed.

(* the key order of a type map under insertion *)

(* HashMap::entry(t).or_default() on the association list: a new key goes last *)
Definition push_key (l : list N) (t : N) : list N := if existsb (N.eqb t) l then l else l ++ [t].

Lemma existsb_key_lookup {V} t (m : list (N * V)) :
  existsb (N.eqb t) (map fst m) = match alookup N.eqb t m with Some _ => true | None => false end.
Proof.
  induction m as [|[k v] m IH]; cbn [map fst existsb alookup]; [reflexivity|].
  destruct (t =? k); [reflexivity|exact IH].
Qed.

Lemma rmap_insert_keys m r : map fst (rmap_insert m r) = push_key (map fst m) (zr_type r).
Proof.
  unfold rmap_insert, push_key. rewrite existsb_key_lookup.
  destruct (alookup N.eqb (zr_type r) m) as [entries|].
  - destruct (existsb (zrec_eqb r) entries); [reflexivity|apply areplace_keys].
  - rewrite map_app. reflexivity.
Qed.

(* the keys of the ordinary / wildcard type map of the node at a (reversed) path *)
Definition keys_at (w : bool) (rq : list label) (nd : node) : list N :=
  match node_at rq nd with Some n => map fst (nside w n) | None => [] end.

Lemma keys_at_cons w l rq nd :
  keys_at w (l :: rq) nd = match alookup leqb l (n_children nd) with Some c => keys_at w rq c | None => [] end.
Proof. unfold keys_at. cbn [node_at]. destruct (alookup leqb l (n_children nd)); reflexivity. Qed.

Lemma keys_at_new w rq nsd : keys_at w rq (node_new nsd) = [].
Proof. destruct rq; [destruct w; reflexivity|rewrite keys_at_cons; reflexivity]. Qed.

Lemma node_insert_keys w r : forall rp nd nd', node_insert w rp r nd = Ok nd' ->
  forall w' rq, keys_at w' rq nd'
                = if Bool.eqb w w' && lleqb rp rq then push_key (keys_at w' rq nd) (zr_type r) else keys_at w' rq nd.
Proof.
  induction rp as [|l rest IH]; intros [nsd this wild ch] nd' H w' rq; cbn [node_insert n_nsdname n_this n_wild n_children] in H.
  - destruct rq as [|l' rq'].
    + unfold keys_at. cbn [node_at lleqb]. rewrite andb_true_r.
      destruct w; inversion H; subst; destruct w'; cbn [Bool.eqb nside wmap n_wild n_this]; try reflexivity; apply rmap_insert_keys.
    + cbn [lleqb]. rewrite andb_false_r. rewrite !keys_at_cons.
      destruct w; inversion H; subst; reflexivity.
  - destruct (alookup leqb l ch) as [child|] eqn:El.
    + destruct (node_insert w rest r child) as [child'| | |] eqn:Ec; cbn [bind] in H; try discriminate.
      inversion H; subst; clear H. destruct rq as [|l' rq'].
      * cbn [lleqb]. rewrite andb_false_r. destruct w'; reflexivity.
      * cbn [lleqb]. rewrite !keys_at_cons. cbn [n_children].
        destruct (leqb l l') eqn:E.
        -- apply leqb_eq in E. subst l'. rewrite (alookup_areplace_same leqb _ _ _ _ El), El.
           cbn [andb]. apply (IH _ _ Ec).
        -- cbn [andb]. rewrite andb_false_r.
           rewrite (alookup_areplace_other leqb leqb_eq); [reflexivity|].
           intros ->. rewrite leqb_refl in E. discriminate.
    + destruct (from_labels (l :: labels nsd)) as [nsd'|]; [|discriminate].
      destruct (node_insert w rest r (node_new nsd')) as [child'| | |] eqn:Ec; cbn [bind] in H; try discriminate.
      inversion H; subst; clear H. destruct rq as [|l' rq'].
      * cbn [lleqb]. rewrite andb_false_r. destruct w'; reflexivity.
      * cbn [lleqb]. rewrite !keys_at_cons. cbn [n_children].
        destruct (leqb l l') eqn:E.
        -- apply leqb_eq in E. subst l'. rewrite (alookup_app_new leqb leqb_eq _ _ _ El), El.
           cbn [andb]. rewrite (IH _ _ Ec), keys_at_new. reflexivity.
        -- cbn [andb]. rewrite andb_false_r.
           rewrite (alookup_app_other leqb leqb_eq); [reflexivity|].
           intros ->. rewrite leqb_refl in E. discriminate.
Qed.

(* zones built by a list of insertions *)

Definition keysZ (w : bool) (q : path) (z : zone) : list N := keys_at w (rev q) (z_records z).

Lemma lleqb_rev p q : lleqb (rev p) (rev q) = lleqb p q.
Proof.
  destruct (lleqb p q) eqn:E.
  - apply lleqb_eq in E. subst. apply lleqb_refl.
  - apply lleqb_false. intro F. apply (f_equal (@rev _)) in F. rewrite !rev_involutive in F. subst.
    rewrite lleqb_refl in E. discriminate.
Qed.

Lemma zone_apply_keys z o z' : zone_apply z o = Ok z' -> forall w q,
  keysZ w q z' = if hitsn (labels (z_apex z)) w q o then push_key (keysZ w q z) (op_type o) else keysZ w q z.
Proof.
  unfold zone_apply, zone_insert, hitsn. rewrite relative_rp_rel.
  destruct (rel_path (labels (z_apex z)) (op_name o)) as [p|]; cbn [option_map].
  - destruct (node_insert _ (rev p) _ (z_records z)) as [nd| | |] eqn:En; cbn [bind]; try discriminate.
    intros H w q. inversion H; subst; clear H. unfold keysZ. cbn [z_records].
    rewrite (node_insert_keys _ _ _ _ _ En), lleqb_rev. reflexivity.
  - intros H w q. inversion H; subst. rewrite andb_false_r. reflexivity.
Qed.

Lemma keys_build w q : forall ops z z', zone_apply_all z ops = Ok z' ->
  keysZ w q z' = fold_left push_key (map op_type (filter (hitsn (labels (z_apex z)) w q) ops)) (keysZ w q z).
Proof.
  induction ops as [|o ops IH]; intros z z' H; cbn [zone_apply_all] in H; [inversion H; reflexivity|].
  destruct (zone_apply z o) as [z1| | |] eqn:E; cbn [bind] in H; try discriminate.
  rewrite (IH _ _ H). assert (Ha : z_apex z1 = z_apex z) by (unfold zone_apply in E; eapply zone_insert_apex; exact E).
  rewrite Ha, (zone_apply_keys _ _ _ E). cbn [filter].
  destruct (hitsn (labels (z_apex z)) w q o); reflexivity.
Qed.

Definition init_keys (s : option soa) (w : bool) (q : path) : list N :=
  match s, w, q with Some _, false, [] => [RT_SOA] | _, _, _ => [] end.

Lemma keys_new apex s w q : keysZ w q (zone_new apex s) = init_keys s w q.
Proof.
  unfold keysZ. destruct q as [|l q].
  - destruct s, w; reflexivity.
  - assert (E : init_keys s w (l :: q) = []) by (destruct s, w; reflexivity). rewrite E.
    cbn [rev]. destruct (rev q ++ [l]) as [|x r] eqn:Er; [destruct (rev q); discriminate|].
    rewrite keys_at_cons. destruct s; reflexivity.
Qed.

(* type maps with the same groups, the second one's keys in the order in which the first one's records list the types *)

Definition ns_key (t : N) : bool := negb (t =? RT_SOA).
Definition keep_ns (kv : N * list zrec) : bool := ns_key (fst kv).
Definition keep (kv : N * list zrec) : bool := ns_key (fst kv) && negb (is_nil (snd kv)).

Lemma existsb_eqb_In t l : existsb (N.eqb t) l = true <-> In t l.
Proof.
  rewrite existsb_exists. split.
  - intros (x & Hx & E). apply N.eqb_eq in E. subst. exact Hx.
  - intro H. exists t. split; [exact H|apply N.eqb_refl].
Qed.

Lemma existsb_eqb_notin t l : ~ In t l -> existsb (N.eqb t) l = false.
Proof. intro H. destruct (existsb (N.eqb t) l) eqn:E; [|reflexivity]. apply existsb_eqb_In in E. contradiction. Qed.

Lemma rget_in m kv : NoDup (map fst m) -> In kv m -> rget (fst kv) m = snd kv.
Proof.
  induction m as [|[k l] m IH]; intros Hnd Hin; [destruct Hin|]. cbn [map fst] in Hnd. inversion Hnd as [|? ? Hnot Hnd']; subst.
  unfold rget. cbn [alookup]. destruct Hin as [<-|Hin].
  - cbn [fst snd]. rewrite N.eqb_refl. reflexivity.
  - destruct (N.eqb_spec (fst kv) k) as [E|Hne].
    + exfalso. apply Hnot. rewrite <- E. apply in_map. exact Hin.
    + apply (IH Hnd' Hin).
Qed.

Lemma flat_rget_sub m L : NoDup (map fst m) -> (forall kv, In kv L -> In kv m) ->
  flat_map (fun t => rget t m) (map fst L) = flat_map snd L.
Proof.
  intros Hnd. induction L as [|kv L IH]; intro H; cbn [map flat_map]; [reflexivity|].
  rewrite (rget_in m kv Hnd (H kv (or_introl eq_refl))), IH; [reflexivity|]. intros x Hx. apply H. right. exact Hx.
Qed.

Lemma map_fst_filter (f : N -> bool) (m : rmap) : map fst (filter (fun kv => f (fst kv)) m) = filter f (map fst m).
Proof.
  induction m as [|kv m IH]; cbn [filter map]; [reflexivity|]. destruct (f (fst kv)); cbn [map]; rewrite IH; reflexivity.
Qed.

Lemma nonsoa_flat m : wf_rmap m -> filter nonsoa (flat_map snd m) = flat_map snd (filter keep_ns m).
Proof.
  intros [_ Hall]. induction m as [|[k l] m IH]; [reflexivity|]. apply Forall_cons_iff in Hall as [[Hl _] Hall].
  cbn [flat_map snd filter]. rewrite filter_app, (IH Hall). cbn [fst snd] in Hl. rewrite (filter_nonsoa_typed k l Hl).
  unfold keep_ns, ns_key. cbn [fst]. destruct (k =? RT_SOA); cbn [negb flat_map snd]; reflexivity.
Qed.

Lemma keep_flat m : flat_map snd (filter keep m) = flat_map snd (filter keep_ns m).
Proof.
  unfold keep, keep_ns. induction m as [|[k l] m IH]; [reflexivity|]. cbn [filter fst snd].
  destruct (ns_key k); cbn [andb]; [|exact IH].
  destruct l as [|r l]; cbn [is_nil negb flat_map snd]; [exact IH|]. rewrite IH. reflexivity.
Qed.

Lemma fold_push_present k : forall L acc, Forall (fun r => zr_type r = k) L -> In k acc ->
  fold_left push_key (map zr_type L) acc = acc.
Proof.
  induction L as [|r L IH]; intros acc H Hin; cbn [map fold_left]; [reflexivity|].
  apply Forall_cons_iff in H as [Hr HL]. unfold push_key at 2. rewrite Hr, (proj2 (existsb_eqb_In k acc) Hin). apply IH; assumption.
Qed.

Lemma fold_push_same k L acc : Forall (fun r => zr_type r = k) L -> ~ In k acc ->
  fold_left push_key (map zr_type L) acc = if is_nil L then acc else acc ++ [k].
Proof.
  intros H Hn. destruct L as [|r L]; [reflexivity|]. cbn [map fold_left is_nil].
  apply Forall_cons_iff in H as [Hr HL]. unfold push_key at 2. rewrite Hr, (existsb_eqb_notin k acc Hn).
  apply (fold_push_present k); [exact HL|]. apply in_or_app. right. left. reflexivity.
Qed.

Lemma fold_push_types : forall m, wf_rmap m -> forall acc, (forall t, In t acc -> ~ In t (map fst m)) ->
  fold_left push_key (map zr_type (flat_map snd (filter keep_ns m))) acc = acc ++ map fst (filter keep m).
Proof.
  unfold keep, keep_ns. induction m as [|[k l] m IH]; intros [Hk Hall] acc Hd; [symmetry; apply app_nil_r|].
  cbn [map fst] in Hk. inversion Hk as [|? ? Hnot Hk']; subst. apply Forall_cons_iff in Hall as [[Hl _] Hall]. cbn [fst snd] in Hl.
  assert (Hd' : forall t, In t acc -> ~ In t (map fst m)) by (intros t Ht F; apply (Hd t Ht); right; exact F).
  cbn [filter fst snd]. destruct (ns_key k); cbn [andb].
  2: { apply (IH (conj Hk' Hall) acc Hd'). }
  cbn [flat_map snd]. rewrite map_app, fold_left_app.
  rewrite (fold_push_same k l acc Hl). 2: { intro F. apply (Hd k F). left. reflexivity. }
  destruct l as [|r l]; cbn [is_nil negb]; [apply (IH (conj Hk' Hall) acc Hd')|].
  rewrite (IH (conj Hk' Hall)); [cbn [map fst]; rewrite <- app_assoc; reflexivity|].
  intros t Ht. apply in_app_or in Ht as [Ht|[<-|[]]]; [apply Hd', Ht|exact Hnot].
Qed.

Lemma filter_fold_push : forall L acc, ~ In RT_SOA L ->
  filter ns_key (fold_left push_key L acc) = fold_left push_key L (filter ns_key acc).
Proof.
  induction L as [|t L IH]; intros acc Hn; cbn [fold_left]; [reflexivity|].
  rewrite IH by (intro F; apply Hn; right; exact F). f_equal.
  assert (Ht : ns_key t = true).
  { unfold ns_key. apply negb_true_iff, N.eqb_neq. intro E. apply Hn. left. exact E. }
  unfold push_key.
  assert (Ex : existsb (N.eqb t) (filter ns_key acc) = existsb (N.eqb t) acc).
  { induction acc as [|x acc IHa]; [reflexivity|]. cbn [filter existsb].
    destruct (ns_key x) eqn:Ex; cbn [existsb]; rewrite IHa; [reflexivity|].
    destruct (N.eqb_spec t x) as [->|]; [congruence|reflexivity]. }
  rewrite Ex. destruct (existsb (N.eqb t) acc); [reflexivity|]. rewrite filter_app. cbn [filter]. rewrite Ht. reflexivity.
Qed.

Lemma types_nonsoa L : ~ In RT_SOA (map zr_type (filter nonsoa L)).
Proof.
  intro H. apply in_map_iff in H as (r & E & Hr). apply filter_In in Hr as [_ Hr]. unfold nonsoa in Hr.
  rewrite E, N.eqb_refl in Hr. discriminate.
Qed.

(* m' holds the groups of m; its keys other than SOA come in the order in which the records of m
   other than SOA list their types: the two maps list the same records other than SOA *)
Lemma same_flat_ns m m' : wf_rmap m -> wf_rmap m' -> (forall t, rget t m' = rget t m) ->
  filter ns_key (map fst m') = fold_left push_key (map zr_type (filter nonsoa (flat_map snd m))) [] ->
  filter nonsoa (flat_map snd m') = filter nonsoa (flat_map snd m).
Proof.
  intros Hm Hm' Hg Hk.
  rewrite (nonsoa_flat m' Hm'), <- (flat_rget_sub m' (filter keep_ns m') (proj1 Hm') (incl_filter _ _)).
  unfold keep_ns at 1. rewrite (map_fst_filter ns_key m'), Hk.
  rewrite (nonsoa_flat m Hm), (fold_push_types m Hm []) by (intros t []). cbn [app].
  rewrite (flat_map_ext _ (fun t => rget t m)) by exact Hg.
  rewrite (flat_rget_sub m (filter keep m) (proj1 Hm) (incl_filter _ _)).
  apply keep_flat.
Qed.

Lemma flat_nil_iff m : wf_rmap m -> (flat_map snd m = [] <-> forall t, rget t m = []).
Proof.
  intro Hm. split.
  - intros E t. rewrite <- (of_type_flat t m Hm), E. reflexivity.
  - intro H. destruct (flat_map snd m) as [|r l] eqn:E; [reflexivity|]. exfalso.
    assert (Hin : In r (flat_map snd m)) by (rewrite E; left; reflexivity).
    apply (In_flat_rget r m Hm) in Hin. rewrite H in Hin. destruct Hin.
Qed.

Lemma nonsoa_id L : of_type RT_SOA L = [] -> filter nonsoa L = L.
Proof.
  induction L as [|r L IH]; [reflexivity|]. unfold of_type, nonsoa in *. cbn [filter].
  destruct (zr_type r =? RT_SOA); [discriminate|]. cbn [negb]. intro H. rewrite (IH H). reflexivity.
Qed.

(* looking a name up in the model's own all_records *)

Definition flat_at (w : bool) (q : path) (nd : node) : list zrec :=
  match node_at (rev q) nd with Some n => flat_map snd (nside w n) | None => [] end.

Section OwnLookup.
  Variables (apexl : list label) (nd : node) (fz : fzone) (w : bool).
  Hypothesis HR : R apexl nd fz.
  Hypothesis Hwf : wf_tree nd.

  Lemma alookup_all_of q :
    alookup dname_eqb (mkname (q ++ apexl)) (all_of w nd)
    = if is_nil (flat_at w q nd) then None else Some (flat_at w q nd).
  Proof.
    assert (EL : all_of w nd = flat_map (node_entry apexl w) (nodes_of [] nd)) by exact (listing_entries apexl nd fz w HR Hwf).
    destruct (alookup dname_eqb (mkname (q ++ apexl)) (all_of w nd)) as [zrs|] eqn:E.
    - apply alookup_some in E. rewrite EL in E. apply in_flat_map in E as ([rq n] & Hin & He).
      unfold node_entry, rmap_entry in He. cbn [fst snd] in He.
      destruct (flat_map snd (nside w n)) as [|r0 l0] eqn:Ef; cbn [is_nil] in He; [destruct He|].
      destruct He as [He|[]]. inversion He as [[E1 E2]]. apply app_inv_tail in E1.
      destruct (nodes_of_at nd [] rq n Hwf Hin) as (rq' & Erq & Hat). cbn [app] in Erq. subst rq'.
      assert (Eq : rev q = rq) by (apply (f_equal (@rev _)) in E1; rewrite ?rev_involutive in E1; congruence).
      unfold flat_at. rewrite Eq, Hat, Ef. reflexivity.
    - unfold flat_at. destruct (node_at (rev q) nd) as [n|] eqn:Hat; [|reflexivity].
      destruct (flat_map snd (nside w n)) as [|r0 l0] eqn:Ef; [reflexivity|]. exfalso.
      apply (alookup_none _ _ (r0 :: l0) E). rewrite EL. apply in_flat_map. exists (rev q, n).
      split; [apply (nodes_of_complete (rev q) nd [] n Hat)|].
      unfold node_entry, rmap_entry. cbn [fst snd]. rewrite rev_involutive, Ef. left. reflexivity.
  Qed.

  Lemma lookup_all_of q : lookup (mkname (q ++ apexl)) (all_of w nd) = flat_at w q nd.
  Proof.
    unfold lookup. rewrite alookup_all_of. destruct (flat_at w q nd); reflexivity.
  Qed.

  Lemma all_of_key d : In d (map fst (all_of w nd)) <-> exists q, d = mkname (q ++ apexl) /\ flat_at w q nd <> [].
  Proof.
    split.
    - intro H. apply in_map_iff in H as ([d' zrs] & E & Hin). cbn [fst] in E. subst d'.
      destruct (all_records_describes apexl nd fz w HR Hwf) as [D _].
      destruct (ds_recs _ _ _ D d zrs Hin) as (p & -> & _). exists p. split; [reflexivity|].
      intro F. pose proof (alookup_all_of p) as A. rewrite F in A. cbn [is_nil] in A.
      exact (alookup_none _ _ zrs A Hin).
    - intros (q & -> & Hne). pose proof (alookup_all_of q) as A.
      destruct (flat_at w q nd) as [|r l]; [contradiction|]. cbn [is_nil] in A.
      apply alookup_some in A. apply in_map_iff. exists (mkname (q ++ apexl), r :: l). auto.
  Qed.
End OwnLookup.

(* the serialiser reads the record lists through the sorted name set and the per-name look-ups only (SOA records are skipped) *)

Section Lookups.
  Variable ip : ipcodec.

  Lemma normal_lines_nonsoa z o zrs : normal_lines ip z o (filter nonsoa zrs) = normal_lines ip z o zrs.
  Proof.
    rewrite !normal_as_wildcard. f_equal. apply filter_all, Forall_forall. intros r Hr. apply filter_In in Hr. apply Hr.
  Qed.

  Lemma normal_lines_lookup z o d recs :
    match alookup dname_eqb d recs with Some zrs => normal_lines ip z o zrs | None => Ok [] end
    = normal_lines ip z o (filter nonsoa (lookup d recs)).
  Proof. unfold lookup. rewrite normal_lines_nonsoa. destruct (alookup dname_eqb d recs); reflexivity. Qed.

  Lemma domain_blocks_lookups z recs wrecs recs' wrecs' : forall ds,
    (forall d, In d ds -> filter nonsoa (lookup d recs') = filter nonsoa (lookup d recs)
                          /\ alookup dname_eqb d wrecs' = alookup dname_eqb d wrecs) ->
    domain_blocks ip z recs' wrecs' ds = domain_blocks ip z recs wrecs ds.
  Proof.
    induction ds as [|d ds IH]; intro H; cbn [domain_blocks]; [reflexivity|].
    rewrite IH by (intros x Hx; apply H; right; exact Hx). f_equal.
    destruct (H d (or_introl eq_refl)) as [H1 H2]. unfold domain_block. rewrite H2.
    destruct (serialise_domain z d); cbn [bind]; try reflexivity.
    rewrite !normal_lines_lookup, H1. reflexivity.
  Qed.

  Lemma serialise_with_lookups z recs wrecs recs' wrecs' :
    zone_ds recs' wrecs' = zone_ds recs wrecs ->
    (forall d, In d (zone_ds recs wrecs) -> filter nonsoa (lookup d recs') = filter nonsoa (lookup d recs)
                                           /\ alookup dname_eqb d wrecs' = alookup dname_eqb d wrecs) ->
    zone_serialise_with ip z recs' wrecs' = zone_serialise_with ip z recs wrecs.
  Proof.
    intros Hds H. unfold zone_serialise_with. fold (zone_ds recs wrecs). fold (zone_ds recs' wrecs').
    rewrite Hds, (domain_blocks_lookups z recs wrecs recs' wrecs' _ H). reflexivity.
  Qed.
End Lookups.

Lemma init_keys_ns s w q : filter ns_key (init_keys s w q) = [].
Proof. destruct s, w, q; reflexivity. Qed.

Section TextIdempotent.
  Variable ip : ipcodec.
  Hypothesis Hip : codec_rt ip.

  Section Nodes.
    Variables (apex : dname) (s : option soa) (ops : list zop) (z z' : zone).
    Hypothesis Hh : head_ok apex s.
    Hypothesis Hops : Forall op_src_ok ops.
    Hypothesis Hbuild : zone_build apex s ops = Ok z.
    Let recs := zone_all_records z.
    Let wrecs := zone_all_wildcard_records z.
    Hypothesis Hbuild' : zone_build apex s (text_ops recs wrecs) = Ok z'.
    Hypothesis HR' : R (labels apex) (z_records z') (flat_of_ops apex s (text_ops recs wrecs)).
    Hypothesis Hsame : zone_same z z'.

    Let fz := flat_of_ops apex s ops.
    Let fz' := flat_of_ops apex s (text_ops recs wrecs).

    Lemma own_nodes :
      R (labels apex) (z_records z) fz /\ fz_ok s fz /\ wf_tree (z_records z) /\ wf_tree (z_records z') /\
      describes (labels apex) (f_norm fz) recs /\ describes (labels apex) (f_wild fz) wrecs.
    Proof.
      assert (Hb : built z) by (exists apex, s, ops; auto).
      destruct (built_data z apex s ops Hh Hops Hbuild) as (Ea & Es & HR0 & Hok).
      destruct (admissible_src_ok z apex s ops recs wrecs Hh Hops Hbuild (own_order_admissible z Hb)) as (_ & Hd & Hdw).
      split; [exact HR0|]. split; [exact Hok|].
      split; [exact (zone_build_wf_tree _ _ _ _ Hbuild)|]. split; [exact (zone_build_wf_tree _ _ _ _ Hbuild')|]. split; assumption.
    Qed.

    Lemma ds_keys d : In d (zone_ds recs wrecs) -> exists p, d = mkname (p ++ labels apex).
    Proof. destruct own_nodes as (_ & _ & _ & _ & Hd & Hdw). exact (ds_key _ _ _ _ Hd Hdw d). Qed.

    (* per owner: the records z' lists are those z lists -- all of them on the wildcard side, all but
       the SOA record (which both hold, z' in front) on the ordinary side *)
    Lemma same_flat w q :
      filter nonsoa (flat_at w q (z_records z')) = filter nonsoa (flat_at w q (z_records z))
      /\ (flat_at w q (z_records z') = [] <-> flat_at w q (z_records z) = [])
      /\ (w = true -> flat_at w q (z_records z') = flat_at w q (z_records z)).
    Proof.
      destruct own_nodes as (HR0 & Hok & Hwf & Hwf' & Hd & Hdw).
      pose proof (text_ops_flat apex s fz recs wrecs Hok Hd Hdw) as Hflat. fold fz' in Hflat.
      destruct Hsame as (_ & _ & Hn). destruct (Hn (rev q)) as [Hex _].
      (* the text of z holds for the owner q the records z lists for it *)
      assert (Hlook : (if w then lookup (mkname (q ++ labels apex)) wrecs else filter nonsoa (lookup (mkname (q ++ labels apex)) recs))
                      = if w then flat_at w q (z_records z) else filter nonsoa (flat_at w q (z_records z))).
      { destruct w.
        - apply (lookup_all_of (labels apex) (z_records z) fz true HR0 Hwf q).
        - f_equal. apply (lookup_all_of (labels apex) (z_records z) fz false HR0 Hwf q). }
      pose proof (keys_build w q _ _ _ Hbuild') as Hkeys.
      change (z_apex (zone_new apex s)) with apex in Hkeys.
      rewrite (text_ops_at _ _ _ ds_keys), map_map, Hlook, keys_new in Hkeys.
      unfold keysZ, keys_at in Hkeys. unfold flat_at in *.
      destruct (node_at (rev q) (z_records z')) as [n'|] eqn:Hat'; destruct (node_at (rev q) (z_records z)) as [n|] eqn:Hat;
        cbn [is_some] in Hex; try discriminate.
      2: { split; [reflexivity|]. split; [tauto|reflexivity]. }
      destruct (node_ok_side _ _ _ _ w (R_node _ _ _ _ _ HR0 Hat)) as [Hm Hg].
      destruct (node_ok_side _ _ _ _ w (R_node _ _ _ _ _ HR' Hat')) as [Hm' Hg'].
      assert (Hgg : forall t, rget t (nside w n') = rget t (nside w n)) by (intro t; rewrite Hg, Hg'; apply Hflat).
      (* no SOA record on the wildcard side *)
      assert (Hws : w = true -> of_type RT_SOA (flat_map snd (nside w n)) = [] /\ of_type RT_SOA (flat_map snd (nside w n')) = []).
      { intros ->. rewrite !of_type_flat by assumption. rewrite Hgg, Hg. cbn [side]. rewrite rev_involutive.
        split; apply (fo_wsoa _ _ Hok). }
      assert (Htypes : map fst (nside w n')
                       = fold_left push_key (map zr_type (filter nonsoa (flat_map snd (nside w n)))) (init_keys s w q)).
      { rewrite Hkeys. destruct w; [|reflexivity]. rewrite (nonsoa_id _ (proj1 (Hws eq_refl))). reflexivity. }
      assert (H1 : filter nonsoa (flat_map snd (nside w n')) = filter nonsoa (flat_map snd (nside w n))).
      { apply same_flat_ns; try assumption.
        rewrite Htypes, filter_fold_push by apply types_nonsoa. rewrite init_keys_ns. reflexivity. }
      split; [exact H1|]. split.
      - rewrite (flat_nil_iff _ Hm), (flat_nil_iff _ Hm'). split; intros H t; [rewrite <- Hgg|rewrite Hgg]; apply H.
      - intro Hw. destruct (Hws Hw) as [S0 S0']. rewrite <- (nonsoa_id _ S0), <- (nonsoa_id _ S0'). exact H1.
    Qed.

    Lemma own_lookups :
      zone_ds (zone_all_records z') (zone_all_wildcard_records z') = zone_ds recs wrecs /\
      forall d, In d (zone_ds recs wrecs) ->
        filter nonsoa (lookup d (zone_all_records z')) = filter nonsoa (lookup d recs)
        /\ alookup dname_eqb d (zone_all_wildcard_records z') = alookup dname_eqb d wrecs.
    Proof.
      destruct own_nodes as (HR0 & Hok & Hwf & Hwf' & Hd & Hdw).
      assert (Hkey : forall w d, In d (map fst (all_of w (z_records z'))) <-> In d (map fst (all_of w (z_records z)))).
      { intros w d. rewrite (all_of_key (labels apex) (z_records z') fz' w HR' Hwf' d),
                            (all_of_key (labels apex) (z_records z) fz w HR0 Hwf d).
        split; intros (q & -> & Hne); exists q; (split; [reflexivity|]); intro F; apply Hne; apply (same_flat w q); exact F. }
      change (zone_all_records z') with (all_of false (z_records z')). change (zone_all_wildcard_records z') with (all_of true (z_records z')).
      change recs with (all_of false (z_records z)). change wrecs with (all_of true (z_records z)).
      split.
      - apply zone_ds_ext. intro x. rewrite !in_app_iff, (Hkey false x), (Hkey true x). reflexivity.
      - intros d Hin. destruct (ds_keys d Hin) as [q ->]. split.
        + rewrite (lookup_all_of (labels apex) (z_records z') fz' false HR' Hwf' q),
                  (lookup_all_of (labels apex) (z_records z) fz false HR0 Hwf q).
          apply (same_flat false q).
        + rewrite (alookup_all_of (labels apex) (z_records z') fz' true HR' Hwf' q),
                  (alookup_all_of (labels apex) (z_records z) fz true HR0 Hwf q).
          rewrite (proj2 (proj2 (same_flat true q)) eq_refl). reflexivity.
    Qed.
  End Nodes.

  (* C13, normalise_idempotent for the text itself: a built zone written by Zone::serialise (the
     model's own order), read back and written again gives literally the same text *)
  Theorem own_text_idempotent z txt z' :
    built z -> zone_serialise ip z = Ok txt -> deserialise ip txt = Ok z' -> zone_serialise ip z' = Ok txt.
  Proof.
    intros Hb E D. pose proof Hb as (apex & s & ops & Hh & Hops & Hbuild).
    pose proof (own_order_admissible z Hb) as Hadm.
    destruct (admissible_src_ok z apex s ops _ _ Hh Hops Hbuild Hadm) as (Hsrc & _ & _).
    destruct (built_data z apex s ops Hh Hops Hbuild) as (Ea & Es & _ & _).
    destruct (serialise_deserialise ip Hip z _ _ Hsrc) as (txt0 & z0 & Etxt & Ed & _ & _ & Hb' & HR').
    unfold zone_serialise in E. rewrite E in Etxt. injection Etxt as <-. rewrite D in Ed. injection Ed as <-.
    destruct (zone_roundtrip ip Hip z _ _ Hb Hadm) as (txt1 & z1 & E1 & D1 & S1 & _ & _ & T1).
    rewrite E in E1. injection E1 as <-. rewrite D in D1. injection D1 as <-.
    rewrite Ea, Es in Hb', HR'.
    destruct (own_lookups apex s ops z z' Hh Hops Hbuild Hb' HR' S1) as [Hds Hl].
    unfold zone_serialise. rewrite <- T1. apply serialise_with_lookups; assumption.
  Qed.

  Hypothesis Hrange : codec_range ip.

  (* ... and so for every zone the parser returns: ztoz applied to its own output writes the same
     text again *)
  Theorem loaded_text_idempotent data z txt z' :
    deserialise ip data = Ok z -> zone_serialise ip z = Ok txt -> deserialise ip txt = Ok z' -> zone_serialise ip z' = Ok txt.
  Proof. intro Hd. apply own_text_idempotent. exact (loaded_built ip Hrange data z Hd). Qed.
End TextIdempotent.

Theorem zf_text_idempotent z txt z' :
  built z -> zf_serialise z = Ok txt -> zf_deserialise txt = Ok z' -> zf_serialise z' = Ok txt.
Proof. apply (own_text_idempotent zf_codec zf_codec_rt). Qed.

Theorem zf_loaded_text_idempotent data z txt z' :
  zf_deserialise data = Ok z -> zf_serialise z = Ok txt -> zf_deserialise txt = Ok z' -> zf_serialise z' = Ok txt.
Proof. apply (loaded_text_idempotent zf_codec zf_codec_rt zf_codec_range). Qed.
