(* ZoneFile/ZoneRtOrder.v -- C13: the order in which the MODEL's own all_records /
   all_wildcard_records list the records (insertion order of the association lists standing for
   the HashMaps) is an admissible order in the sense of ZoneRoundTrip.v, so zone_roundtrip
   applies to [zone_serialise] as it stands; and every re-ordering of the names and of the type
   groups of a name (what another HashMap iteration order gives) is admissible too.

     all_records_describes  node_all_records / node_all_wildcard_records describe the flat zone
                            (from Zone/ZoneEnum.v)
     own_order_admissible, regroup_admissible *)
From RV Require Import Base.Prelude Name.NameModel Name.NameSpec Name.NameProofs Wire.WireTypes
     Zone.ZoneModel Zone.ZoneFlat Zone.ZoneProofs Zone.ZoneMergeProofs
     ZoneFile.ZoneFileModel ZoneFile.ZoneFileSpec ZoneFile.ZoneSerialiseModel
     ZoneFile.ZoneFileProofs ZoneFile.ZoneSerialiseProofs ZoneFile.ZoneRtLines ZoneFile.ZoneRtLoop
     ZoneFile.ZoneRoundTrip.
From RV Require Export Zone.ZoneEnum.

Section Describes.
  Variables (apexl : list label) (nd : node) (fz : fzone) (w : bool).
  Hypothesis HR : R apexl nd fz.
  Hypothesis Hwf : wf_tree nd.

  Theorem all_records_describes :
    describes apexl (side w fz) (all_of w nd) /\ nonempty_lists (all_of w nd).
  Proof.
    destruct (listing_spec apexl nd fz w HR Hwf) as (Hk & He & Hc). split; [constructor|].
    - exact Hk.
    - intros n zrs Hin. apply (He n zrs Hin).
    - exact Hc.
    - intros n zrs Hin. apply (He n zrs Hin).
  Qed.
End Describes.

(* the order of the model's own all_records / all_wildcard_records is admissible: zone_roundtrip
   applies to zone_serialise as it stands *)
Theorem own_order_admissible z : built z -> admissible z (zone_all_records z) (zone_all_wildcard_records z).
Proof.
  intros (apex & s & ops & Hh & Hops & Hb).
  destruct (built_data z apex s ops Hh Hops Hb) as (Ea & Es & HR0 & _).
  pose proof (zone_build_wf_tree apex s ops z Hb) as Hwf. rewrite <- Ea in HR0.
  destruct (all_records_describes _ _ _ false HR0 Hwf) as [D1 N1].
  destruct (all_records_describes _ _ _ true HR0 Hwf) as [D2 N2].
  split; [exact N1|]. split; [exact N2|]. exists (flat_of_ops (z_apex z) s ops). split; [exact HR0|]. split; assumption.
Qed.

(* ... and so is every re-ordering a different HashMap iteration order could produce: the names
   in any order, and under a name the type groups in any order (even interleaved), the order
   inside each type group kept *)
Definition regrouped (l l' : list (dname * list zrec)) : Prop :=
  NoDup (map fst l') /\
  (forall n zrs', In (n, zrs') l' -> zrs' <> [] /\ exists zrs, In (n, zrs) l /\ forall t, of_type t zrs' = of_type t zrs) /\
  (forall n, In n (map fst l) -> In n (map fst l')).

Lemma describes_regrouped apexl side l l' : describes apexl side l -> regrouped l l' -> describes apexl side l'.
Proof.
  intros [H1 H2 H3] (G1 & G2 & G3). constructor; [exact G1| |].
  - intros n zrs' Hin. destruct (G2 n zrs' Hin) as (_ & zrs & Hin0 & Ht). destruct (H2 n zrs Hin0) as (p & Hp & Hr).
    exists p. split; [exact Hp|]. intro t. rewrite Ht. apply Hr.
  - intros p r Hin. apply G3. apply (H3 p r Hin).
Qed.

Theorem regroup_admissible z recs wrecs recs' wrecs' :
  admissible z recs wrecs -> regrouped recs recs' -> regrouped wrecs wrecs' -> admissible z recs' wrecs'.
Proof.
  intros (_ & _ & fz & HR & D1 & D2) G1 G2. split; [|split].
  - intros n zrs Hin. apply (proj1 (proj2 G1) n zrs Hin).
  - intros n zrs Hin. apply (proj1 (proj2 G2) n zrs Hin).
  - exists fz. split; [exact HR|]. split; eapply describes_regrouped; eassumption.
Qed.
