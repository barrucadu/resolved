(* ZoneFile/ZoneRtLoop.v -- C13, file level: Zone::deserialise run on the text Zone::serialise
   writes.  The main loop is followed segment by segment ([seg]: "$ORIGIN" line, SOA line,
   blank lines, one name block after the other, record line by record line), the final
   state holds exactly the records of the text in text order, and the assembly step is
   Zone::new followed by the insertions, i.e. [zone_build] of Zone/ZoneFlat.v:

     serialise_deserialise :
       zone_serialise_with z recs wrecs = Ok txt, deserialise txt = Ok z', same apex, same SOA,
       and the record tree of z' represents (relation R of Zone/ZoneProofs.v) the flat zone
       made of the records of the text, [text_ops]. *)
From Coq Require Import Permutation.
From RV Require Import Base.Prelude Name.NameModel Name.NameSpec Name.NameProofs Wire.WireTypes
     Zone.ZoneModel Zone.ZoneFlat Zone.ZoneProofs
     ZoneFile.ZoneFileModel ZoneFile.ZoneFileSpec ZoneFile.ZoneSerialiseModel
     ZoneFile.ZoneFileProofs ZoneFile.ZoneSerialiseProofs ZoneFile.ZoneRtLines.

Section Loop.
  Variable ip : ipcodec.

  (* parse_entry's loop: any fuel longer than the stream gives the same result *)
  Lemma parse_entry_loop_fuel : forall f1 f2 o pd pt s,
    (length s < length f1)%nat -> (length s < length f2)%nat ->
    parse_entry_loop ip f1 o pd pt s = parse_entry_loop ip f2 o pd pt s.
  Proof.
    induction f1 as [|x f1 IH]; intros f2 o pd pt s H1 H2; [cbn [length] in H1; lia|].
    destruct f2 as [|y f2]; [cbn [length] in H2; lia|]. cbn [parse_entry_loop].
    destruct (tokenise_entry s) as [[tokens rest]| | |] eqn:Et; cbn [bind fst snd]; try reflexivity.
    destruct tokens as [|t0 toks]; cbn [is_nil]; [|reflexivity].
    destruct rest as [|c rest]; cbn [is_nil]; [reflexivity|].
    apply tokenise_entry_rest in Et as [[_ E]|Hlt]; [discriminate|].
    apply IH; cbn [length] in *; lia.
  Qed.

  (* a blank line before an entry is skipped *)
  Lemma parse_entry_blank o pd pt rest : parse_entry ip o pd pt (10 :: rest) = parse_entry ip o pd pt rest.
  Proof. unfold parse_entry. destruct rest; reflexivity. Qed.

  Lemma parse_entry_nil o pd pt : parse_entry ip o pd pt [] = Ok (None, []).
  Proof. reflexivity. Qed.

  (* a piece of text that moves the main loop from state st to state st' *)
  Definition seg (st : dstate) (t : list N) (st' : dstate) : Prop :=
    forall rest fuel, (length (t ++ rest) < length fuel)%nat ->
      exists fuel', (length rest < length fuel')%nat /\
                    deser_loop ip fuel st (t ++ rest) = deser_loop ip fuel' st' rest.

  Lemma seg_nil st : seg st [] st.
  Proof. intros rest fuel H. exists fuel. auto. Qed.

  Lemma seg_app st1 t1 st2 t2 st3 : seg st1 t1 st2 -> seg st2 t2 st3 -> seg st1 (t1 ++ t2) st3.
  Proof.
    intros H1 H2 rest fuel Hlen. rewrite <- app_assoc in *.
    destruct (H1 (t2 ++ rest) fuel Hlen) as (f1 & Hl1 & E1).
    destruct (H2 rest f1 Hl1) as (f2 & Hl2 & E2).
    exists f2. split; [exact Hl2|]. rewrite E1. exact E2.
  Qed.

  Lemma seg_blank st : seg st [10] st.
  Proof.
    intros rest fuel Hlen. destruct fuel as [|f fuel]; [cbn [length] in Hlen; lia|].
    exists (f :: fuel). split; [cbn [app length] in *; lia|].
    cbn [app]. rewrite !deser_loop_unfold, parse_entry_blank. reflexivity.
  Qed.

  Lemma seg_entry st body e st' :
    (forall rest, parse_entry ip (d_origin st) (d_prev_domain st) (d_prev_ttl st) (body ++ 10 :: rest) = Ok (Some e, rest)) ->
    deser_step st e = Ok st' -> seg st (body ++ [10]) st'.
  Proof.
    intros Hp Hs rest fuel Hlen. destruct fuel as [|f fuel]; [cbn [length] in Hlen; lia|].
    exists fuel. split; [rewrite !app_length in Hlen; cbn [length] in Hlen; lia|].
    rewrite deser_loop_unfold, <- app_assoc. cbn [app]. rewrite Hp. cbn [bind fst snd]. rewrite Hs. reflexivity.
  Qed.

  Lemma seg_run st t st' : seg st t st' -> forall fuel, (length t < length fuel)%nat -> deser_loop ip fuel st t = Ok st'.
  Proof.
    intros H fuel Hlen. destruct (H [] fuel) as (f' & Hl & E); [rewrite app_nil_r; exact Hlen|].
    rewrite app_nil_r in E. rewrite E. destruct f' as [|x f']; [cbn [length] in Hl; lia|]. reflexivity.
  Qed.
End Loop.

Definition not_soa_data (d : rdata) : Prop := forall m r a b c e f, d <> RD_SOA m r a b c e f.

Lemma shape_soa ty : shape_of_type ty = ShSOA -> ty = RT_SOA.
Proof.
  unfold shape_of_type.
  repeat match goal with |- context [if ?b then _ else _] => destruct b eqn:? end; try discriminate.
  intros _. apply N.eqb_eq. assumption.
Qed.

Lemma zrec_not_soa zr : shape_of_rdata (zr_data zr) = shape_of_type (zr_type zr) -> zr_type zr <> RT_SOA ->
  not_soa_data (zr_data zr).
Proof.
  intros Hs Ht m r a b c e f E. rewrite E in Hs. cbn [shape_of_rdata] in Hs. symmetry in Hs. apply shape_soa in Hs. contradiction.
Qed.

(* what a segment of record lines adds to the state: ordinary and wildcard records, in text order *)
Definition st_add (nrrs wrrs : list rr) (st st' : dstate) : Prop :=
  d_rrs st' = rev nrrs ++ d_rrs st /\ d_wrrs st' = rev wrrs ++ d_wrrs st /\
  d_apex_soa st' = d_apex_soa st /\ d_origin st' = d_origin st.

Lemma rec_entry_mw (w : bool) d zr : not_soa_data (zr_data zr) ->
  rec_entry (if w then MWildcard d else MNormal d) zr = if w then EWildcardRR (zr_to_rr zr d) else ERR (zr_to_rr zr d).
Proof.
  intro H. unfold rec_entry, to_rr, zr_to_rr. cbn [fst snd].
  assert (E : match zr_data zr with RD_SOA _ _ _ _ _ _ minimum => minimum | _ => zr_ttl zr end = zr_ttl zr)
    by (destruct (zr_data zr); try reflexivity; exfalso; eapply H; reflexivity).
  rewrite E. destruct w; reflexivity.
Qed.

Lemma step_rec (w : bool) st r : not_soa_data (rr_data r) -> rr_type r <> RT_SOA ->
  exists st', deser_step st (if w then EWildcardRR r else ERR r) = Ok st' /\
              st_add (if w then [] else [r]) (if w then [r] else []) st st'.
Proof.
  intros Hd Ht. destruct w; cbn [deser_step].
  - rewrite (proj2 (N.eqb_neq _ _) Ht). eexists. split; [reflexivity|unfold st_add; cbn; auto].
  - destruct (rr_data r) eqn:E; try (eexists; split; [reflexivity|unfold st_add; cbn; auto]).
    exfalso. eapply Hd. reflexivity.
Qed.

Lemma step_origin st n :
  exists st', deser_step st (EOrigin n) = Ok st' /\ d_rrs st' = d_rrs st /\ d_wrrs st' = d_wrrs st /\
              d_apex_soa st' = d_apex_soa st /\ d_origin st' = Some n.
Proof. eexists. split; [reflexivity|cbn; auto]. Qed.

Definition soa_of_rdata_fields (s : soa) : soa := s.

Lemma step_soa st apex s : d_apex_soa st = None ->
  exists st', deser_step st (ERR (soa_rr apex s)) = Ok st' /\ d_rrs st' = d_rrs st /\ d_wrrs st' = d_wrrs st /\
              d_apex_soa st' = Some (apex, s) /\ d_origin st' = d_origin st.
Proof.
  intro H. cbn [deser_step soa_rr rr_data rr_name soa_to_rdata]. rewrite H. eexists. split; [reflexivity|].
  cbn. destruct s; auto.
Qed.

Definition nonsoa (zr : zrec) : bool := negb (zr_type zr =? RT_SOA).
Definition lookup (d : dname) (l : list (dname * list zrec)) : list zrec :=
  match alookup dname_eqb d l with Some zrs => zrs | None => [] end.

Definition under (apex n : dname) : Prop := is_subdomain_of n apex = true.

Section Text.
  Variable ip : ipcodec.
  Hypothesis Hip : codec_rt ip.

  Definition rec_ok (zr : zrec) : Prop := zrec_ok zr /\ zr_type zr <> RT_SOA.

  (* the (name, records) lists handed to the serialiser *)
  Definition recs_src_ok (apex : dname) (wild : bool) (l : list (dname * list zrec)) : Prop :=
    forall n zrs, In (n, zrs) l ->
      name_ok n /\ under apex n /\ (wild = false -> first_label n <> S_STAR) /\
      Forall (fun zr => (wild = false /\ zr_type zr = RT_SOA) \/ rec_ok zr) zrs.

  Definition zone_src_ok (z : zone) (recs wrecs : list (dname * list zrec)) : Prop :=
    name_ok (z_apex z) /\ first_label (z_apex z) <> S_STAR /\
    match z_soa z with Some s => soa_ok s | None => z_apex z = root_domain end /\
    recs_src_ok (z_apex z) false recs /\ recs_src_ok (z_apex z) true wrecs.

  Lemma lookup_src_ok apex w l d : recs_src_ok apex w l ->
    (lookup d l = [] \/ (name_ok d /\ under apex d /\ (w = false -> first_label d <> S_STAR))) /\
    Forall (fun zr => (w = false /\ zr_type zr = RT_SOA) \/ rec_ok zr) (lookup d l).
  Proof.
    intro H. unfold lookup. destruct (alookup dname_eqb d l) as [zrs|] eqn:E; [|split; [left; reflexivity|constructor]].
    apply alookup_some in E. destruct (H d zrs E) as (H1 & H2 & H3 & H4). split; [right; auto|exact H4].
  Qed.

  Section Zone.
    Variable z : zone.
    Hypothesis Ha : name_ok (z_apex z).

    (* a text that, read under the origin of the zone's text, adds these records to the state *)
    Definition adds (txt : list N) (nrrs wrrs : list rr) : Prop :=
      forall st, d_origin st = zorigin z -> exists st', seg ip st txt st' /\ st_add nrrs wrrs st st'.

    Lemma adds_nil : adds [] [] [].
    Proof. intros st _. exists st. split; [apply seg_nil|unfold st_add; auto]. Qed.

    Lemma adds_app t1 n1 w1 t2 n2 w2 : adds t1 n1 w1 -> adds t2 n2 w2 -> adds (t1 ++ t2) (n1 ++ n2) (w1 ++ w2).
    Proof.
      intros H1 H2 st Ho. destruct (H1 st Ho) as (st1 & S1 & R1 & W1 & A1 & O1).
      destruct (H2 st1 ltac:(congruence)) as (st2 & S2 & R2 & W2 & A2 & O2).
      exists st2. split; [eapply seg_app; eassumption|].
      unfold st_add. rewrite R2, R1, W2, W1, !rev_app_distr, <- !app_assoc. repeat split; congruence.
    Qed.

    Lemma adds_blank : adds [10] [] [].
    Proof. intros st _. exists st. split; [apply seg_blank|unfold st_add; auto]. Qed.

    (* the record lines of one owner, ordinary (w = false, padded) or wildcard *)
    Lemma lines_adds (w : bool) d otxt pad :
      octets otxt -> otxt <> [] -> noupper otxt ->
      parse_domain_or_wildcard (zorigin z) otxt = Ok (if w then MWildcard d else MNormal d) ->
      forall zrs, Forall rec_ok zrs ->
      exists txt, wildcard_lines ip z (serialise_octets otxt false ++ repeat 32 pad) zrs = Ok txt /\
        adds txt (if w then [] else map (fun zr => zr_to_rr zr d) zrs) (if w then map (fun zr => zr_to_rr zr d) zrs else []).
    Proof.
      intros Ho Hone Hnu Hw. induction zrs as [|zr zrs IH]; intro Hz; cbn [wildcard_lines map].
      - exists []. split; [reflexivity|]. destruct w; apply adds_nil.
      - apply Forall_cons_iff in Hz as [[Hok Hns] Hz].
        destruct (record_line_entry ip Hip z otxt pad _ zr Ha Hok Ho Hone Hnu Hw) as (body & Hline & Hparse).
        rewrite Hline. cbn [bind]. destruct (IH Hz) as (txt & Htxt & Hadds). rewrite Htxt. cbn [bind].
        exists ((body ++ [10]) ++ txt). split; [reflexivity|].
        assert (Hnd : not_soa_data (zr_data zr)) by (apply zrec_not_soa; [apply Hok|exact Hns]).
        rewrite (rec_entry_mw w d zr Hnd) in Hparse.
        assert (H1 : adds (body ++ [10]) (if w then [] else [zr_to_rr zr d]) (if w then [zr_to_rr zr d] else [])).
        { intros st Hst. destruct (step_rec w st (zr_to_rr zr d) Hnd Hns) as (st1 & Hs1 & Hadd). exists st1. split; [|exact Hadd].
          eapply seg_entry; [|exact Hs1]. intro rest. rewrite Hst. apply Hparse. }
        pose proof (adds_app _ _ _ _ _ _ H1 Hadds) as H. destruct w; exact H.
    Qed.

    Lemma normal_as_wildcard o zrs : normal_lines ip z o zrs = wildcard_lines ip z o (filter nonsoa zrs).
    Proof.
      induction zrs as [|zr zrs IH]; [reflexivity|]. cbn [normal_lines filter]. unfold nonsoa at 1.
      destruct (zr_type zr =? RT_SOA); cbn [negb wildcard_lines]; rewrite IH; reflexivity.
    Qed.

    (* the owner text of a wildcard line, in the form lines_adds takes it: one token, no padding *)
    Lemma star_dot_text txt : [42; 46] ++ serialise_octets txt false = serialise_octets (42 :: 46 :: txt) false ++ repeat 32 0.
    Proof. unfold serialise_octets. cbn [flat_map repeat app]. rewrite !app_nil_r. reflexivity. Qed.

    Variables recs wrecs : list (dname * list zrec).
    Hypothesis Hrecs : recs_src_ok (z_apex z) false recs.
    Hypothesis Hwrecs : recs_src_ok (z_apex z) true wrecs.

    Definition block_rrs (d : dname) : list rr := map (fun zr => zr_to_rr zr d) (filter nonsoa (lookup d recs)).
    Definition block_wrrs (d : dname) : list rr := map (fun zr => zr_to_rr zr d) (lookup d wrecs).

    Lemma domain_block_seg d : In d (map fst recs ++ map fst wrecs) ->
      exists txt, domain_block ip z recs wrecs d = Ok txt /\ adds txt (block_rrs d) (block_wrrs d).
    Proof.
      intros Hin.
      (* the name is one of the keys, hence expressible *)
      assert (Hd : name_ok d).
      { apply in_app_or in Hin as [Hin|Hin]; apply in_map_iff in Hin as ([n zrs] & E & Hin); cbn [fst] in E; subst n;
          [apply (Hrecs d zrs Hin)|apply (Hwrecs d zrs Hin)]. }
      destruct (dom_text_lc z d Ha Hd) as [Hne Hlc].
      unfold domain_block. rewrite (serialise_domain_text z d Ha Hd). cbn [bind].
      unfold block_rrs, block_wrrs.
      destruct (lookup_src_ok (z_apex z) false recs d Hrecs) as [Hn1 Hn2].
      destruct (lookup_src_ok (z_apex z) true wrecs d Hwrecs) as [_ Hw2].
      assert (Hw2' : Forall rec_ok (lookup d wrecs)).
      { revert Hw2. apply Forall_impl. intros zr [[F _]|H]; [discriminate|exact H]. }
      assert (Hn2' : Forall rec_ok (filter nonsoa (lookup d recs))).
      { apply Forall_forall. intros zr Hzr. apply filter_In in Hzr as [Hzr Hns]. rewrite Forall_forall in Hn2.
        destruct (Hn2 zr Hzr) as [[_ F]|H]; [|exact H]. unfold nonsoa in Hns. rewrite F in Hns. discriminate. }
      assert (HN : exists txt, match alookup dname_eqb d recs with
                               | Some zrs => normal_lines ip z (serialise_octets (dom_text z d) false ++
                                                (if match alookup dname_eqb d wrecs with Some _ => true | None => false end then [32; 32] else [])) zrs
                               | None => Ok []
                               end = Ok txt /\ adds txt (map (fun zr => zr_to_rr zr d) (filter nonsoa (lookup d recs))) []).
      { unfold lookup in *. destruct (alookup dname_eqb d recs) as [zrs|] eqn:E; [|exists []; split; [reflexivity|apply adds_nil]].
        destruct Hn1 as [->|(_ & _ & Hfl)]; [exists []; split; [reflexivity|apply adds_nil]|].
        replace (if match alookup dname_eqb d wrecs with Some _ => true | None => false end then [32; 32] else [])
          with (repeat 32 (if match alookup dname_eqb d wrecs with Some _ => true | None => false end then 2 else 0)%nat)
          by (destruct (alookup dname_eqb d wrecs); reflexivity).
        rewrite normal_as_wildcard.
        exact (lines_adds false d (dom_text z d) _ (lc_octets _ Hlc) Hne (lc_noupper _ Hlc) (dom_text_owner z d Ha Hd (Hfl eq_refl)) _ Hn2'). }
      destruct HN as (t1 & E1 & A1). rewrite E1. cbn [bind].
      assert (HW : exists txt, match alookup dname_eqb d wrecs with
                               | Some zrs => wildcard_lines ip z ([42; 46] ++ serialise_octets (dom_text z d) false) zrs
                               | None => Ok []
                               end = Ok txt /\ adds txt [] (map (fun zr => zr_to_rr zr d) (lookup d wrecs))).
      { unfold lookup in *. destruct (alookup dname_eqb d wrecs) as [zrs|] eqn:E; [|exists []; split; [reflexivity|apply adds_nil]].
        rewrite star_dot_text.
        refine (lines_adds true d (42 :: 46 :: dom_text z d) 0 _ ltac:(discriminate) _ (dom_text_wild z d Ha Hd) _ Hw2').
        - repeat constructor; try lia. apply lc_octets, Hlc.
        - repeat constructor. apply lc_noupper, Hlc. }
      destruct HW as (t2 & E2 & A2). rewrite E2. cbn [bind].
      exists (t1 ++ t2 ++ nl). split; [reflexivity|].
      pose proof (adds_app _ _ _ _ _ _ A1 (adds_app _ _ _ _ _ _ A2 adds_blank)) as H. rewrite !app_nil_r in H. exact H.
    Qed.

    Lemma domain_blocks_seg : forall ds, incl ds (map fst recs ++ map fst wrecs) ->
      exists txt, domain_blocks ip z recs wrecs ds = Ok txt /\ adds txt (flat_map block_rrs ds) (flat_map block_wrrs ds).
    Proof.
      induction ds as [|d ds IH]; intros Hincl; cbn [domain_blocks flat_map].
      - exists []. split; [reflexivity|apply adds_nil].
      - destruct (domain_block_seg d (Hincl d (or_introl eq_refl))) as (t1 & E1 & A1). rewrite E1. cbn [bind].
        destruct (IH (fun x Hx => Hincl x (or_intror Hx))) as (t2 & E2 & A2). rewrite E2. cbn [bind].
        exists (t1 ++ t2). split; [reflexivity|apply adds_app; assumption].
    Qed.
  End Zone.
End Text.

Lemma sort_names_perm l : Permutation (sort_names l) l.
Proof. exact (Permutation_sym (isort_perm dname_leb l)). Qed.

Lemma existsb_dname_In x l : existsb (dname_eqb x) l = true <-> In x l.
Proof.
  rewrite existsb_exists. split.
  - intros (y & Hin & E). apply dname_eqb_eq in E. subst y. exact Hin.
  - intro Hin. exists x. split; [exact Hin|apply dname_eqb_eq; reflexivity].
Qed.

Lemma rev'_rev {A} (l : list A) : rev' l = rev l.
Proof. unfold rev'. symmetry. apply rev_alt. Qed.

Lemma dedup_names_spec : forall l seen, NoDup seen ->
  NoDup (dedup_names l seen) /\ forall x, In x (dedup_names l seen) <-> In x l \/ In x seen.
Proof.
  induction l as [|y t IH]; intros seen Hnd; cbn [dedup_names].
  - rewrite rev'_rev. split; [apply NoDup_rev; exact Hnd|]. intro x. rewrite <- in_rev. cbn [In]. tauto.
  - destruct (existsb (dname_eqb y) seen) eqn:E.
    + destruct (IH seen Hnd) as [H1 H2]. split; [exact H1|]. intro x. rewrite H2. cbn [In].
      apply existsb_dname_In in E. split; [tauto|]. intros [[<-|H]|H]; auto.
    + assert (Hn : ~ In y seen) by (intro H; apply existsb_dname_In in H; congruence).
      destruct (IH (y :: seen) (NoDup_cons y Hn Hnd)) as [H1 H2]. split; [exact H1|]. intro x. rewrite H2. cbn [In]. tauto.
Qed.

Definition zone_ds (recs wrecs : list (dname * list zrec)) : list dname :=
  sort_names (dedup_names (map fst recs ++ map fst wrecs) []).

Lemma zone_ds_spec recs wrecs :
  NoDup (zone_ds recs wrecs) /\ forall x, In x (zone_ds recs wrecs) <-> In x (map fst recs ++ map fst wrecs).
Proof.
  unfold zone_ds. destruct (dedup_names_spec (map fst recs ++ map fst wrecs) [] (NoDup_nil _)) as [H1 H2].
  pose proof (sort_names_perm (dedup_names (map fst recs ++ map fst wrecs) [])) as P. split.
  - eapply Permutation_NoDup; [apply Permutation_sym; exact P|exact H1].
  - intro x. split.
    + intro H. apply (Permutation_in _ P) in H. apply H2 in H as [H|[]]. exact H.
    + intro H. apply (Permutation_in _ (Permutation_sym P)). apply H2. left. exact H.
Qed.

Definition op_of_rr (w : bool) (r : rr) : zop :=
  {| op_wild := w; op_name := rr_name r; op_type := rr_type r; op_data := rr_data r; op_ttl := rr_ttl r |}.

Lemma zone_insert_apex w z n ty d ttl z' : zone_insert w z n ty d ttl = Ok z' -> z_apex z' = z_apex z.
Proof.
  unfold zone_insert. destruct (relative_rp z n); [|intro H; inversion H; reflexivity].
  destruct (node_insert w l _ (z_records z)); cbn [bind]; intro H; inversion H. reflexivity.
Qed.

Lemma insert_all_apply w : forall rrs z z',
  (forall r, In r rrs -> is_subdomain_of (rr_name r) (z_apex z) = true) ->
  zone_apply_all z (map (op_of_rr w) rrs) = Ok z' -> insert_all w rrs z = Ok z'.
Proof.
  induction rrs as [|r t IH]; intros z z' Hsub H; cbn [map zone_apply_all insert_all] in *; [inversion H; reflexivity|].
  unfold zone_apply in H. cbn [op_of_rr op_wild op_name op_type op_data op_ttl] in H.
  rewrite (Hsub r (or_introl eq_refl)). cbn [negb].
  destruct (zone_insert w z (rr_name r) (rr_type r) (rr_data r) (rr_ttl r)) as [z1| | |] eqn:E; cbn [bind] in H; try discriminate.
  cbn [lift_unit bind]. apply IH; [|exact H].
  intros r' Hr'. rewrite (zone_insert_apex _ _ _ _ _ _ _ E). apply Hsub. right. exact Hr'.
Qed.

Lemma zone_apply_all_apex : forall ops z z', zone_apply_all z ops = Ok z' -> z_apex z' = z_apex z.
Proof.
  induction ops as [|o ops IH]; intros z z' H; cbn [zone_apply_all] in H; [inversion H; reflexivity|].
  destruct (zone_apply z o) as [z1| | |] eqn:E; cbn [bind] in H; try discriminate.
  rewrite (IH _ _ H). unfold zone_apply in E. eapply zone_insert_apex. exact E.
Qed.

(* the assembly step of Zone::deserialise is Zone::new followed by the insertions *)
Theorem assemble_build st apex so nrrs wrrs :
  d_apex_soa st = option_map (fun s => (apex, s)) so -> (so = None -> apex = root_domain) ->
  d_rrs st = rev nrrs -> d_wrrs st = rev wrrs -> wf_name apex ->
  (forall r, In r (nrrs ++ wrrs) -> wf_name (rr_name r) /\ is_subdomain_of (rr_name r) apex = true) ->
  exists z', assemble st = Ok z' /\ z_apex z' = apex /\ z_soa z' = so /\
             zone_build apex so (map (op_of_rr false) nrrs ++ map (op_of_rr true) wrrs) = Ok z' /\
             R (labels apex) (z_records z') (flat_of_ops apex so (map (op_of_rr false) nrrs ++ map (op_of_rr true) wrrs)).
Proof.
  intros Hs Hnone Hr Hw Hwf Hall. unfold assemble. rewrite Hs, Hr, Hw, !rev'_rev, !rev_involutive.
  assert (E0 : match option_map (fun s => (apex, s)) so with
               | Some (apex0, s) => zone_new apex0 (Some s)
               | None => zone_new root_domain None
               end = zone_new apex so).
  { destruct so as [s|]; cbn [option_map]; [reflexivity|]. rewrite (Hnone eq_refl). reflexivity. }
  rewrite E0.
  destruct (zone_build_R apex so (map (op_of_rr false) nrrs ++ map (op_of_rr true) wrrs) Hwf) as (z' & Hb & Ha' & Hs' & HR).
  { apply Forall_app. split; apply Forall_forall; intros o Ho; apply in_map_iff in Ho as (r & <- & Hr'); cbn [op_of_rr op_name];
      apply Hall; apply in_or_app; auto. }
  pose proof Hb as Hb0. unfold zone_build in Hb. rewrite zone_apply_all_app in Hb.
  destruct (zone_apply_all (zone_new apex so) (map (op_of_rr false) nrrs)) as [z1| | |] eqn:E1; cbn [bind] in Hb; try discriminate.
  assert (A0 : z_apex (zone_new apex so) = apex) by reflexivity.
  rewrite (insert_all_apply false nrrs (zone_new apex so) z1); [|rewrite A0; intros r Hr'; apply Hall; apply in_or_app; auto|exact E1].
  cbn [bind].
  rewrite (insert_all_apply true wrrs z1 z'); [|rewrite (zone_apply_all_apex _ _ _ E1), A0; intros r Hr'; apply Hall; apply in_or_app; auto|exact Hb].
  exists z'. auto.
Qed.

Section Whole.
  Variable ip : ipcodec.
  Hypothesis Hip : codec_rt ip.

  Lemma soa_block_seg z :
    name_ok (z_apex z) -> first_label (z_apex z) <> S_STAR ->
    match z_soa z with Some s => soa_ok s | None => True end ->
    exists txt st', soa_block ip z = Ok txt /\ seg ip dstate_init txt st' /\
      d_rrs st' = [] /\ d_wrrs st' = [] /\
      d_apex_soa st' = option_map (fun s => (z_apex z, s)) (z_soa z) /\ d_origin st' = zorigin z.
  Proof.
    intros Ha Hfl Hs. unfold soa_block. destruct (z_soa z) as [s|] eqn:Es.
    2: { exists [], dstate_init. split; [reflexivity|]. split; [apply seg_nil|].
         unfold zorigin, zone_is_authoritative. rewrite Es. cbn. auto. }
    destruct (soa_line_entry ip Hip z s Ha Hs Hfl Es) as (body & Hline & Hparse).
    destruct (serialise_rdata ip z (soa_to_rdata s)) as [rd| | |] eqn:Erd; cbn [bind] in Hline |- *; try discriminate.
    injection Hline as Hline.
    assert (Hauth : zone_is_authoritative z = true) by (unfold zone_is_authoritative; rewrite Es; reflexivity).
    assert (Htail : forall X, (if negb (is_root (z_apex z)) then S_AT else serialise_octets (utf8 (to_dotted_string (z_apex z))) false)
                                ++ sp ++ S_IN ++ sp ++ S_SOA ++ sp ++ rd ++ nl ++ X = (body ++ [10]) ++ X).
    { intro X. rewrite <- Hline. unfold sp, S_IN, S_SOA. repeat rewrite <- app_assoc. cbn [app].
      repeat rewrite <- app_assoc. reflexivity. }
    destruct (is_root (z_apex z)) eqn:Er; cbn [negb] in *.
    - (* root apex: no $ORIGIN line *)
      assert (Ho : zorigin z = None) by (unfold zorigin; rewrite Hauth, Er; reflexivity).
      destruct (step_soa dstate_init (z_apex z) s eq_refl) as (st1 & Hs1 & R1 & W1 & A1 & O1).
      exists ((body ++ [10]) ++ nl), st1. split; [cbn [app]; rewrite (Htail nl); reflexivity|]. split.
      + eapply seg_app; [|apply seg_blank]. apply seg_entry with (e := ERR (soa_rr (z_apex z) s)); [|exact Hs1].
        intro rest. change (d_origin dstate_init) with (@None dname). rewrite <- Ho. apply Hparse.
      + rewrite R1, W1, A1, O1, Ho. cbn. auto.
    - assert (Ho : zorigin z = Some (z_apex z)) by (unfold zorigin; rewrite Hauth, Er; reflexivity).
      destruct (step_origin dstate_init (z_apex z)) as (st0 & Hs0 & R0 & W0 & A0 & O0).
      destruct (step_soa st0 (z_apex z) s A0) as (st1 & Hs1 & R1 & W1 & A1 & O1).
      exists (((S_ORIGIN ++ sp ++ serialise_octets (utf8 (to_dotted_string (z_apex z))) false) ++ [10]) ++ nl ++ (body ++ [10]) ++ nl), st1.
      split.
      + rewrite (Htail nl). f_equal. unfold nl. repeat rewrite <- app_assoc. reflexivity.
      + split.
        * eapply seg_app; [apply seg_entry with (e := EOrigin (z_apex z)); [|exact Hs0]|].
          { intro rest. apply origin_line_entry. exact Ha. }
          eapply seg_app; [apply seg_blank|]. eapply seg_app; [|apply seg_blank].
          apply seg_entry with (e := ERR (soa_rr (z_apex z) s)); [|exact Hs1].
          intro rest. rewrite O0, <- Ho. apply Hparse.
        * rewrite R1, W1, A1, O1, R0, W0, O0, Ho. cbn. auto.
  Qed.

  (* the records of the text, in text order *)
  Definition text_ops (recs wrecs : list (dname * list zrec)) : list zop :=
    map (op_of_rr false) (flat_map (block_rrs recs) (zone_ds recs wrecs))
        ++ map (op_of_rr true) (flat_map (block_wrrs wrecs) (zone_ds recs wrecs)).

  Theorem serialise_deserialise z recs wrecs : zone_src_ok z recs wrecs ->
    exists txt z', zone_serialise_with ip z recs wrecs = Ok txt /\ deserialise ip txt = Ok z' /\
      z_apex z' = z_apex z /\ z_soa z' = z_soa z /\
      zone_build (z_apex z) (z_soa z) (text_ops recs wrecs) = Ok z' /\
      R (labels (z_apex z)) (z_records z') (flat_of_ops (z_apex z) (z_soa z) (text_ops recs wrecs)).
  Proof.
    intros (Ha & Hfl & Hsoa & Hrecs & Hwrecs).
    destruct (soa_block_seg z Ha Hfl) as (t1 & st1 & E1 & S1 & R1 & W1 & A1 & O1).
    { destruct (z_soa z); [exact Hsoa|exact I]. }
    destruct (zone_ds_spec recs wrecs) as [_ Hds].
    destruct (domain_blocks_seg ip Hip z Ha recs wrecs Hrecs Hwrecs (zone_ds recs wrecs)) as (t2 & E2 & Hadds).
    { intros x Hx. apply Hds. exact Hx. }
    destruct (Hadds st1 O1) as (st2 & S2 & R2 & W2 & A2 & O2).
    unfold zone_serialise_with. rewrite E1. cbn [bind]. fold (zone_ds recs wrecs). rewrite E2. cbn [bind].
    assert (Hloop : deser_loop ip (0 :: t1 ++ t2) dstate_init (t1 ++ t2) = Ok st2).
    { apply seg_run; [eapply seg_app; eassumption|cbn [length]; lia]. }
    destruct (assemble_build st2 (z_apex z) (z_soa z) (flat_map (block_rrs recs) (zone_ds recs wrecs))
                             (flat_map (block_wrrs wrecs) (zone_ds recs wrecs))) as (z' & Hz' & Ha' & Hs' & Hb' & HR).
    - rewrite A2. exact A1.
    - intro E. rewrite E in Hsoa. exact Hsoa.
    - rewrite R2, R1. apply app_nil_r.
    - rewrite W2, W1. apply app_nil_r.
    - apply Ha.
    - intros r Hr. assert (Hd : In (rr_name r) (zone_ds recs wrecs)).
      { apply in_app_or in Hr as [Hr|Hr]; apply in_flat_map in Hr as (d & Hd & Hr);
          unfold block_rrs, block_wrrs in Hr; apply in_map_iff in Hr as (zr & <- & _); exact Hd. }
      apply Hds in Hd. apply in_app_or in Hd as [Hd|Hd]; apply in_map_iff in Hd as ([n zrs] & E & Hin); cbn [fst] in E; subst n;
        [destruct (Hrecs _ zrs Hin) as ([H1 _] & H2 & _)|destruct (Hwrecs _ zrs Hin) as ([H1 _] & H2 & _)]; auto.
    - exists (t1 ++ t2), z'. split; [reflexivity|]. split; [unfold deserialise; rewrite Hloop; cbn [bind]; exact Hz'|].
      auto.
  Qed.
End Whole.
