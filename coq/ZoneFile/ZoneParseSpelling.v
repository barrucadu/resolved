(* ZoneFile/ZoneParseSpelling.v -- C11, parse_denotes beyond the canonical spelling.

   ZoneParseDenotes.v fixes one spelling per value (names lower-case, numbers and addresses as
   Display prints them, the type by its mnemonic).  Here the tokens of an entry may be RESPELLED
   ([entry_spelled]):
     names     in any ASCII letter case (a name token t is a spelling of the canonical text when
               map lower t is that text): parse_domain / parse_domain_or_wildcard fold the case
               (parse_domain_lower, pdw_lower -- for EVERY text);
     numbers   as any text <uN as FromStr> reads as the value: leading zeros, one leading '+'
               (uint_zeros, uint_plus); the TTL field: any all-digit text (a '+' there would
               make the field an owner name);
     addresses as any text the codec's FromStr reads as the value;
     the type  as any text RecordType::from_str reads as the type: the mnemonic, or TYPE<n> with
               n the code of a known type (type_code_parse);
     the wildcard at the root written "*." (its canonical text is "*..");
   under the side conditions that make a respelled entry unambiguous to parse_rr (decidable, on
   the text): an owner is not "IN", "$ORIGIN" or "$INCLUDE", and no RDATA token but the last
   reads as a type mnemonic.  [parse_denotes_spelled] is parse_denotes for such files; the
   canonical spelling is one of the spellings (lines_ok_spelled). *)
From RV Require Import Base.Prelude Name.NameModel Name.NameSpec Name.NameProofs Wire.WireTypes
     Zone.ZoneModel Zone.ZoneFlat Zone.ZoneProofs
     ZoneFile.ZoneFileModel ZoneFile.ZoneFileSpec ZoneFile.ZoneSerialiseModel
     ZoneFile.ZoneFileProofs ZoneFile.ZoneSerialiseProofs ZoneFile.ZoneRtLines ZoneFile.ZoneRtLoop
     ZoneFile.ZoneParseDenotes.

Lemma is_ascii_lower c : is_ascii (lower c) = is_ascii c.
Proof.
  unfold is_ascii. destruct (lower_cases c) as [[Hr ->]|[Hr ->]]; [|reflexivity].
  rewrite (proj2 (N.ltb_lt _ _)) by lia. rewrite (proj2 (N.ltb_lt _ _)) by lia. reflexivity.
Qed.

Lemma is_nil_map {A B} (f : A -> B) l : is_nil (map f l) = is_nil l.
Proof. destruct l; reflexivity. Qed.

Lemma forallb_ascii_lower s : forallb is_ascii (map lower s) = forallb is_ascii s.
Proof. induction s as [|c s IH]; [reflexivity|]. cbn [map forallb]. rewrite is_ascii_lower, IH. reflexivity. Qed.

Lemma last_opt_map {A B} (f : A -> B) : forall l, last_opt (map f l) = option_map f (last_opt l).
Proof.
  induction l as [|x l IH]; [reflexivity|]. destruct l as [|y l]; [reflexivity|].
  change (last_opt (map f (x :: y :: l))) with (last_opt (map f (y :: l))).
  change (last_opt (x :: y :: l)) with (last_opt (y :: l)). exact IH.
Qed.

Lemma ends_with_dot_lower s : ends_with_dot (map lower s) = ends_with_dot s.
Proof.
  unfold ends_with_dot. rewrite <- map_rev. destruct (rev s) as [|c r]; [reflexivity|]. cbn [map].
  rewrite !match_46, lower_eqb_const by lia. reflexivity.
Qed.

Lemma from_dotted_lower_app s suffix : from_dotted_string (map lower s ++ suffix) = from_dotted_string (s ++ suffix).
Proof. apply dotted_case_insensitive. unfold same_modulo_case. rewrite !map_app, map_lower_idem. reflexivity. Qed.

Lemma from_relative_lower og s : from_relative_dotted_string og (map lower s) = from_relative_dotted_string og s.
Proof.
  unfold from_relative_dotted_string. destruct s as [|c s]; [reflexivity|].
  rewrite ends_with_dot_lower.
  destruct (ends_with_dot (c :: s)); [apply from_dotted_lower|].
  rewrite !match_dot. destruct (starts_dot (to_dotted_string og)); apply from_dotted_lower_app.
Qed.

(* names are read case-insensitively: whatever the text *)
Theorem parse_domain_lower o s : parse_domain o (map lower s) = parse_domain o s.
Proof.
  unfold parse_domain. rewrite is_nil_map, forallb_ascii_lower.
  change S_AT with [64]. rewrite (leqb_lower_single s 64) by lia.
  unfold last_char. rewrite last_opt_map.
  destruct (is_nil s); [reflexivity|]. destruct (negb (forallb is_ascii s)); [reflexivity|].
  destruct (leqb s [64]); [reflexivity|].
  destruct (last_opt s) as [c|]; cbn [option_map bind]; [|reflexivity].
  rewrite (lower_eqb_const c 46) by lia. destruct (c =? 46).
  - rewrite from_dotted_lower. reflexivity.
  - destruct o as [og|]; [|reflexivity]. rewrite from_relative_lower. reflexivity.
Qed.

Lemma len_ge_map {A B} (f : A -> B) n : forall l, len_ge n (map f l) = len_ge n l.
Proof. induction n as [|n IH]; intros [|x l]; cbn [len_ge map]; try reflexivity. apply IH. Qed.
Lemma len_is_map {A B} (f : A -> B) n : forall l, len_is n (map f l) = len_is n l.
Proof. induction n as [|n IH]; intros [|x l]; cbn [len_is map]; try reflexivity. apply IH. Qed.

Theorem pdw_lower o s : parse_domain_or_wildcard o (map lower s) = parse_domain_or_wildcard o s.
Proof.
  unfold parse_domain_or_wildcard. rewrite is_nil_map.
  change S_STAR with [42]. rewrite (leqb_lower_single s 42) by lia.
  rewrite len_ge_map, len_is_map.
  destruct s as [|c0 [|c1 t]]; cbn [is_nil]; [reflexivity| |]; (destruct (leqb _ [42]); [reflexivity|]);
    cbn [len_ge map idx nth_error bind]; [rewrite (parse_domain_lower o [c0] : parse_domain o [lower c0] = _); reflexivity|].
  pose proof (parse_domain_lower o (c0 :: c1 :: t)) as E. cbn [map] in E.
  rewrite (lower_eqb_const c0 42) by lia. destruct (c0 =? 42); cbn [bind]; [|rewrite E; reflexivity].
  rewrite (lower_eqb_const c1 46) by lia. destruct (c1 =? 46); [|rewrite E; reflexivity].
  destruct t as [|c2 t]; cbn [len_is bind map]; [reflexivity|]. unfold slice_from. cbn [len_ge skipn bind].
  rewrite (parse_domain_lower o (c2 :: t) : parse_domain o (lower c2 :: map lower t) = _). reflexivity.
Qed.

(* a name token: any letter case of the canonical (lower-case) text *)
Definition name_sp (canon t : list N) : Prop := map lower t = canon.

Lemma name_sp_parse o canon t : name_sp canon t -> parse_domain o t = parse_domain o canon.
Proof. intros <-. symmetry. apply parse_domain_lower. Qed.

Lemma all_digits_lower t : all_digits t = true -> map lower t = t.
Proof.
  intro H. apply map_lower_id, Forall_forall. intros c Hc. apply is_upper_false.
  apply (proj1 (forallb_forall _ _) H), is_digit_range in Hc. lia.
Qed.

Lemma name_sp_not_digits canon t : name_sp canon t -> all_digits canon = false -> all_digits t = false.
Proof.
  intros Hsp Hc. destruct (all_digits t) eqn:E; [|reflexivity].
  unfold name_sp in Hsp. rewrite (all_digits_lower t E) in Hsp. congruence.
Qed.

Lemma digits_zeros max k : digits_loop max (repeat 48 k) 0 = Some 0.
Proof.
  induction k as [|k IH]; [reflexivity|]. destruct max; exact IH.
Qed.

Lemma repeat_isd k : Forall isd (repeat 48 k).
Proof. induction k; cbn [repeat]; constructor; [reflexivity|assumption]. Qed.

Lemma zeros_dec_ne k n : repeat 48 k ++ show_dec n <> [].
Proof. intro E. apply app_eq_nil in E as [_ E]. exact (show_dec_ne n E). Qed.

Lemma digits_zeros_dec max n k : n < 4294967296 -> n <= max -> digits_loop max (repeat 48 k ++ show_dec n) 0 = Some n.
Proof.
  intros Hn Hmax. rewrite digits_loop_app, digits_zeros. rewrite <- uint_digits by (apply show_dec_ne || apply show_dec_digits).
  apply show_dec_parse; assumption.
Qed.

(* FromStr for u8/u16/u32 reads a number written with leading zeros ... *)
Theorem uint_zeros max n k : n < 4294967296 -> n <= max -> uint_from_str max (repeat 48 k ++ show_dec n) = Some n.
Proof.
  intros Hn Hmax. rewrite uint_digits.
  - apply digits_zeros_dec; assumption.
  - apply zeros_dec_ne.
  - apply Forall_app. split; [apply repeat_isd|apply show_dec_digits].
Qed.

Lemma uint_plus_any max t : t <> [] -> uint_from_str max (43 :: t) = digits_loop max t 0.
Proof. intro H. destruct t as [|c t]; [contradiction|]. reflexivity. Qed.

(* ... and with one leading '+' *)
Theorem uint_plus max n k : n < 4294967296 -> n <= max -> uint_from_str max (43 :: repeat 48 k ++ show_dec n) = Some n.
Proof.
  intros Hn Hmax. rewrite uint_plus_any; [apply digits_zeros_dec; assumption|apply zeros_dec_ne].
Qed.

Lemma zeros_all_digits n k : all_digits (repeat 48 k ++ show_dec n) = true.
Proof.
  unfold all_digits. rewrite forallb_app. apply andb_true_iff. split; [|apply show_dec_all_digits].
  induction k; [reflexivity|exact IHk].
Qed.

(* a type token: any text RecordType::from_str reads as the type *)
Definition type_sp (ty : N) (t : list N) : Prop := rtype_from_str t = Some ty.

Theorem type_code_parse ty : rtype_known ty = true -> rtype_from_str (rtype_unknown_prefix ++ show_dec ty) = Some ty.
Proof.
  revert ty. apply known_ind. repeat constructor.
Qed.

Theorem root_wildcard_parse o : parse_domain_or_wildcard o [42; 46] = Ok (MWildcard root_domain).
Proof. reflexivity. Qed.

Lemma root_wildcard_canon o : parse_domain_or_wildcard o (oref_text (OWild (NAbs root_domain))) = Ok (MWildcard root_domain).
Proof. reflexivity. Qed.

Definition num_sp (max n : N) (t : list N) : Prop := uint_from_str max t = Some n.
Definition ttl_sp (n : N) (t : list N) : Prop := all_digits t = true /\ uint_from_str U32_MAX t = Some n.

(* an owner token: any letter case of the canonical text, or "*." for the wildcard at the root;
   not one of the three words that would make the entry something else *)
Definition owner_sp (ow : oref) (t : list N) : Prop :=
  (name_sp (oref_text ow) t \/ (ow = OWild (NAbs root_domain) /\ t = [42; 46]))
  /\ leqb t S_IN = false /\ leqb t S_ORIGIN = false /\ leqb t S_INCLUDE = false.

Section Spelled.
  Variable ip : ipcodec.
  Hypothesis Hip : codec_rt ip.

  Definition rda_sp (x : rda) (rd : list (list N)) : Prop :=
    match x, rd with
    | A_A a, [t] => parse_v4 ip t = Some a
    | A_Name r, [t] => name_sp (nref_text r) t
    | A_SOA m r a b c d e, [tm; tr; ta; tb; tc; td; te] =>
      name_sp (nref_text m) tm /\ name_sp (nref_text r) tr /\ num_sp U32_MAX a ta /\ num_sp U32_MAX b tb
      /\ num_sp U32_MAX c tc /\ num_sp U32_MAX d td /\ num_sp U32_MAX e te
    | A_Octets os, [t] => t = os
    | A_MINFO r e, [tr; te] => name_sp (nref_text r) tr /\ name_sp (nref_text e) te
    | A_MX p e, [tp; te] => num_sp U16_MAX p tp /\ name_sp (nref_text e) te
    | A_AAAA g, [t] => parse_v6 ip t = Some g
    | A_SRV p w po t, [tp; tw; tpo; ttg] =>
      num_sp U16_MAX p tp /\ num_sp U16_MAX w tw /\ num_sp U16_MAX po tpo /\ name_sp (nref_text t) ttg
    | _, _ => False
    end.

  (* the tokens of a line are a spelling of its entry *)
  Definition entry_spelled (e : option fentry) (toks : list (list N)) : Prop :=
    match e with
    | None => toks = []
    | Some (FOrigin r) => exists t, toks = [S_ORIGIN; t] /\ name_sp (nref_text r) t
    | Some (FRR x) =>
      exists o t ty rd, toks = shape_raw (frr_shape x) o t ty rd /\
        match f_owner x with Some ow => owner_sp ow o | None => o = S_AT end /\
        match f_ttl x with Some n => ttl_sp n t | None => t = [48] end /\
        type_sp (f_type x) ty /\ rda_sp (f_rd x) rd /\ inner_plain rd
    end.

  Lemma rda_sp_read o x d rd :
    origin_ok o -> rda_ok o x -> rda_resolve o x = Some d -> rda_sp x rd -> rd_reads ip o d rd.
  Proof.
    intros Ho Hx Hd Hrd.
    assert (Hn : forall r n t, nref_ok o r -> resolve o r = Some n -> name_sp (nref_text r) t -> parse_domain o t = Ok n).
    { intros r n t Hr En Ht. rewrite (name_sp_parse o _ _ Ht). apply nref_parse; assumption. }
    destruct x; repeat (destruct rd as [|? rd]; cbn [rda_sp] in Hrd; try contradiction);
      cbn [rda_ok rda_resolve] in *; unfold num_sp in *;
      repeat match goal with H : _ /\ _ |- _ => destruct H end;
      repeat match type of Hd with context [resolve o ?r] => destruct (resolve o r) eqn:?; cbn [option_map] in Hd; try discriminate Hd end;
      inversion Hd; subst; cbn [rd_reads]; repeat split; try assumption; try reflexivity; (eapply Hn; [ | |eassumption]; eassumption).
  Qed.

  (* a spelling of an entry reads as the entry *)
  Lemma spelled_reads s e toks : sp_ok s -> entry_ok s e -> entry_spelled (Some e) toks ->
    entry_reads ip (p_origin s) (Some e) toks.
  Proof.
    intros Hs He Hsp. destruct e as [r|x]; cbn [entry_ok entry_spelled entry_reads] in *.
    - destruct Hsp as (t & -> & Hname). exists t. split; [reflexivity|]. intros n En.
      rewrite (name_sp_parse _ _ _ Hname). apply nref_parse; assumption.
    - destruct He as (Hox & Htt & Hk & Hsh & Hrd). destruct Hsp as (o & t & ty & rd & -> & Ho & Ht & Hty & Hrds & Hplain).
      exists o, t, ty, rd. split; [reflexivity|]. split; [|split; [|split; [exact Hty|split; [|exact Hplain]]]].
      + destruct (f_owner x) as [ow|]; [|exact Ho]. destruct Ho as ([Hn|[-> ->]] & Hin & Hor & Hinc).
        * split; [apply (name_sp_not_digits _ _ Hn), (oref_text_facts _ _ Hs Hox)|]. repeat split; try assumption.
          intros p Hp. rewrite <- pdw_lower, Hn. apply oref_parse; assumption.
        * repeat split. intros p Hp. cbn [resolve_owner resolve option_map] in Hp. inversion Hp; subst. reflexivity.
      + destruct (f_ttl x); exact Ht.
      + intros d Hd. eapply rda_sp_read; eassumption.
  Qed.

  Definition line_ok_sp (l : fline) : Prop :=
    layout_ok false false (l_items l) = Some false /\ terminator_ok (l_term l) = true /\
    entry_spelled (l_entry l) (map wtoken_octets (items_tokens (l_items l))).

  Fixpoint lines_ok_sp (s : sp) (ls : list fline) : Prop :=
    match ls with
    | [] => True
    | l :: t => line_ok_sp l /\ (t <> [] -> nl_term (l_term l) = true) /\
                match l_entry l with
                | None => lines_ok_sp s t
                | Some e => entry_ok s e /\ match denote_entry s e with Some s' => lines_ok_sp s' t | None => True end
                end
    end.

  Lemma line_ok_sp_reads s l : sp_ok s -> match l_entry l with Some e => entry_ok s e | None => True end ->
    line_ok_sp l -> line_reads ip s l.
  Proof.
    intros Hs He (Hl & Ht & Hsp). split; [exact Hl|]. split; [exact Ht|].
    destruct (l_entry l); [apply spelled_reads; assumption|exact Hsp].
  Qed.

  (* C11, parse_denotes for respelled files *)
  Theorem parse_denotes_spelled ls apex so ops :
    lines_ok_sp sp_init ls -> denote ls = Some (apex, so, ops) ->
    exists z, deserialise ip (render ls) = Ok z /\ z_apex z = apex /\ z_soa z = so /\
              zone_build apex so ops = Ok z /\ R (labels apex) (z_records z) (flat_of_ops apex so ops).
  Proof.
    intro Hok. apply parse_denotes_reads. change (lines_gen (fun _ => line_ok_sp) sp_init ls) in Hok.
    exact (lines_gen_impl (fun _ => line_ok_sp) (line_reads ip) line_ok_sp_reads ls sp_init I Hok).
  Qed.

  (* the canonical spelling is a spelling: parse_denotes is the special case *)

  Lemma name_sp_self o r : origin_ok o -> nref_ok o r -> name_sp (nref_text r) (nref_text r).
  Proof. intros Ho Hr. unfold name_sp. apply map_lower_id. apply lc_noupper. apply (nref_text_lc o r Ho Hr). Qed.

  Lemma rda_sp_canonical o x : origin_ok o -> rda_ok o x -> rda_sp x (rda_toks ip x).
  Proof.
    intros Ho Hx. destruct x; cbn [rda_ok rda_toks rda_sp] in *; unfold num_sp;
      repeat match goal with H : _ /\ _ |- _ => destruct H end;
      repeat match goal with |- _ /\ _ => split end;
      try (eapply name_sp_self; eassumption);
      try (apply show_dec_parse; unfold U32_MAX, U16_MAX; lia);
      try reflexivity.
    - apply (proj1 (proj1 Hip a Hx)).
    - apply (proj1 (proj2 Hip g Hx)).
  Qed.

  Lemma canonical_spelled s e : sp_ok s -> entry_ok s e -> entry_spelled (Some e) (entry_toks ip (Some e)).
  Proof.
    intros Hs He. destruct e as [r|x]; cbn [entry_ok entry_spelled entry_toks] in *.
    - exists (nref_text r). split; [reflexivity|]. eapply name_sp_self; eassumption.
    - destruct He as (Hox & Htt & Hk & Hsh & Hrd).
      exists (owner_text x), (ttl_text x), (show_rtype (f_type x)), (rda_toks ip (f_rd x)). split; [reflexivity|].
      split; [|split; [|split; [|split]]].
      + unfold owner_text. destruct (f_owner x) as [ow|]; [|reflexivity].
        destruct (oref_text_facts _ _ Hs Hox) as (Hnu & _). destruct (noupper_keywords _ Hnu) as (A & B & C).
        split; [left; apply map_lower_id; exact Hnu|auto].
      + unfold ttl_text. destruct (f_ttl x) as [n|]; [|reflexivity].
        split; [apply show_dec_all_digits|apply show_dec_parse; [exact Htt|unfold U32_MAX; lia]].
      + apply show_rtype_parse. exact Hk.
      + eapply rda_sp_canonical; eassumption.
      + eapply rda_inner_plain; eassumption.
  Qed.

  Lemma lines_ok_spelled : forall ls s, sp_ok s -> lines_ok ip s ls -> lines_ok_sp s ls.
  Proof.
    intros ls s Hs H. change (lines_gen (fun _ => line_ok ip) s ls) in H. change (lines_gen (fun _ => line_ok_sp) s ls).
    revert ls s Hs H. apply lines_gen_impl. intros s l Hs He (Hl & Ht & Htok). split; [exact Hl|]. split; [exact Ht|].
    rewrite Htok. destruct (l_entry l) as [e|]; [apply (canonical_spelled s e Hs He)|reflexivity].
  Qed.
End Spelled.

(* undo shape_raw: the owner, TTL, type tokens (place-holders "@" / "0" where the shape has
   none) and the RDATA tokens *)
Definition shape_fields (sh : rr_shape) (toks : list (list N)) : option (list N * list N * list N * list (list N)) :=
  match sh, toks with
  | ShOwnerTtlClass, o :: t :: _ :: ty :: rd => Some (o, t, ty, rd)
  | ShOwnerClassTtl, o :: _ :: t :: ty :: rd => Some (o, t, ty, rd)
  | ShOwnerTtl, o :: t :: ty :: rd => Some (o, t, ty, rd)
  | ShOwnerClass, o :: _ :: ty :: rd => Some (o, [48], ty, rd)
  | ShOwner, o :: ty :: rd => Some (o, [48], ty, rd)
  | ShTtlClass, t :: _ :: ty :: rd => Some (S_AT, t, ty, rd)
  | ShClassTtl, _ :: t :: ty :: rd => Some (S_AT, t, ty, rd)
  | ShTtl, t :: ty :: rd => Some (S_AT, t, ty, rd)
  | ShClass, _ :: ty :: rd => Some (S_AT, [48], ty, rd)
  | ShBare, ty :: rd => Some (S_AT, [48], ty, rd)
  | _, _ => None
  end.

Definition name_spb (canon t : list N) : bool := leqb (map lower t) canon.
Definition num_spb (max n : N) (t : list N) : bool :=
  match uint_from_str max t with Some v => v =? n | None => false end.

Definition owner_spb (ow : oref) (t : list N) : bool :=
  (name_spb (oref_text ow) t
   || match ow with OWild (NAbs n) => dname_eqb n root_domain && leqb t [42; 46] | _ => false end)
  && negb (leqb t S_IN) && negb (leqb t S_ORIGIN) && negb (leqb t S_INCLUDE).

Fixpoint inner_plainb (rd : list (list N)) : bool :=
  match rd with
  | [] => true
  | [_] => true
  | t :: rest => match rtype_from_str t with None => inner_plainb rest | Some _ => false end
  end.

Lemma name_spb_sound canon t : name_spb canon t = true -> name_sp canon t.
Proof. apply leqb_eq. Qed.

Lemma num_spb_sound max n t : num_spb max n t = true -> num_sp max n t.
Proof. unfold num_spb, num_sp. destruct (uint_from_str max t) as [v|]; [|discriminate]. intro H. apply N.eqb_eq in H. subst. reflexivity. Qed.

Lemma owner_spb_sound ow t : owner_spb ow t = true -> owner_sp ow t.
Proof.
  unfold owner_spb, owner_sp. intro H.
  apply andb_true_iff in H as [H H4]. apply andb_true_iff in H as [H H3]. apply andb_true_iff in H as [H1 H2].
  split; [|repeat split; apply negb_true_iff; assumption].
  apply orb_true_iff in H1 as [H1|H1]; [left; apply name_spb_sound; exact H1|right].
  destruct ow as [r| |r]; try discriminate. destruct r as [n|pre|]; try discriminate.
  apply andb_true_iff in H1 as [E1 E2]. apply dname_eqb_eq in E1. apply leqb_eq in E2. subst. split; reflexivity.
Qed.

Lemma inner_plainb_sound : forall rd, inner_plainb rd = true -> inner_plain rd.
Proof.
  induction rd as [|t rest IH]; intro H; [exact I|]. destruct rest as [|t2 rest2]; [exact I|].
  cbn [inner_plainb] in H. cbn [inner_plain]. destruct (rtype_from_str t); [discriminate|]. split; [reflexivity|apply IH; exact H].
Qed.

Section SpellChecker.
  Variable ip : ipcodec.

  Definition rda_spb (x : rda) (rd : list (list N)) : bool :=
    match x, rd with
    | A_A a, [t] => match parse_v4 ip t with Some v => v =? a | None => false end
    | A_Name r, [t] => name_spb (nref_text r) t
    | A_SOA m r a b c d e, [tm; tr; ta; tb; tc; td; te] =>
      name_spb (nref_text m) tm && name_spb (nref_text r) tr && num_spb U32_MAX a ta && num_spb U32_MAX b tb
      && num_spb U32_MAX c tc && num_spb U32_MAX d td && num_spb U32_MAX e te
    | A_Octets os, [t] => leqb t os
    | A_MINFO r e, [tr; te] => name_spb (nref_text r) tr && name_spb (nref_text e) te
    | A_MX p e, [tp; te] => num_spb U16_MAX p tp && name_spb (nref_text e) te
    | A_AAAA g, [t] => match parse_v6 ip t with Some v => leqb v g | None => false end
    | A_SRV p w po t, [tp; tw; tpo; ttg] =>
      num_spb U16_MAX p tp && num_spb U16_MAX w tw && num_spb U16_MAX po tpo && name_spb (nref_text t) ttg
    | _, _ => false
    end.

  Lemma rda_spb_sound x rd : rda_spb x rd = true -> rda_sp ip x rd.
  Proof.
    destruct x; cbn [rda_spb rda_sp];
      repeat (let t := fresh "t" in destruct rd as [|t rd]; try discriminate);
      intro H;
      repeat match goal with H : (_ && _) = true |- _ => apply andb_true_iff in H; destruct H end;
      repeat match goal with H : name_spb _ _ = true |- _ => apply name_spb_sound in H end;
      repeat match goal with H : num_spb _ _ _ = true |- _ => apply num_spb_sound in H end;
      auto 10.
    - destruct (parse_v4 ip t) as [v|]; [|discriminate]. apply N.eqb_eq in H. subst. reflexivity.
    - apply leqb_eq. exact H.
    - destruct (parse_v6 ip t) as [v|]; [|discriminate]. apply leqb_eq in H. subst. reflexivity.
  Qed.

  Definition entry_spelledb (e : option fentry) (toks : list (list N)) : bool :=
    match e with
    | None => is_nil toks
    | Some (FOrigin r) => match toks with [k; t] => leqb k S_ORIGIN && name_spb (nref_text r) t | _ => false end
    | Some (FRR x) =>
      match shape_fields (frr_shape x) toks with
      | Some (o, t, ty, rd) =>
        lleqb2 toks (shape_raw (frr_shape x) o t ty rd)
        && match f_owner x with Some ow => owner_spb ow o | None => leqb o S_AT end
        && match f_ttl x with Some n => all_digits t && num_spb U32_MAX n t | None => leqb t [48] end
        && match rtype_from_str ty with Some v => v =? f_type x | None => false end
        && rda_spb (f_rd x) rd && inner_plainb rd
      | None => false
      end
    end.

  Lemma entry_spelledb_sound e toks : entry_spelledb e toks = true -> entry_spelled ip e toks.
  Proof.
    destruct e as [[r|x]|]; cbn [entry_spelledb entry_spelled].
    - destruct toks as [|k [|t [|? ?]]]; try discriminate. intro H. apply andb_true_iff in H as [H1 H2].
      apply leqb_eq in H1. subst k. exists t. split; [reflexivity|apply name_spb_sound; exact H2].
    - destruct (shape_fields (frr_shape x) toks) as [[[[o t] ty] rd]|]; [|discriminate]. intro H.
      repeat match goal with H : (_ && _) = true |- _ => apply andb_true_iff in H; destruct H end.
      exists o, t, ty, rd. split; [apply lleqb2_eq; assumption|].
      split; [destruct (f_owner x); [apply owner_spb_sound; assumption|apply leqb_eq; assumption]|].
      split.
      { destruct (f_ttl x) as [n|]; [|apply leqb_eq; assumption].
        match goal with H : (_ && _) = true |- _ => apply andb_true_iff in H; destruct H end.
        split; [assumption|apply num_spb_sound; assumption]. }
      split.
      { unfold type_sp. destruct (rtype_from_str ty) as [v|]; [|discriminate].
        match goal with H : (v =? _) = true |- _ => apply N.eqb_eq in H; subst v end. reflexivity. }
      split; [apply rda_spb_sound; assumption|apply inner_plainb_sound; assumption].
    - destruct toks; [reflexivity|discriminate].
  Qed.

  Definition line_ok_spb (l : fline) : bool :=
    match layout_ok false false (l_items l) with Some false => true | _ => false end
    && terminator_ok (l_term l)
    && entry_spelledb (l_entry l) (map wtoken_octets (items_tokens (l_items l))).

  Fixpoint lines_ok_spb (s : sp) (ls : list fline) : bool :=
    match ls with
    | [] => true
    | l :: t => line_ok_spb l && (is_nil t || nl_term (l_term l)) &&
                match l_entry l with
                | None => lines_ok_spb s t
                | Some e => entry_okb s e && match denote_entry s e with Some s' => lines_ok_spb s' t | None => true end
                end
    end.

  Lemma lines_ok_spb_sound : forall ls s, lines_ok_spb s ls = true -> lines_ok_sp ip s ls.
  Proof.
    induction ls as [|l t IH]; intros s H; [exact I|]. cbn [lines_ok_spb lines_ok_sp] in *.
    apply andb_true_iff in H as [H H3]. apply andb_true_iff in H as [H1 H2].
    split; [|split].
    - unfold line_ok_spb in H1. apply andb_true_iff in H1 as [H1 Hc]. apply andb_true_iff in H1 as [Ha Hb].
      split; [destruct (layout_ok false false (l_items l)) as [[|]|]; try discriminate; reflexivity|].
      split; [exact Hb|apply entry_spelledb_sound; exact Hc].
    - intro Hne. destruct t; [contradiction|]. exact H2.
    - destruct (l_entry l) as [e|]; [|apply IH; exact H3].
      apply andb_true_iff in H3 as [He Hr]. split; [apply entry_okb_sound; exact He|].
      destruct (denote_entry s e); [apply IH; exact Hr|exact I].
  Qed.
End SpellChecker.

Lemma star_owner_rel o pre : pre <> [] ->
  oref_text (OName (NRel (S_STAR :: pre))) = oref_text (OWild (NRel pre)) /\
  resolve_owner o (OName (NRel (S_STAR :: pre))) = resolve_owner o (OWild (NRel pre)).
Proof.
  intro Hne. destruct pre as [|l0 pre']; [contradiction|]. split; [reflexivity|].
  destruct o as [og|]; [|reflexivity]. reflexivity.
Qed.

Lemma star_owner_abs o front : good_front front -> front <> [] ->
  oref_text (OName (NAbs (mk (S_STAR :: front)))) = oref_text (OWild (NAbs (mk front))) /\
  resolve_owner o (OName (NAbs (mk (S_STAR :: front)))) = resolve_owner o (OWild (NAbs (mk front))).
Proof.
  intros Hf Hne. split.
  - cbn [oref_text nref_text]. rewrite (to_dotted_mk front Hf Hne), to_dotted_mk; [reflexivity| |discriminate].
    constructor; [|exact Hf]. split; [discriminate|]. split; [cbv; discriminate|]. repeat constructor.
  - destruct front as [|f0 front']; [contradiction|]. reflexivity.
Qed.
