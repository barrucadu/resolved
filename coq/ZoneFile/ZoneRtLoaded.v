(* ZoneFile/ZoneRtLoaded.v -- C13: every zone Zone::deserialise returns is a [built] zone of
   ZoneRoundTrip.v (names well formed with ASCII dot-free labels, the 18 record types, RDATA
   in range, an ordinary owner's leftmost label never "*" -- parse_domain_or_wildcard's last
   branch makes such an owner a wildcard --, the apex the root or the owner of the SOA), so
   zone_roundtrip applies to it (ZoneRtFinal.loaded_roundtrip).

   Needs of the address codec only that FromStr yields values in range ([codec_range]). *)
From RV Require Import Base.Prelude Name.NameModel Name.NameSpec Name.NameProofs Wire.WireTypes
     Zone.ZoneModel Zone.ZoneFlat Zone.ZoneProofs
     ZoneFile.ZoneFileModel ZoneFile.ZoneFileSpec ZoneFile.ZoneSerialiseModel
     ZoneFile.ZoneFileProofs ZoneFile.ZoneSerialiseProofs ZoneFile.ZoneRtLines ZoneFile.ZoneRtLoop
     ZoneFile.ZoneRoundTrip.

Definition codec_range (ip : ipcodec) : Prop :=
  (forall s a, parse_v4 ip s = Some a -> a < 4294967296) /\ (forall s g, parse_v6 ip s = Some g -> v6_ok g).

Lemma in_dotjoin c cs : In c cs -> incl c (dotjoin cs).
Proof.
  intros Hin x Hx. induction cs as [|d cs IH]; [destruct Hin|]. rewrite dotjoin_cons.
  destruct Hin as [->|Hin]; [apply in_or_app; left; exact Hx|]. apply in_or_app. right. right. apply IH. exact Hin.
Qed.

Lemma lower_ascii b : b < 128 -> lower b < 128.
Proof. intro H. destruct (lower_cases b) as [[Hr ->]|[_ ->]]; lia. Qed.

(* a name read from ASCII text has ASCII dot-free labels *)
Lemma dotted_ascii s n : forallb is_ascii s = true -> from_dotted_string s = Some n -> ascii_nodot n.
Proof.
  intros Ha H. destruct (list_eq_dec N.eq_dec s [46]) as [->|Hs].
  - change (from_dotted_string [46]) with (Some root_domain) in H. inversion H. apply root_name_ok.
  - destruct (dotted_inv s n Hs H) as (cs & _ & Hj & Hok & Hl & _).
    unfold ascii_nodot. rewrite Hl. apply Forall_app. split; [|repeat constructor].
    apply Forall_map. apply Forall_forall. intros c Hc. rewrite Forall_forall in Hok. destruct (Hok c Hc) as (_ & Hnd & _).
    assert (Hca : Forall (fun b => b < 128) c).
    { apply Forall_forall. intros b Hb. rewrite forallb_forall in Ha.
      assert (Hin : In b s) by (rewrite Hj; apply (in_dotjoin c cs Hc); exact Hb).
      apply Ha in Hin. unfold is_ascii in Hin. apply N.ltb_lt in Hin. exact Hin. }
    unfold lab. rewrite (utf8_ascii c Hca). apply Forall_map. apply Forall_forall. intros b Hb.
    rewrite Forall_forall in Hca. split; [apply lower_ascii, Hca, Hb|].
    intro E. apply (proj1 (lower_eq_46 b)) in E. rewrite E in Hb. exact (Hnd Hb).
Qed.

Lemma oname_wf o : optP name_ok o -> wf_opt o.
Proof. destruct o; [intros [H _]; exact H|auto]. Qed.

Lemma good_ok {E A} (P : A -> Prop) (r : res E A) a : good P r -> r = Ok a -> P a.
Proof. intros H ->. exact H. Qed.

Lemma parse_domain_ok origin s n : optP name_ok origin -> parse_domain origin s = Ok n -> name_ok n.
Proof.
  intros Ho H. split; [exact (good_ok _ _ _ (parse_domain_good origin s (oname_wf _ Ho)) H)|].
  unfold parse_domain in H.
  destruct (is_nil s) eqn:En; [discriminate|].
  destruct (forallb is_ascii s) eqn:Ea; cbn [negb] in H; [|discriminate].
  destruct (leqb s S_AT).
  - destruct origin as [o|]; cbn [of_opt] in H; [|discriminate]. inversion H; subst. apply Ho.
  - destruct (last_char_ok (E:=zerr) s En) as [c Hc]. rewrite Hc in H. cbn [bind] in H.
    destruct (c =? 46).
    + destruct (from_dotted_string s) as [m|] eqn:E; cbn [of_opt] in H; [|discriminate]. inversion H; subst.
      eapply dotted_ascii; eassumption.
    + destruct origin as [o|]; [|discriminate].
      destruct (from_relative_dotted_string o s) as [m|] eqn:E; cbn [of_opt] in H; [|discriminate]. inversion H; subst.
      rewrite from_rel_nonempty in E by (destruct s; [discriminate|discriminate]).
      pose proof (lc_ascii _ (to_dotted_lc o Ho)) as Hoa.
      destruct (ends_with_dot s); [eapply dotted_ascii; [exact Ea|exact E]|].
      destruct (starts_dot (to_dotted_string o)); (eapply dotted_ascii; [|exact E]); rewrite forallb_app; rewrite Ea; cbn [andb forallb]; rewrite ?Hoa; reflexivity.
Qed.

Definition mw_ok (w : mwild) : Prop :=
  name_ok (mw_name w) /\ match w with MNormal n => first_label n <> S_STAR | MWildcard _ => True end.

(* an ordinary owner never has the leftmost label "*" (the last branch of parse_domain_or_wildcard) *)
Lemma normal_or_star_ok name w : name_ok name -> normal_or_star name = Ok w -> mw_ok w.
Proof.
  intros Hn H. unfold normal_or_star in H.
  destruct (labels name) as [|l0 [|l1 t]] eqn:El; cbn [len_ge idx nth_error bind slice_from skipn] in H.
  - inversion H; subst. split; [exact Hn|]. unfold first_label. rewrite El. discriminate.
  - inversion H; subst. split; [exact Hn|]. unfold first_label. rewrite El.
    destruct (name_ok_dest _ Hn) as (front & E & _). rewrite E in El. cbn [mk labels] in El.
    destruct front as [|x [|y f]]; cbn [app] in El; inversion El; subst; discriminate.
  - destruct (leqb l0 S_STAR) eqn:Es; cbn [bind] in H.
    + destruct (from_labels (l1 :: t)) as [parent|] eqn:F.
      * inversion H; subst. split; [|exact I]. cbn [mw_name].
        destruct Hn as [Hw Ha]. unfold ascii_nodot in Ha. rewrite El in Ha. apply Forall_cons_iff in Ha as [_ Ha].
        assert (Hwl : Forall wf_label (l1 :: t)).
        { destruct Hw as [Hl _]. apply wf_labels_all in Hl. rewrite El in Hl. apply Forall_cons_iff in Hl. apply Hl. }
        destruct (from_labels_wf _ _ Hwl F) as [Hpw Hpl]. split; [exact Hpw|]. unfold ascii_nodot. rewrite Hpl. exact Ha.
      * exfalso. pose proof (from_labels_of_wf name (proj1 Hn)) as Hf. rewrite El in Hf.
        destruct (from_labels_suffix [l0] (l1 :: t) name Hf ltac:(discriminate)) as (m & Hm & _). congruence.
    + inversion H; subst. split; [exact Hn|]. unfold first_label. rewrite El. intro E. rewrite E in Es. discriminate.
Qed.

Lemma pdw_ok origin s w : optP name_ok origin -> parse_domain_or_wildcard origin s = Ok w -> mw_ok w.
Proof.
  intros Ho H. unfold parse_domain_or_wildcard in H.
  destruct (is_nil s); [discriminate|].
  destruct (leqb s S_STAR).
  { destruct origin as [o|]; [|discriminate]. inversion H; subst. split; [exact Ho|exact I]. }
  assert (Hn : forall x, (let* name := parse_domain origin x in normal_or_star name) = Ok w -> mw_ok w).
  { intros x Hx. destruct (parse_domain origin x) as [n| | |] eqn:E; cbn [bind] in Hx; try discriminate.
    eapply normal_or_star_ok; [eapply parse_domain_ok; eassumption|exact Hx]. }
  destruct s as [|c0 [|c1 t]]; cbn [len_ge len_is idx nth_error bind slice_from skipn] in H; try (apply (Hn _ H)).
  destruct (c0 =? 42); cbn [bind] in H; [|apply (Hn _ H)].
  destruct (c1 =? 46); [|apply (Hn _ H)].
  destruct t as [|c2 t']; cbn [len_is bind] in H.
  - inversion H; subst. split; [apply root_name_ok|exact I].
  - destruct (parse_domain origin (c2 :: t')) as [n| | |] eqn:E; cbn [bind] in H; try discriminate.
    inversion H; subst. split; [eapply parse_domain_ok; eassumption|exact I].
Qed.

Definition td_ok (td : N * rdata) : Prop :=
  rtype_known (fst td) = true /\ shape_of_rdata (snd td) = shape_of_type (fst td) /\ rdata_ok (snd td).

Lemma digits_loop_le max : forall ds acc v, acc <= max -> digits_loop max ds acc = Some v -> v <= max.
Proof.
  induction ds as [|c t IH]; intros acc v Ha H; cbn [digits_loop] in H; [inversion H; subst; exact Ha|].
  destruct (to_digit c) as [d|]; [|discriminate]. cbv zeta in H.
  destruct (acc * 10 + d <=? max) eqn:E; [|discriminate]. apply N.leb_le in E. eapply IH; eassumption.
Qed.

Lemma uint_le max s v : uint_from_str max s = Some v -> v <= max.
Proof.
  unfold uint_from_str. destruct s as [|c [|c' t]]; [discriminate| |].
  - destruct ((c =? 43) || (c =? 45)); [discriminate|]. apply digits_loop_le. lia.
  - destruct (c =? 43); apply digits_loop_le; lia.
Qed.

Lemma uint_u32 s v : uint_from_str U32_MAX s = Some v -> v < 4294967296.
Proof. intro H. apply uint_le in H. unfold U32_MAX in H. lia. Qed.
Lemma uint_u16 s v : uint_from_str U16_MAX s = Some v -> v < 65536.
Proof. intro H. apply uint_le in H. unfold U16_MAX in H. lia. Qed.

Lemma opt_of_res_some {E A} (r : res E A) a : opt_of_res r = Ok (Some a) -> r = Ok a.
Proof. destruct r; cbn [opt_of_res]; intro H; inversion H; reflexivity. Qed.

(* takes apart a hypothesis [f .. = Ok _] made of binds, ifs and option matches; closes the impossible cases *)
Ltac invs :=
  repeat match goal with
         | H : ?x = ?x |- _ => clear H
         | H : Err _ = Ok _ |- _ => discriminate H
         | H : Panic = Ok _ |- _ => discriminate H
         | H : OutOfFuel = Ok _ |- _ => discriminate H
         | H : None = Some _ |- _ => discriminate H
         | H : Ok _ = Ok _ |- _ => inversion H; clear H; subst
         | H : Some _ = Some _ |- _ => inversion H; clear H; subst
         | H : bind ?r _ = Ok _ |- _ => let E := fresh "E" in destruct r eqn:E; cbn [bind] in H
         | H : (if ?b then _ else _) = Ok _ |- _ => let B := fresh "B" in destruct b eqn:B
         | H : match ?x with Some _ => _ | None => _ end = Ok _ |- _ => let E := fresh "E" in destruct x eqn:E
         | H : match ?x with Some _ => _ | None => _ end = Some _ |- _ => let E := fresh "E" in destruct x eqn:E
         end.

(* from [is_name_type ty = true] / [is_octets_type ty = true] / [(ty =? c) = true]: the type code itself *)
Ltac ty_cases :=
  repeat match goal with
         | B : is_name_type _ = true |- _ => unfold is_name_type in B
         | B : is_octets_type _ = true |- _ => unfold is_octets_type in B
         | B : (_ || _) = true |- _ => apply orb_true_iff in B; destruct B as [B|B]
         | B : (?ty =? _) = true |- _ => apply N.eqb_eq in B; subst ty
         end.

Section LoadedZones.
  Variable ip : ipcodec.
  Hypothesis Hc : codec_range ip.

  Lemma try_parse_ok origin toks td : optP name_ok origin -> Forall tok_ok toks ->
    try_parse_rtype_with_data ip origin toks = Ok (Some td) -> td_ok td.
  Proof.
    intros Ho Ht H. unfold try_parse_rtype_with_data in H. unfold tok_ok in Ht.
    destruct toks as [|t0 [|t1 [|t2 [|t3 [|t4 [|t5 [|t6 [|t7 [|t8 r]]]]]]]]];
      cbn [is_nil idx nth_error bind len_is] in H; try discriminate;
      (destruct (rtype_from_str (fst t0)) as [ty|]; [|discriminate]);
      repeat (apply Forall_cons_iff in Ht as [? Ht]);
      invs; ty_cases; (split; [reflexivity|split; [reflexivity|]]); cbn [snd rdata_ok];
      repeat match goal with |- _ /\ _ => split end;
      try assumption;
      try (eapply parse_domain_ok; [exact Ho|apply opt_of_res_some; eassumption]);
      try (eapply uint_u32; eassumption); try (eapply uint_u16; eassumption).
    - eapply (proj1 Hc); eassumption.
    - eapply (proj2 Hc); eassumption.
  Qed.

  Lemma parse_u32_lt s v : parse_u32 s = Ok v -> v < 4294967296.
  Proof. unfold parse_u32. destruct (uint_from_str U32_MAX s) eqn:E; cbn [of_opt]; intro H; inversion H; subst. eapply uint_u32; eassumption. Qed.

  Lemma td_nonsoa ty d : td_ok (ty, d) -> match d with RD_SOA _ _ _ _ _ _ _ => False | _ => True end -> ty <> RT_SOA.
  Proof. intros (_ & Hs & _) Hd E. subst ty. cbn [fst snd] in Hs. destruct d; try discriminate Hs. exact Hd. Qed.

  (* the state of the main loop holds only what the zone-file syntax can express: the pass over the parser of
     ZoneFileProofs.v with these predicates *)
  Definition loaded_P : dstate -> Prop := st_P name_ok mw_ok td_ok (fun t => t < 4294967296).

  Lemma deser_loop_loaded fuel s st : (length s < length fuel)%nat -> deser_loop ip fuel dstate_init s = Ok st -> loaded_P st.
  Proof.
    intros Hlen. apply good_ok. apply (deser_loop_good ip name_ok mw_ok td_ok (fun t => t < 4294967296)); try exact Hlen.
    - intros o s0 Ho. apply good_intro; [apply parse_domain_total|intro n; apply parse_domain_ok, Ho].
    - intros o s0 Ho. apply good_intro; [apply pdw_total|intro w; apply pdw_ok, Ho].
    - intros o toks Ho Ht. apply good_intro; [exact (good_total _ _ (try_parse_good ip o toks (oname_wf o Ho)))|].
      intros [td|] E; [exact (try_parse_ok o toks td Ho Ht E)|exact I].
    - intro s0. apply good_intro; [exact (good_total _ _ (parse_u32_good s0))|apply parse_u32_lt].
    - lia.
    - intros ty m r a b c e f (_ & _ & Hd). apply Hd.
    - apply st_P_init.
  Qed.

  Lemma insert_all_as_apply w : forall rrs z z', insert_all w rrs z = Ok z' -> zone_apply_all z (map (op_of_rr w) rrs) = Ok z'.
  Proof.
    induction rrs as [|r t IH]; intros z z' H; cbn [insert_all map zone_apply_all] in *; [inversion H; reflexivity|].
    destruct (is_subdomain_of (rr_name r) (z_apex z)); cbn [negb] in H; [|discriminate].
    unfold zone_apply. cbn [op_of_rr op_wild op_name op_type op_data op_ttl].
    destruct (zone_insert w z (rr_name r) (rr_type r) (rr_data r) (rr_ttl r)); cbn [lift_unit bind] in *; try discriminate. apply IH, H.
  Qed.

  (* C13: what the parser returns is a zone of the class zone_roundtrip is about *)
  Theorem loaded_built data z : deserialise ip data = Ok z -> built z.
  Proof.
    intro Hd. destruct (no_partial_load ip data z Hd) as (st & Hloop & Hasm).
    pose proof (deser_loop_loaded (0 :: data) data st ltac:(cbn [length]; lia) Hloop) as (H1 & H2 & H3 & _).
    set (apex := match d_apex_soa st with Some (a, _) => a | None => root_domain end).
    set (so := match d_apex_soa st with Some (_, s) => Some s | None => None end).
    assert (Hh : head_ok apex so).
    { unfold apex, so. destruct (d_apex_soa st) as [[a s]|]; [destruct H3 as ([Hn Hf] & ty & _ & _ & Hs); exact (conj Hn (conj Hf Hs))|].
      split; [apply root_name_ok|]. split; [discriminate|reflexivity]. }
    (* the assembly step is Zone::new followed by the insertions *)
    unfold assemble in Hasm. rewrite !rev'_rev in Hasm.
    assert (E0 : match d_apex_soa st with Some (apex0, s) => zone_new apex0 (Some s) | None => zone_new root_domain None end
                 = zone_new apex so).
    { unfold apex, so. destruct (d_apex_soa st) as [[a s]|]; reflexivity. }
    rewrite E0 in Hasm.
    destruct (insert_all false (rev (d_rrs st)) (zone_new apex so)) as [z1| | |] eqn:I1; cbn [bind] in Hasm; try discriminate.
    apply insert_all_as_apply in I1. apply insert_all_as_apply in Hasm.
    exists apex, so, (map (op_of_rr false) (rev (d_rrs st)) ++ map (op_of_rr true) (rev (d_wrrs st))).
    split; [exact Hh|]. split; [|unfold zone_build; rewrite zone_apply_all_app, I1; exact Hasm].
    apply Forall_app. split; apply Forall_forall; intros o Ho; apply in_map_iff in Ho as (r & <- & Hr); apply in_rev in Hr.
    - rewrite Forall_forall in H1. destruct (H1 r Hr) as [([Hn Hf] & Htd & Httl) Hns].
      pose proof (td_nonsoa _ _ Htd Hns). destruct Htd as (Hk & Hs & Hrd).
      unfold op_src_ok. cbn [op_of_rr op_name op_wild op_type op_data op_ttl fst snd] in *. auto 10.
    - rewrite Forall_forall in H2. destruct (H2 r Hr) as [([Hn _] & (Hk & Hs & Hrd) & Httl) Hns].
      unfold op_src_ok. cbn [op_of_rr op_name op_wild op_type op_data op_ttl fst snd] in *.
      split; [exact Hn|]. split; [discriminate|]. auto 10.
  Qed.
End LoadedZones.
