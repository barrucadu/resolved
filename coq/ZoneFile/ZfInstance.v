(* ZoneFile/ZfInstance.v -- the zone-file model instantiated with the address codec of
   Ip/IpModel.v (std's Ipv4Addr / Ipv6Addr FromStr and Display): what the model driver runs.
   The zone-file theorems hold for every codec; ZoneRtCodec.v shows that this one meets their
   two hypotheses, which gives the zf_* theorems of C11 and C13. *)
From RV Require Import Base.Prelude Name.NameModel Wire.WireTypes Zone.ZoneModel Ip.IpModel
     ZoneFile.ZoneFileModel ZoneFile.ZoneSerialiseModel.

(* Ipv6Addr::from_str = parse_with(read_ipv6_addr): the whole input must be consumed *)
Definition ip_parse_v6 (s : list N) : option (list N) :=
  match IpModel.read_ipv6_addr (utf8 s) with
  | Some (g, rest) => if is_nil rest then Some g else None
  | None => None
  end.

Definition zf_codec : ipcodec :=
  {| parse_v4 := IpModel.parse_v4; parse_v6 := ip_parse_v6;
     show_v4 := IpModel.show_v4; show_v6 := IpModel.show_v6 |}.
Definition zf_deserialise (data : list N) : res zerr zone := deserialise zf_codec data.
Definition zf_serialise (z : zone) : res unit (list N) := zone_serialise zf_codec z.
