(* ZoneFile/ZoneSerialiseProofs.v -- proofs about ZoneFile/ZoneSerialiseModel.v (C13).
   The escape level: what serialise_octets writes for an octet string is read back by the
   tokeniser as exactly that octet string, for every octet 0..255 and both quoting modes. *)
From RV Require Import Base.Prelude Name.NameModel Name.NameProofs ZoneFile.ZoneFileModel ZoneFile.ZoneFileSpec
     ZoneFile.ZoneSerialiseModel ZoneFile.ZoneFileProofs.

(* how serialise_octets writes one octet, as a [piece] of the layout specification *)
Definition piece_of (quoted : bool) (o : N) : piece :=
  if existsb (N.eqb o) zone_escape_set then PEscX o
  else if (o <? zone_escape_lo) || (zone_escape_hi <? o) || ((o =? zone_escape_space) && negb quoted)
       then PEscD o
       else PRaw o.

Definition ser_token (quoted : bool) (bs : list N) : wtoken :=
  {| wt_quoted := quoted; wt_pieces := map (piece_of quoted) bs |}.

(* finite sweeps over the 256 octets (re-checked against the constants that
   tools/tables.py reads from serialise.rs) *)
Lemma piece_of_text q o : o < 256 -> piece_text (piece_of q o) = esc_octet q o.
Proof.
  intro H. apply leqb_eq. revert o H. apply (N_lt_sweep _ 256). destruct q; vm_compute; reflexivity.
Qed.

Lemma piece_of_ok q o : o < 256 -> piece_ok q (piece_of q o) = true.
Proof. revert o. apply (N_lt_sweep _ 256). destruct q; vm_compute; reflexivity. Qed.

Lemma piece_of_octet q o : piece_octet (piece_of q o) = o.
Proof. unfold piece_of. repeat match goal with |- context [if ?b then _ else _] => destruct b end; reflexivity. Qed.

Lemma ser_token_text q bs : Forall (fun o => o < 256) bs -> wtoken_text (ser_token q bs) = serialise_octets bs q.
Proof.
  intro H. unfold wtoken_text, ser_token, serialise_octets. cbn [wt_quoted wt_pieces].
  assert (E : pieces_text (map (piece_of q) bs) = flat_map (esc_octet q) bs).
  { induction H as [|o t Ho Ht IH]; [reflexivity|]. cbn [map flat_map]. rewrite pieces_text_cons, IH, piece_of_text by exact Ho. reflexivity. }
  rewrite E. destruct q; [reflexivity|]. rewrite app_nil_r. reflexivity.
Qed.

Lemma ser_token_octets q bs : wtoken_octets (ser_token q bs) = bs.
Proof.
  unfold wtoken_octets, ser_token. cbn [wt_pieces]. induction bs as [|o t IH]; [reflexivity|].
  cbn [map]. rewrite piece_of_octet, IH. reflexivity.
Qed.

Lemma ser_token_ok q bs : Forall (fun o => o < 256) bs -> q = true \/ bs <> [] -> wtoken_ok (ser_token q bs) = true.
Proof.
  intros H Hne. unfold wtoken_ok, ser_token. cbn [wt_quoted wt_pieces]. apply andb_true_iff. split.
  - destruct Hne as [-> | Hne]; [reflexivity|]. destruct bs; [congruence|]. destruct q; reflexivity.
  - clear Hne. induction H as [|o t Ho Ht IH]; [reflexivity|]. cbn [map forallb].
    rewrite piece_of_ok by exact Ho. exact IH.
Qed.

(* C13 escape_roundtrip: the text serialise_octets writes for bs is read back as the single
   token bs -- every octet 0..255, quoted or not (an unquoted token cannot be empty) -- whatever
   ends the entry *)
Theorem escape_roundtrip bs quoted t rest :
  Forall (fun o => o < 256) bs -> quoted = true \/ bs <> [] -> terminator_ok t = true ->
  tokenise_entry (serialise_octets bs quoted ++ terminator_text t rest)
  = Ok ([dup bs], terminator_rest t rest).
Proof.
  intros H Hne Ht.
  pose proof (tokenise_render [ITok (ser_token quoted bs)] t rest) as R.
  unfold items_text in R. cbn [flat_map item_text items_tokens map layout_ok] in R.
  rewrite (ser_token_ok quoted bs H Hne), ser_token_text, ser_token_octets, app_nil_r in R by exact H.
  apply R; [reflexivity|exact Ht].
Qed.

(* ... and anywhere inside an entry: an entry whose tokens are written by serialise_octets and
   laid out in the layout family is read back as those octet strings *)
Theorem escape_roundtrip_entry items t rest :
  layout_ok false false items = Some false -> terminator_ok t = true ->
  tokenise_entry (items_text items ++ terminator_text t rest)
  = Ok (map dup (map wtoken_octets (items_tokens items)), terminator_rest t rest)
  /\ (forall q bs, Forall (fun o => o < 256) bs -> (q = true \/ bs <> []) ->
                   item_text (ITok (ser_token q bs)) = serialise_octets bs q
                   /\ wtoken_octets (ser_token q bs) = bs /\ wtoken_ok (ser_token q bs) = true).
Proof.
  intros Hl Ht. split; [apply tokenise_render; assumption|].
  intros q bs H Hne. split; [apply ser_token_text; exact H|split; [apply ser_token_octets|apply ser_token_ok; assumption]].
Qed.

(* what serialise_octets writes is printable ASCII: no white space but the space inside quotes,
   no control character, nothing above 126 *)
Lemma esc_octet_printable q o : o < 256 -> forallb (fun c => (32 <=? c) && (c <=? 126)) (esc_octet q o) = true.
Proof. revert o. apply (N_lt_sweep _ 256). destruct q; vm_compute; reflexivity. Qed.

Theorem serialise_octets_ascii bs q :
  Forall (fun o => o < 256) bs -> Forall (fun c => 32 <= c <= 126) (serialise_octets bs q).
Proof.
  intro H. unfold serialise_octets.
  assert (Hq : Forall (fun c => 32 <= c <= 126) (if q then [34] else [])) by (destruct q; repeat constructor; lia).
  apply Forall_app. split; [exact Hq|]. apply Forall_app. split; [|exact Hq].
  induction H as [|o t Ho Ht IH]; [constructor|]. cbn [flat_map]. apply Forall_app. split; [|exact IH].
  pose proof (esc_octet_printable q o Ho) as Hp. rewrite forallb_forall in Hp. apply Forall_forall. intros c Hc.
  apply Hp in Hc. apply andb_true_iff in Hc as [H1 H2]. apply N.leb_le in H1. apply N.leb_le in H2. lia.
Qed.

Example escape_roundtrip_ex :
  tokenise_entry (serialise_octets [0; 34; 92; 59; 40; 41; 32; 64; 127; 255; 97] false ++ terminator_text TNl [])
  = Ok ([dup [0; 34; 92; 59; 40; 41; 32; 64; 127; 255; 97]], []).
Proof. apply escape_roundtrip; [repeat constructor|right; discriminate|reflexivity]. Qed.
