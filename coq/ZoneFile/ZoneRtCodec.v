(* ZoneFile/ZoneRtCodec.v -- the address codec the zone-file model is run with
   (ZoneFile/ZfInstance.v: std's Ipv4Addr / Ipv6Addr FromStr and Display as modelled in
   Ip/IpModel.v) meets the two hypotheses the C13 theorems make about a codec:
     zf_codec_rt     Display then FromStr is the identity, Display writes plain characters
     zf_codec_range  FromStr yields a u32 / eight u16 *)
From RV Require Import Base.Prelude Name.NameModel Name.NameProofs Ip.IpModel Ip.IpProofs
     ZoneFile.ZoneFileModel ZoneFile.ZoneFileSpec ZoneFile.ZfInstance ZoneFile.ZoneFileProofs ZoneFile.ZoneRtLines
     ZoneFile.ZoneRtLoaded.

Lemma addr_char_plain c : (is_digit c = true \/ c = 46) \/ addrc c -> plain_char c = true.
Proof.
  intro H.
  assert (Hb : (is_digit c || (c =? 46) || hexc c || (c =? 58)) = true).
  { destruct H as [[H| ->]|[H|[->| ->]]]; rewrite ?H, ?orb_true_r; reflexivity. }
  assert (Hlt : c < 256).
  { destruct H as [[H| ->]|H]; [apply is_digit_range in H; lia|lia|apply addrc_ascii in H; lia]. }
  apply (sweep_imp (fun c => is_digit c || (c =? 46) || hexc c || (c =? 58)) plain_char); [vm_compute; reflexivity|exact Hlt|exact Hb].
Qed.

Theorem zf_codec_rt : codec_rt zf_codec.
Proof.
  split.
  - intros a Ha. cbn [zf_codec ZoneFileModel.parse_v4 ZoneFileModel.show_v4]. split; [apply ipv4_roundtrip; exact Ha|].
    apply plain_token_of.
    + unfold IpModel.show_v4. pose proof (show_dec_ne ((a / 16777216) mod 256)) as Hne. destruct (show_dec ((a / 16777216) mod 256)); [contradiction|discriminate].
    + eapply Forall_impl; [|apply show_v4_chars]. intros c Hc. apply addr_char_plain. left. exact Hc.
  - intros g Hg.
    cbn [zf_codec ZoneFileModel.parse_v6 ZoneFileModel.show_v6]. split.
    + pose proof (ipv6_roundtrip g Hg) as H. unfold parse_ip, parse_ip_bytes in H. unfold ip_parse_v6.
      destruct (read_ipv4_addr (utf8 (IpModel.show_v6 g))) as [[a rest]|]; [destruct (is_nil rest); discriminate|].
      destruct (read_ipv6_addr (utf8 (IpModel.show_v6 g))) as [[g' rest]|]; [|discriminate].
      destruct (is_nil rest); [|discriminate]. inversion H. reflexivity.
    + destruct (show_v6_chars g Hg) as [Hc Hne]. apply plain_token_of; [exact Hne|].
      eapply Forall_impl; [|exact Hc]. intros c H. apply addr_char_plain. right. exact H.
Qed.

(* FromStr yields values in range *)

Lemma read_number_le radix maxd az bound s r rest : read_number radix maxd az bound s = Some (r, rest) -> r <= bound.
Proof.
  unfold read_number. destruct (read_digits radix maxd s 0 0) as [[[r0 cnt] rest0]|]; [|discriminate].
  destruct (cnt =? 0); [discriminate|]. destruct (negb az && _ && _); [discriminate|].
  destruct (r0 <=? bound) eqn:E; [|discriminate]. intro H; inversion H; subst. apply N.leb_le. exact E.
Qed.

Lemma read_separator_inv {T} sep i (inner : list N -> option (T * list N)) s v rest :
  read_separator sep i inner s = Some (v, rest) -> exists s', inner s' = Some (v, rest).
Proof.
  unfold read_separator. destruct (0 <? i); [|eauto]. destruct s as [|c t]; [discriminate|].
  destruct (c =? sep); [eauto|discriminate].
Qed.

Lemma read_octet_le i s v rest : read_octet i s = Some (v, rest) -> v <= 255.
Proof. unfold read_octet. intro H. apply read_separator_inv in H as [s' H]. eapply read_number_le; exact H. Qed.

Lemma read_ipv4_range s a rest : read_ipv4_addr s = Some (a, rest) -> a < 4294967296.
Proof.
  unfold read_ipv4_addr.
  destruct (read_octet 0 s) as [[x s1]|] eqn:E0; [|discriminate].
  destruct (read_octet 1 s1) as [[y s2]|] eqn:E1; [|discriminate].
  destruct (read_octet 2 s2) as [[z s3]|] eqn:E2; [|discriminate].
  destruct (read_octet 3 s3) as [[w s4]|] eqn:E3; [|discriminate].
  apply read_octet_le in E0, E1, E2, E3. intro H; inversion H; subst. unfold u32_be. lia.
Qed.

Lemma read_groups_spec : forall k i limit acc s acc' b s',
  i + N.of_nat k <= limit -> Forall (fun x => x < 65536) acc ->
  read_groups k i limit acc s = (acc', b, s') ->
  Forall (fun x => x < 65536) acc' /\ (length acc' <= length acc + N.to_nat (limit - i))%nat.
Proof.
  induction k as [|k IH]; intros i limit acc s acc' b s' Hk Ha H; cbn [read_groups] in H.
  - inversion H; subst. split; [exact Ha|lia].
  - destruct (if i + 1 <? limit then read_separator 58 i read_ipv4_addr s else None) as [[v4 rest]|] eqn:E4.
    + destruct (i + 1 <? limit) eqn:El; [|discriminate]. apply N.ltb_lt in El.
      apply read_separator_inv in E4 as [s0 E4]. apply read_ipv4_range in E4.
      inversion H; subst. split.
      * apply Forall_app. split; [exact Ha|]. constructor; [apply N.div_lt_upper_bound; lia|].
        constructor; [apply N.mod_lt; lia|constructor].
      * rewrite app_length. cbn [length]. lia.
    + destruct (read_separator 58 i (read_number 16 4 true 65535) s) as [[g rest]|] eqn:Eg.
      * apply read_separator_inv in Eg as [s0 Eg]. apply read_number_le in Eg.
        destruct (IH (i + 1) limit (acc ++ [g]) rest acc' b s') as [H1 H2]; [lia| |exact H|].
        { apply Forall_app. split; [exact Ha|]. constructor; [lia|constructor]. }
        split; [exact H1|]. rewrite app_length in H2. cbn [length] in H2. lia.
      * inversion H; subst. split; [exact Ha|lia].
Qed.

Lemma zeros_small n : Forall (fun x => x < 65536) (zeros n).
Proof. induction n; cbn [zeros]; constructor; [lia|assumption]. Qed.
Lemma zeros_length n : length (zeros n) = n.
Proof. induction n; cbn [zeros length]; congruence. Qed.

Lemma read_ipv6_range s g rest : read_ipv6_addr s = Some (g, rest) -> v6_ok g.
Proof.
  unfold read_ipv6_addr.
  destruct (read_groups 8 0 8 [] s) as [[head hv4] s1] eqn:Eh.
  destruct (read_groups_spec 8 0 8 [] s head hv4 s1 ltac:(cbn; lia) (Forall_nil _) Eh) as [Hh Hl]. cbn [length] in Hl.
  destruct (llen head =? 8) eqn:E8.
  - intro H; inversion H; subst. apply N.eqb_eq in E8. unfold llen in E8. split; [lia|exact Hh].
  - apply N.eqb_neq in E8. unfold llen in E8. destruct hv4; [discriminate|].
    (* the pattern [58 :: 58 :: s2] is a match on the bits of two positives: any other c1, c2 gives None *)
    destruct s1 as [|c1 [|c2 s2]]; try discriminate.
    { destruct c1 as [|p1]; [discriminate|]. repeat (destruct p1 as [p1|p1|]; try discriminate). }
    destruct (N.eq_dec c1 58) as [->|N1].
    2: { destruct c1 as [|p1]; [discriminate|].
         repeat (destruct p1 as [p1|p1|]; try discriminate; try (exfalso; apply N1; reflexivity)). }
    destruct (N.eq_dec c2 58) as [->|N2].
    2: { destruct c2 as [|p2]; [discriminate|].
         repeat (destruct p2 as [p2|p2|]; try discriminate; try (exfalso; apply N2; reflexivity)). }
    cbv iota zeta.
    destruct (read_groups (N.to_nat (8 - (llen head + 1))) 0 (8 - (llen head + 1)) [] s2) as [[tail tv] s3] eqn:Et.
    assert (Hk : 0 + N.of_nat (N.to_nat (8 - (llen head + 1))) <= 8 - (llen head + 1)) by (rewrite N2Nat.id; lia).
    destruct (read_groups_spec (N.to_nat (8 - (llen head + 1))) 0 (8 - (llen head + 1)) [] s2 tail tv s3 Hk (Forall_nil _) Et) as [Ht Htl].
    cbn [length] in Htl.
    intro H. injection H as <- <-. unfold llen in *. split.
    + rewrite !app_length, zeros_length.
      destruct (length head) as [|[|[|[|[|[|[|[|n]]]]]]]]; cbv iota; cbn [N.of_nat] in *; lia.
    + apply Forall_app. split; [exact Hh|]. apply Forall_app. split; [apply zeros_small|exact Ht].
Qed.

Theorem zf_codec_range : ZoneRtLoaded.codec_range zf_codec.
Proof.
  split.
  - intros s a H. cbn [zf_codec ZoneFileModel.parse_v4] in H. unfold IpModel.parse_v4 in H.
    destruct (read_ipv4_addr (utf8 s)) as [[a0 rest]|] eqn:E; [|discriminate].
    destruct (is_nil rest); [|discriminate]. inversion H; subst. eapply read_ipv4_range; exact E.
  - intros s g H. cbn [zf_codec ZoneFileModel.parse_v6] in H. unfold ip_parse_v6 in H.
    destruct (read_ipv6_addr (utf8 s)) as [[g0 rest]|] eqn:E; [|discriminate].
    destruct (is_nil rest); [|discriminate]. inversion H; subst. eapply read_ipv6_range; exact E.
Qed.
