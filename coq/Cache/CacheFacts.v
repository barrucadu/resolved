(* Cache/CacheFacts.v -- what the cache invariant (CacheSpec.Inv) is stated with: sums over an association
   list ([asum]) and the minimum of a list ([min_of]), with their lemmas; [rdata_eqb_eq]; a few facts
   about association lists beside those of Base/AssocFacts.v, which this file re-exports. *)
From Coq Require Import Permutation.
From RV Require Export Base.AssocFacts.
From RV Require Import Base.Prelude Name.NameProofs Wire.WireTypes.

Lemma llen_perm {A} (a b : list A) : Permutation a b -> llen a = llen b.
Proof. intro H. unfold llen. rewrite (Permutation_length H). reflexivity. Qed.

Lemma rdata_eqb_eq a b : rdata_eqb a b = true <-> a = b.
Proof.
  destruct a, b; cbn [rdata_eqb]; try (split; [discriminate | intro H; discriminate H]);
    repeat rewrite andb_true_iff; repeat rewrite N.eqb_eq; repeat rewrite dname_eqb_eq;
    repeat rewrite leqb_eq; split; intro H.
  all: try (inversion H; subst; tauto).
  all: try (subst; reflexivity).
  all: try (repeat match goal with H : _ /\ _ |- _ => destruct H end; subst; reflexivity).
Qed.

Section Assoc.
  Context {K V : Type} (keqb : K -> K -> bool).
  Hypothesis keqb_eq : forall a b, keqb a b = true <-> a = b.

  Notation lookup := (alookup keqb).
  Notation replace := (areplace keqb).
  Notation remove := (aremove keqb).
  Notation insert := (ainsert keqb).
  Notation keys m := (map fst m).

  Lemma lookup_some_key k (m : list (K * V)) v : lookup k m = Some v -> In k (keys m).
  Proof. intro H. apply (alookup_in keqb keqb_eq) in H. apply (in_map fst) in H. exact H. Qed.

  Lemma lookup_iff k v (m : list (K * V)) : NoDup (keys m) -> (lookup k m = Some v <-> In (k, v) m).
  Proof. intro H. split; [apply (alookup_in keqb keqb_eq) | apply (in_alookup keqb keqb_eq), H]. Qed.

  Lemma replace_none k v (m : list (K * V)) : lookup k m = None -> replace k v m = m.
  Proof.
    induction m as [|[k' v'] m IH]; cbn [alookup areplace]; [reflexivity|].
    destruct (keqb k k'); [discriminate|]. intro H. rewrite IH; auto.
  Qed.
  Lemma remove_none k (m : list (K * V)) : lookup k m = None -> remove k m = m.
  Proof.
    induction m as [|[k' v'] m IH]; cbn [alookup aremove]; [reflexivity|].
    destruct (keqb k k'); [discriminate|]. intro H. rewrite IH; auto.
  Qed.

  Lemma lookup_ext (m1 m2 : list (K * V)) k :
    NoDup (keys m1) -> NoDup (keys m2) -> (forall e, In e m1 <-> In e m2) -> lookup k m1 = lookup k m2.
  Proof. intros H1 H2 H. apply (alookup_ext_key keqb keqb_eq); auto. Qed.

  Definition asum (f : V -> N) (m : list (K * V)) : N := fold_right (fun e a => f (snd e) + a) 0 m.
  Lemma asum_app f a b : asum f (a ++ b) = asum f a + asum f b.
  Proof.
    induction a as [|e a IH]; [cbn [app]; change (asum f []) with 0; lia|].
    change (asum f ((e :: a) ++ b)) with (f (snd e) + asum f (a ++ b)).
    change (asum f (e :: a)) with (f (snd e) + asum f a). lia.
  Qed.
  Lemma asum_cons f e a : asum f (e :: a) = f (snd e) + asum f a.
  Proof. reflexivity. Qed.
  Lemma asum_lookup_le f k (m : list (K * V)) v : lookup k m = Some v -> f v <= asum f m.
  Proof.
    intro H. destruct (alookup_split keqb keqb_eq _ _ _ H) as (pre & suf & -> & _).
    rewrite asum_app, asum_cons. cbn [snd]. lia.
  Qed.
  Lemma asum_replace f k (m : list (K * V)) v v' :
    lookup k m = Some v -> asum f (replace k v' m) + f v = asum f m + f v'.
  Proof.
    intro H. destruct (alookup_split keqb keqb_eq _ _ _ H) as (pre & suf & -> & _ & Hr & _).
    rewrite Hr. rewrite !asum_app, !asum_cons. cbn [snd]. lia.
  Qed.
  Lemma asum_remove f k (m : list (K * V)) v :
    lookup k m = Some v -> asum f (remove k m) + f v = asum f m.
  Proof.
    intro H. destruct (alookup_split keqb keqb_eq _ _ _ H) as (pre & suf & -> & _ & _ & Hd).
    rewrite Hd. rewrite !asum_app, !asum_cons. cbn [snd]. lia.
  Qed.
End Assoc.

Definition min_of (m : N) (l : list N) : Prop := In m l /\ Forall (fun x => m <= x) l.

Lemma min_of_perm m l l' : Permutation l l' -> min_of m l -> min_of m l'.
Proof.
  intros Hp [H1 H2]. split; [eapply Permutation_in; eassumption|].
  eapply Permutation_Forall; eassumption.
Qed.
Lemma min_of_add m l x : min_of m l -> min_of (if x <? m then x else m) (x :: l).
Proof.
  intros [H1 H2]. destruct (N.ltb_spec x m) as [H|H]; split.
  - left; reflexivity.
  - constructor; [lia|]. eapply Forall_impl; [|exact H2]. cbn beta. intros; lia.
  - right; exact H1.
  - constructor; [lia | exact H2].
Qed.
Lemma min_of_single x : min_of x [x].
Proof. split; [left; reflexivity | constructor; [lia | constructor]]. Qed.
Lemma min_of_unique m m' l : min_of m l -> min_of m' l -> m = m'.
Proof.
  intros [H1 H2] [H3 H4]. rewrite Forall_forall in H2, H4.
  apply H2 in H3. apply H4 in H1. lia.
Qed.
Lemma min_of_le m l x : min_of m l -> In x l -> m <= x.
Proof. intros [_ H] Hx. rewrite Forall_forall in H. apply H, Hx. Qed.

(* fold computing a minimum from an initial value *)
Lemma fold_min_spec (l : list N) init :
  min_of (fold_left (fun acc e => if e <? acc then e else acc) l init) (init :: l).
Proof.
  revert init. induction l as [|x l IH]; intro init; cbn [fold_left].
  - apply min_of_single.
  - specialize (IH (if x <? init then x else init)).
    destruct IH as [H1 H2]. split.
    + destruct H1 as [H1|H1]; [|right; right; exact H1].
      rewrite <- H1. destruct (x <? init); [right; left | left]; reflexivity.
    + inversion H2 as [|? ? Ha Hb]; subst. constructor; [|constructor; [|exact Hb]].
      * destruct (N.ltb_spec x init); lia.
      * destruct (N.ltb_spec x init); lia.
Qed.
