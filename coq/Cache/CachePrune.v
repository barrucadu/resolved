(* Cache/CachePrune.v -- proofs about the prune path of the cache model:
   PriorityQueue::pop, remove_expired_step, remove_expired, remove_least_recently_used,
   the LRU loop and prune: invariant preservation, termination with the model's fuel,
   no panic, and the abstract effect. *)
From Coq Require Import Permutation.
From RV Require Import Base.Prelude Name.NameModel Name.NameProofs Wire.WireTypes
  Cache.CacheFacts Cache.CacheModel Cache.CacheSpec Cache.CacheInsert.

Lemma pq_min_none q : pq_min q = None <-> q = [].
Proof.
  destruct q as [|[k p] t]; cbn [pq_min]; [tauto|].
  destruct (pq_min t); split; discriminate.
Qed.

Lemma pq_min_spec q m : pq_min q = Some m -> min_of m (map snd q).
Proof.
  revert m. induction q as [|[k p] t IH]; intro m; cbn [pq_min map snd]; [discriminate|].
  destruct (pq_min t) as [m'|] eqn:E.
  - intro H; inversion H; subst. destruct (IH _ eq_refl) as [I1 I2]. split.
    + destruct (N.min_spec p m') as [[_ ->]|[_ ->]]; [left; reflexivity | right; exact I1].
    + constructor; [lia|]. eapply Forall_impl; [|exact I2]. cbn beta. intros; lia.
  - apply pq_min_none in E. subst t. intro H; inversion H; subst. apply min_of_single.
Qed.

Section Tie.
Variable tb : tiebreak.
Hypothesis tb_ok : tie_ok tb.

Lemma pq_pop_some q k e q' :
  pq_pop tb q = Some ((k, e), q') ->
  In (k, e) q /\ q' = pq_remove k q /\ forall k' e', In (k', e') q -> e <= e'.
Proof.
  unfold pq_pop, pq_candidates. destruct (pq_min q) as [m|] eqn:Hm.
  - destruct (tb (filter (fun x => snd x =? m) q)) as [[k0 e0]|] eqn:Ht; [|discriminate].
    intro H; inversion H; subst. apply (proj1 (tb_ok _)) in Ht. apply filter_In in Ht.
    destruct Ht as [Hin He]. cbn [snd] in He. apply N.eqb_eq in He. subst e.
    split; [exact Hin|]. split; [reflexivity|]. intros k' e' Hin'.
    apply pq_min_spec in Hm. eapply min_of_le; [exact Hm|]. apply (in_map snd) in Hin'. exact Hin'.
  - destruct (tb []) as [[k0 e0]|] eqn:Ht; [|discriminate].
    apply (proj1 (tb_ok _)) in Ht. destruct Ht.
Qed.

Lemma pq_pop_none q : pq_pop tb q = None -> q = [].
Proof.
  unfold pq_pop, pq_candidates. destruct (pq_min q) as [m|] eqn:Hm.
  - pose proof (pq_min_spec _ _ Hm) as [Hin _]. apply in_map_iff in Hin. destruct Hin as ([k e] & He & Hin).
    cbn [snd] in He. subst e.
    assert (Hne : filter (fun x => snd x =? m) q <> []).
    { intro H. assert (Hf : In (k, m) (filter (fun x => snd x =? m) q))
        by (apply filter_In; split; [exact Hin | cbn [snd]; apply N.eqb_refl]).
      rewrite H in Hf. destruct Hf. }
    apply (proj2 (tb_ok _)) in Hne. destruct (tb _) as [[k0 e0]|]; [discriminate | congruence].
  - intros _. apply pq_min_none, Hm.
Qed.
Definition retain_recs (now : N) (recs : list (N * list (rdata * N))) : list (N * list (rdata * N)) :=
  map (fun e => (fst e, retain_live now (snd e))) recs.

Lemma min_opt_some a ts :
  min_opt (Some a) ts = Some (fold_left (fun acc e => if e <? acc then e else acc) (map snd ts) a).
Proof.
  revert a. induction ts as [|x ts IH]; intro a; [reflexivity|].
  unfold min_opt in *. cbn [fold_left map]. destruct (snd x <? a); apply IH.
Qed.

Lemma min_opt_none_spec ts :
  match min_opt None ts with Some m => min_of m (map snd ts) | None => ts = [] end.
Proof.
  destruct ts as [|x ts]; [reflexivity|]. change (min_opt None (x :: ts)) with (min_opt (Some (snd x)) ts).
  rewrite min_opt_some. apply fold_min_spec.
Qed.

Lemma tuples_of_retain now recs : tuples_of (retain_recs now recs) = retain_live now (tuples_of recs).
Proof.
  induction recs as [|[t ts] recs IH]; [reflexivity|].
  unfold tuples_of, retain_recs in *. cbn [map flat_map fst snd]. rewrite IH.
  unfold retain_live. rewrite filter_app. reflexivity.
Qed.

Lemma retain_len now (ts : list (rdata * N)) : llen (retain_live now ts) <= llen ts.
Proof.
  unfold retain_live. induction ts as [|x ts IH]; cbn [filter]; [lia|].
  destruct (now <? snd x); rewrite !llen_cons; lia.
Qed.

(* the loop over the record types of a partition, without its accumulators *)
Lemma expire_records_eq now recs : forall pruned ne,
  expire_records now recs pruned ne =
  (retain_recs now recs, pruned + (llen (tuples_of recs) - llen (retain_live now (tuples_of recs))),
   min_opt ne (retain_live now (tuples_of recs))).
Proof.
  induction recs as [|[t ts] recs IH]; intros pruned ne; cbn [expire_records]; [rewrite N.add_0_r; reflexivity|].
  rewrite IH. unfold tuples_of, retain_recs, retain_live. cbn [map flat_map fst snd].
  rewrite filter_app, !llen_app. fold (retain_live now ts) (retain_live now (flat_map snd recs)).
  pose proof (retain_len now ts). pose proof (retain_len now (flat_map snd recs)).
  f_equal; [f_equal; lia|]. unfold min_opt. rewrite fold_left_app. reflexivity.
Qed.

Section FilterLookup.
  Context {K V : Type} (keqb : K -> K -> bool).
  Hypothesis keqb_eq : forall a b, keqb a b = true <-> a = b.
  Lemma lookup_filter (f : K * V -> bool) k (m : list (K * V)) :
    NoDup (map fst m) ->
    alookup keqb k (filter f m) =
    match alookup keqb k m with Some v => if f (k, v) then Some v else None | None => None end.
  Proof.
    induction m as [|[k0 v0] m IH]; intro Hnd; cbn [filter alookup]; [reflexivity|].
    cbn [map fst] in Hnd. inversion Hnd as [|? ? Hni Hnd']; subst.
    destruct (keqb k k0) eqn:E.
    - apply keqb_eq in E. subst k0. destruct (f (k, v0)); cbn [alookup].
      + rewrite (keqb_refl keqb keqb_eq). reflexivity.
      + rewrite (IH Hnd'). apply (alookup_none_iff keqb keqb_eq) in Hni. rewrite Hni. reflexivity.
    - destruct (f (k0, v0)); cbn [alookup]; [rewrite E|]; apply IH, Hnd'.
  Qed.
End FilterLookup.

Lemma nlookup_retain now t recs :
  alookup N.eqb t (retain_recs now recs) = option_map (retain_live now) (alookup N.eqb t recs).
Proof.
  induction recs as [|[t0 ts] recs IH]; [reflexivity|].
  unfold retain_recs in *. cbn [map alookup fst snd]. destruct (t =? t0); [reflexivity | exact IH].
Qed.

Lemma keys_retain now recs : map fst (retain_recs now recs) = map fst recs.
Proof. unfold retain_recs. rewrite map_map. reflexivity. Qed.

Lemma rlook_retain now recs t d :
  Forall (fun e => NoDup (map fst (snd e))) recs ->
  rlook (retain_recs now recs) t d =
  match rlook recs t d with Some e => if now <? e then Some e else None | None => None end.
Proof.
  intro Hv. unfold rlook. rewrite nlookup_retain.
  destruct (alookup N.eqb t recs) as [ts|] eqn:Ht; cbn [option_map]; [|reflexivity].
  unfold retain_live. rewrite (lookup_filter rdata_eqb rdata_eqb_eq).
  - destruct (alookup rdata_eqb d ts); reflexivity.
  - exact (alookup_forall N.eqb N.eqb_eq _ _ _ _ Hv Ht).
Qed.

Lemma rlook_in recs t d e : rlook recs t d = Some e -> In (d, e) (tuples_of recs).
Proof.
  unfold rlook. destruct (alookup N.eqb t recs) as [ts|] eqn:Ht; [|discriminate].
  intro H. apply in_flat_map. exists (t, ts).
  split; [apply (alookup_in N.eqb N.eqb_eq), Ht | apply (alookup_in rdata_eqb rdata_eqb_eq), H].
Qed.

(* a record expires no earlier than its name's entry in the expiry queue: if no entry is due, no record is *)
Lemma nothing_due c now :
  Inv c -> (forall k e, In (k, e) (c_expiry c) -> now < e) -> forall key e0, abs_map c key = Some e0 -> now < e0.
Proof.
  intros HI H [[n t] d] e0 Hr. rewrite abs_map_unfold in Hr.
  destruct (alookup dname_eqb n (c_parts c)) as [p|] eqn:Hl; [|discriminate].
  pose proof (queue_lookup _ _ _ _ _ (inv_expiry c HI) Hl) as Hq. apply (alookup_in dname_eqb dname_eqb_eq), H in Hq.
  pose proof (inv_part_of _ _ _ HI Hl) as [_ _ _ Hm]. apply rlook_in, (in_map snd) in Hr.
  pose proof (min_of_le _ _ _ Hm Hr). cbn [snd] in *. lia.
Qed.

(* a partition whose earliest record is due, cut down to its live records: something goes; what stays
   is a partition again, or nothing stays *)
Lemma retain_part now p :
  Inv_part p -> p_next_expiry p <= now ->
  let recs' := retain_recs now (p_records p) in
  let pruned := llen (tuples_of (p_records p)) - llen (tuples_of recs') in
  pruned <> 0 /\ pruned <= p_size p /\
  match min_opt None (tuples_of recs') with
  | Some ne => now < ne /\ Inv_part {| p_last_read := p_last_read p; p_next_expiry := ne;
                                       p_size := p_size p - pruned; p_records := recs' |}
  | None => pruned = p_size p /\ forall t d, rlook recs' t d = None
  end.
Proof.
  intros HP Hdue recs' pruned. pose proof HP as [P1 P2 _ _]. destruct (inv_part_tuples p HP) as [P3 P4].
  pose proof (min_opt_none_spec (tuples_of recs')) as E3. unfold pruned, recs' in *. rewrite tuples_of_retain in *.
  set (kept := retain_live now (tuples_of (p_records p))) in *.
  pose proof (retain_len now (tuples_of (p_records p))) as Hkl. fold kept in Hkl.
  assert (Hlen : llen kept < llen (tuples_of (p_records p))).
  { (* the earliest record goes *)
    destruct P4 as [P4 _]. apply in_map_iff in P4. destruct P4 as ([d0 e0] & He0 & Hin0). cbn [snd] in He0.
    unfold kept, retain_live. clear -Hin0 He0 Hdue. induction (tuples_of (p_records p)) as [|x l IH]; [destruct Hin0|].
    cbn [filter]. destruct Hin0 as [->|Hin0].
    - cbn [snd]. destruct (N.ltb_spec now e0); [lia|]. pose proof (retain_len now l) as Hr.
      unfold retain_live in Hr. rewrite llen_cons. lia.
    - specialize (IH Hin0). destruct (now <? snd x); rewrite !llen_cons; lia. }
  split; [lia|]. split; [lia|]. destruct (min_opt None kept) as [ne|].
  - split.
    + destruct E3 as [E3 _]. apply in_map_iff in E3. destruct E3 as ([d0 e0] & <- & Hin0).
      apply filter_In in Hin0. destruct Hin0 as [_ Hlt]. apply N.ltb_lt in Hlt. exact Hlt.
    + constructor; unfold all_tuples; cbn [p_records p_size p_next_expiry];
        fold (tuples_of (retain_recs now (p_records p))); rewrite ?tuples_of_retain.
      * rewrite keys_retain. exact P1.
      * unfold retain_recs. apply Forall_map. eapply Forall_impl; [|exact P2]. cbn [snd].
        intros a Ha. apply nodup_map_filter, Ha.
      * fold kept. lia.
      * exact E3.
  - split; [rewrite E3, llen_nil; lia|]. intros t d.
    destruct (rlook (retain_recs now (p_records p)) t d) eqn:R; [|reflexivity].
    apply rlook_in in R. rewrite tuples_of_retain in R. fold kept in R. rewrite E3 in R. destruct R.
Qed.

(* number of queue entries that are due *)
Definition count_le (now : N) (q : pqueue) : nat := length (filter (fun e => snd e <=? now) q).

Lemma count_le_remove now q k e :
  alookup dname_eqb k q = Some e -> e <= now -> S (count_le now (pq_remove k q)) = count_le now q.
Proof.
  intros Hl He. destruct (alookup_split dname_eqb dname_eqb_eq _ _ _ Hl) as (pre & suf & -> & _ & _ & Hd).
  unfold pq_remove. rewrite Hd. unfold count_le. rewrite !filter_app, !app_length. cbn [filter snd].
  destruct (N.leb_spec e now); [cbn [length]; lia | lia].
Qed.

Lemma count_le_push_late now q k e :
  alookup dname_eqb k q = None -> now < e -> count_le now (pq_push k e q) = count_le now q.
Proof.
  intros Hl He. unfold pq_push. rewrite (ainsert_none dname_eqb _ _ _ Hl).
  unfold count_le. rewrite filter_app, app_length. cbn [filter snd].
  destruct (N.leb_spec e now); [lia | cbn [length]; lia].
Qed.

Definition live_at (now : N) (m : amap) : amap := restrict m (fun _ e => now <? e).

Lemma remove_expired_step_ok c now :
  Inv c ->
  exists c' n, remove_expired_step tb c now = Ok (c', n) /\ Inv c' /\
    c_size c' + n = c_size c /\ c_desired c' = c_desired c /\
    (* the records of one name are cut down to the live ones, or nothing changes *)
    (forall k, abs_map c' k = abs_map c k \/ abs_map c' k = live_at now (abs_map c) k) /\
    (forall nm t, abs_lru c' nm = Some t -> abs_lru c nm = Some t) /\
    (n = 0 -> forall k e, abs_map c k = Some e -> now < e) /\
    (n <> 0 -> (count_le now (c_expiry c') < count_le now (c_expiry c))%nat).
Proof.
  intro HI. unfold remove_expired_step.
  destruct (pq_pop tb (c_expiry c)) as [[[k e] q']|] eqn:Hpop.
  - destruct (pq_pop_some _ _ _ _ Hpop) as (Hin & -> & Hmin).
    pose proof (inv_expiry c HI) as HQ. pose proof HQ as [HQ1 HQ2].
    assert (Hlq : alookup dname_eqb k (c_expiry c) = Some e) by (apply (in_alookup dname_eqb dname_eqb_eq); assumption).
    destruct (queue_lookup_inv _ _ _ _ _ HQ Hlq) as (p & Hl & Hpe).
    destruct (N.ltb_spec now e) as [Hlt|Hge].
    + (* nothing is due: the entry is pushed back *)
      eexists _, 0. split; [reflexivity|].
      split; [|split; [cbn [c_size]; lia|split; [reflexivity|]]].
      * destruct HI as [I1 I2 I3 I4 I5]. constructor; cbn [c_parts c_access c_expiry c_size]; try assumption.
        apply (queue_ok_set _ _ _ _ _ k (Some p) I4).
        -- cbn [option_map]. rewrite Hpe. eapply q_set_trans; [apply q_set_remove | apply q_set_push].
        -- intro k'. destruct (dname_eqb k' k) eqn:E; [|reflexivity]. apply dname_eqb_eq in E. subst k'. exact Hl.
      * split; [auto|]. split; [auto|]. split; [|intro H; exfalso; apply H; reflexivity].
        intros _. apply (nothing_due c now HI). intros k' e' Hk'. apply Hmin in Hk'. lia.
    + (* the partition is due *)
      rewrite Hl. pose proof (inv_part_of _ _ _ HI Hl) as HP. pose proof HP as [_ P2 P3 _].
      rewrite expire_records_eq, N.add_0_l, <- !tuples_of_retain.
      destruct (retain_part now p HP ltac:(lia)) as (Hpos & Hple' & R). pose proof (part_size_le _ _ _ HI Hl) as Hple.
      set (recs' := retain_recs now (p_records p)) in *.
      set (pruned := llen (tuples_of (p_records p)) - llen (tuples_of recs')) in *.
      rewrite (csub_ok (p_size p) pruned) by lia. cbn [bind].
      rewrite (csub_ok (c_size c) pruned) by lia.
      assert (Hlive : forall t d, live_at now (abs_map c) (k, t, d) = rlook recs' t d).
      { intros t d. unfold live_at, restrict, recs'. rewrite (rlook_retain now _ t d P2), (abs_map_name _ _ _ _ _ Hl). reflexivity. }
      destruct (min_opt None (tuples_of recs')) as [ne|]; destruct R as [R1 R2]; (eexists _, pruned; cbn [bind]; split; [reflexivity|]).
      * (* some records stay *)
        destruct (part_replace c k p _ (c_access c) (pq_push k ne (pq_remove k (c_expiry c))) (c_size c - pruned) HI Hl R2)
          as (I' & _ & M & U);
          [exact (q_set_same _ _ _ (queue_lookup _ _ _ _ _ (inv_access c HI) Hl))
          |eapply q_set_trans; [apply q_set_remove | apply q_set_push] | cbn [p_size]; lia |].
        split; [exact I'|]. split; [cbn [c_size]; lia|]. split; [reflexivity|]. split; [|split; [|split]].
        -- intros [[n0 t0] d0]. rewrite M. cbn [p_records].
           destruct (dname_eqb n0 k) eqn:E; [|auto]. apply dname_eqb_eq in E. subst n0. right. symmetry. apply Hlive.
        -- intros nm t0. rewrite U. cbn [option_map p_last_read].
           destruct (dname_eqb nm k) eqn:E; [|auto]. apply dname_eqb_eq in E. subst nm.
           rewrite (abs_lru_name _ _ _ Hl). auto.
        -- intro H; contradiction.
        -- intros _. cbn [c_expiry].
           rewrite (count_le_push_late now _ k ne); [|rewrite (proj2 (q_set_remove _ k HQ1)), (keqb_refl dname_eqb dname_eqb_eq); reflexivity | exact R1].
           rewrite <- (count_le_remove now (c_expiry c) k e Hlq Hge). lia.
      * (* the whole name goes *)
        destruct (part_remove c k p (pq_remove k (c_access c)) (pq_remove k (c_expiry c)) (c_size c - pruned) HI Hl)
          as (I' & _ & M & U); [apply q_set_remove..| lia |].
        split; [exact I'|]. split; [cbn [c_size]; lia|]. split; [reflexivity|]. split; [|split; [|split]].
        -- intros [[n0 t0] d0]. rewrite M.
           destruct (dname_eqb n0 k) eqn:E; [|auto]. apply dname_eqb_eq in E. subst n0. right.
           rewrite Hlive. symmetry. apply R2.
        -- intros nm t0. rewrite U. destruct (dname_eqb nm k); [discriminate | auto].
        -- intro H; contradiction.
        -- intros _. cbn [c_expiry]. rewrite <- (count_le_remove now (c_expiry c) k e Hlq Hge). lia.
  - (* empty queue *)
    apply (pq_pop_none) in Hpop.
    exists c, 0. split; [reflexivity|]. split; [exact HI|]. split; [lia|]. split; [reflexivity|].
    split; [auto|]. split; [auto|]. split; [|intro H; exfalso; apply H; reflexivity].
    intros _. apply (nothing_due c now HI). rewrite Hpop. intros k e [].
Qed.
Definition evicted (evs : list dname) (nm : dname) : bool := existsb (dname_eqb nm) evs.

(* [c'] holds what [c] holds, less the names [evs] *)
Definition evicts (c : cache) (evs : list dname) (c' : cache) : Prop :=
  (forall key, abs_map c' key = if evicted evs (key_name key) then None else abs_map c key) /\
  (forall nm, abs_lru c' nm = if evicted evs nm then None else abs_lru c nm).

Lemma part_set_evicts c c' k : part_set c c' k None -> evicts c [k] c'.
Proof.
  intros (_ & _ & M & U).
  split; [intros [[n t] d]; rewrite M|intro nm; rewrite U]; unfold evicted; cbn [existsb key_name fst option_map];
    rewrite orb_false_r; destruct (dname_eqb _ k); reflexivity.
Qed.

Lemma evicts_cons c k c1 evs c2 : evicts c [k] c1 -> evicts c1 evs c2 -> evicts c (k :: evs) c2.
Proof.
  intros [M1 U1] [M2 U2].
  split; [intro key; rewrite M2, M1|intro nm; rewrite U2, U1]; unfold evicted; cbn [existsb];
    rewrite orb_false_r; (destruct (existsb _ evs); [rewrite orb_true_r|rewrite orb_false_r]); reflexivity.
Qed.

(* each name of [evs] was, at its turn, the least recently used of a cache still over size *)
Definition lru_order (c : cache) (evs : list dname) : Prop :=
  forall ev1 n ev2, evs = ev1 ++ n :: ev2 ->
    exists cm, Inv cm /\ evicts c ev1 cm /\ c_desired c < c_size cm /\
      exists tk, abs_lru cm n = Some tk /\ forall nm t, abs_lru cm nm = Some t -> tk <= t.

(* a name is still held when its turn comes, so no name is evicted twice *)
Lemma lru_order_nodup c evs : lru_order c evs -> NoDup evs.
Proof.
  intro O. induction evs as [|n evs IH] using rev_ind; [constructor|].
  assert (Hn : ~ In n evs).
  { destruct (O evs n [] eq_refl) as (cm & _ & [_ J] & _ & tk & Hk & _).
    rewrite J in Hk. intro Hin. unfold evicted in Hk.
    assert (Hx : existsb (dname_eqb n) evs = true).
    { apply existsb_exists. exists n. split; [exact Hin | apply dname_eqb_eq; reflexivity]. }
    rewrite Hx in Hk. discriminate. }
  assert (Hnd : NoDup evs).
  { apply IH. intros ev1 n0 ev2 Hs. apply (O ev1 n0 (ev2 ++ [n])). rewrite Hs, <- app_assoc. reflexivity. }
  apply NoDup_snoc; assumption.
Qed.

Lemma lru_order_cons c k tk c1 evs :
  Inv c -> c_desired c < c_size c ->
  abs_lru c k = Some tk -> (forall nm t, abs_lru c nm = Some t -> tk <= t) ->
  evicts c [k] c1 -> c_desired c1 = c_desired c -> lru_order c1 evs -> lru_order c (k :: evs).
Proof.
  intros HI Hov T1 T2 E1 D1 O ev1 n ev2 Hs. destruct ev1 as [|k0 ev1]; injection Hs as <- ->.
  - exists c. split; [exact HI|]. split; [split; reflexivity|]. split; [exact Hov|]. exists tk. auto.
  - destruct (O ev1 n ev2 eq_refl) as (cm & J1 & J2 & J4 & J5). exists cm. split; [exact J1|].
    split; [exact (evicts_cons _ _ _ _ _ E1 J2)|]. split; [lia | exact J5].
Qed.

Lemma count_le_length now q : (count_le now q <= length q)%nat.
Proof. unfold count_le. induction q as [|x q IH]; cbn [filter length]; [lia|]. destruct (snd x <=? now); cbn [length]; lia. Qed.

Lemma remove_expired_ok now : forall fuel c pruned,
  Inv c -> (count_le now (c_expiry c) < fuel)%nat ->
  exists c' n, remove_expired tb fuel c now pruned = Ok (c', n) /\ Inv c' /\
    c_size c' + n = c_size c + pruned /\ c_desired c' = c_desired c /\
    (forall k, abs_map c' k = live_at now (abs_map c) k) /\
    (forall nm t, abs_lru c' nm = Some t -> abs_lru c nm = Some t).
Proof.
  induction fuel as [|f IH]; intros c pruned HI Hf; [lia|].
  cbn [remove_expired].
  destruct (remove_expired_step_ok c now HI) as (c1 & n1 & -> & I1 & S1 & D1 & A1 & A3 & A4 & A5).
  cbn [bind]. destruct (N.eqb_spec pruned (pruned + n1)) as [He|He].
  - (* an unproductive step: everything is live *)
    assert (n1 = 0) by lia. subst n1. exists c1, (pruned + 0).
    split; [reflexivity|]. split; [exact I1|]. split; [lia|]. split; [exact D1|]. split; [|exact A3].
    intro k. destruct (A1 k) as [->| ->]; [|reflexivity]. unfold live_at, restrict.
    destruct (abs_map c k) as [e|] eqn:E; [|reflexivity].
    apply (A4 eq_refl) in E. apply N.ltb_lt in E. rewrite E. reflexivity.
  - assert (Hn : n1 <> 0) by lia. specialize (A5 Hn).
    destruct (IH c1 (pruned + n1) I1 ltac:(lia)) as (c2 & n2 & -> & I2 & S2 & D2 & B1 & B3).
    exists c2, n2. split; [reflexivity|]. split; [exact I2|]. split; [lia|]. split; [congruence|].
    split; [|intros nm t H; apply A3, B3, H].
    intro k. rewrite B1. unfold live_at, restrict. destruct (A1 k) as [->| ->]; [reflexivity|]. unfold live_at, restrict.
    destruct (abs_map c k) as [e|]; [|reflexivity]. destruct (now <? e) eqn:L; [rewrite L|]; reflexivity.
Qed.

Lemma parts_nonempty_queue c : Inv c -> 0 < c_size c -> c_access c <> [].
Proof.
  intros HI Hpos Hq. pose proof (inv_size c HI) as Hs.
  destruct (c_parts c) as [|[k p] rest] eqn:Hp.
  - unfold asum in Hs. cbn [fold_right] in Hs. lia.
  - pose proof (proj2 (inv_access c HI) k) as Hl. rewrite Hq, Hp in Hl. cbn [alookup] in Hl.
    rewrite (keqb_refl dname_eqb dname_eqb_eq) in Hl. discriminate.
Qed.

Lemma remove_lru_ok c :
  Inv c -> c_access c <> [] ->
  exists c' n k tk, remove_lru tb c = Ok (c', n) /\ Inv c' /\
    c_size c' + n = c_size c /\ c_desired c' = c_desired c /\
    S (length (c_access c')) = length (c_access c) /\ evicts c [k] c' /\
    abs_lru c k = Some tk /\ (forall nm t, abs_lru c nm = Some t -> tk <= t).
Proof.
  intros HI Hne. unfold remove_lru.
  destruct (pq_pop tb (c_access c)) as [[[k e] q']|] eqn:Hpop.
  - destruct (pq_pop_some _ _ _ _ Hpop) as (Hin & -> & Hmin).
    pose proof (inv_access c HI) as HQ. pose proof HQ as [HQ1 HQ2].
    assert (Hlq : alookup dname_eqb k (c_access c) = Some e) by (apply (in_alookup dname_eqb dname_eqb_eq); assumption).
    destruct (queue_lookup_inv _ _ _ _ _ HQ Hlq) as (p & Hl & Hpe).
    rewrite Hl. pose proof (part_size_le _ _ _ HI Hl) as Hple.
    rewrite (csub_ok (c_size c) (p_size p)) by lia. cbn [bind].
    pose proof (part_remove c k p (pq_remove k (c_access c)) (pq_remove k (c_expiry c)) (c_size c - p_size p) HI Hl
                  (q_set_remove _ _) (q_set_remove _ _) ltac:(lia)) as PS.
    eexists _, (p_size p), k, e. split; [reflexivity|].
    split; [exact (proj1 PS)|]. split; [cbn [c_size]; lia|]. split; [reflexivity|].
    split; [|split; [exact (part_set_evicts _ _ _ PS)|split]].
    + cbn [c_access]. destruct (alookup_split dname_eqb dname_eqb_eq _ _ _ Hlq) as (pre & suf & Hq & _ & _ & Hd).
      unfold pq_remove. rewrite Hd. rewrite Hq. rewrite !app_length. cbn [length]. lia.
    + rewrite (abs_lru_name _ _ _ Hl). congruence.
    + intros nm t. unfold abs_lru. rewrite <- HQ2. intro Hx. apply (alookup_in dname_eqb dname_eqb_eq) in Hx.
      eapply Hmin, Hx.
  - apply (pq_pop_none) in Hpop. contradiction.
Qed.

Definition lru_post (c : cache) (acc : N) (r : res unit (cache * N)) : Prop :=
  exists c' n evs, r = Ok (c', n) /\ Inv c' /\
    c_size c' + n = c_size c + acc /\ c_size c' <= c_desired c /\ c_desired c' = c_desired c /\
    evicts c evs c' /\ lru_order c evs.

Lemma lru_stop c acc : Inv c -> c_size c <= c_desired c -> lru_post c acc (Ok (c, acc)).
Proof.
  intros HI H. exists c, acc, []. split; [reflexivity|]. split; [exact HI|]. split; [lia|]. split; [lia|].
  split; [reflexivity|]. split; [split; reflexivity|]. intros ev1 n ev2 H0. destruct ev1; discriminate.
Qed.

Lemma lru_loop_ok : forall fuel c acc,
  Inv c -> (length (c_access c) <= fuel)%nat -> lru_post c acc (lru_loop tb fuel c acc).
Proof.
  induction fuel as [|f IH]; intros c acc HI Hf.
  - (* no fuel: the queue is empty, so the cache is empty *)
    assert (Hq : c_access c = []) by (destruct (c_access c); [reflexivity | cbn [length] in Hf; lia]).
    assert (Hz : c_size c = 0).
    { destruct (N.eq_0_gt_0_cases (c_size c)) as [H|H]; [exact H|]. destruct (parts_nonempty_queue c HI H Hq). }
    cbn [lru_loop]. destruct (N.ltb_spec (c_desired c) (c_size c)) as [H|H]; [lia|]. apply lru_stop; assumption.
  - cbn [lru_loop]. destruct (N.ltb_spec (c_desired c) (c_size c)) as [Hov|Hov]; [|apply lru_stop; assumption].
    assert (Hne : c_access c <> []) by (apply parts_nonempty_queue; [exact HI | lia]).
    destruct (remove_lru_ok c HI Hne) as (c1 & n1 & k & tk & -> & I1 & S1 & D1 & L1 & E1 & T1 & T2).
    cbn [bind].
    destruct (IH c1 (acc + n1) I1 ltac:(lia)) as (c2 & n2 & evs & -> & I2 & S2 & B2 & D2 & E2 & O2).
    exists c2, n2, (k :: evs). split; [reflexivity|]. split; [exact I2|]. split; [lia|]. split; [lia|].
    split; [congruence|]. split; [exact (evicts_cons _ _ _ _ _ E1 E2)|].
    exact (lru_order_cons _ _ _ _ _ HI Hov T1 T2 E1 D1 O2).
Qed.

Lemma prune_ok c now :
  Inv c ->
  exists c1 c' rep evs,
    prune tb c now = Ok (c', rep) /\ Inv c1 /\ Inv c' /\
    c_desired c1 = c_desired c /\ c_desired c' = c_desired c /\
    rep = {| pr_overflowed := c_desired c <? c_size c; pr_current := c_size c';
             pr_expired := c_size c - c_size c1; pr_pruned := c_size c1 - c_size c' |} /\
    c_size c' <= c_desired c /\
    (forall k, abs_map c1 k = live_at now (abs_map c) k) /\
    (forall nm t, abs_lru c1 nm = Some t -> abs_lru c nm = Some t) /\
    evicts c1 evs c' /\ lru_order c1 evs.
Proof.
  intro HI. unfold prune, prune_fuel.
  assert (Hf : (count_le now (c_expiry c) < expire_fuel c)%nat).
  { unfold expire_fuel. pose proof (count_le_length now (c_expiry c)). lia. }
  destruct (remove_expired_ok now _ c 0 HI Hf) as (c1 & n1 & -> & I1 & S1 & D1 & A1 & A3).
  cbn [bind].
  destruct (lru_loop_ok (lru_fuel c1) c1 0 I1 (le_n _)) as (c2 & n2 & evs & -> & I2 & S2 & B2 & D2 & E2 & O2).
  cbn [bind]. eexists c1, c2, _, evs. split; [reflexivity|]. split; [exact I1|]. split; [exact I2|].
  split; [exact D1|]. split; [congruence|]. split.
  - f_equal; lia.
  - split; [lia|]. auto.
Qed.
End Tie.
