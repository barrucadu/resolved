(* Cache/CacheInsert.v -- proofs about the read and insert paths of the cache model:
   touch / get / get_raw / upsert / shared_insert(_all) preserve [Inv] and have the
   abstract effect of CacheSpec. *)
From Coq Require Import Permutation.
From RV Require Import Base.Prelude Name.NameModel Name.NameProofs Wire.WireTypes
  Cache.CacheFacts Cache.CacheModel Cache.CacheSpec.

Notation dlookup := (alookup dname_eqb).
Notation nlookup := (alookup N.eqb).
Notation rlookup := (alookup rdata_eqb).

Lemma csub_ok a b : b <= a -> csub a b = Ok (a - b).
Proof. intro H. unfold csub. destruct (N.leb_spec b a); [reflexivity | lia]. Qed.

Lemma remaining_secs_spec e now : remaining_secs e now = remaining e now.
Proof.
  unfold remaining_secs, remaining. destruct (N.leb_spec ((e - now) / NS_PER_S) U32_MAX); lia.
Qed.

Definition tuples_of (recs : list (N * tuples)) : tuples := flat_map snd recs.

Definition rlook (recs : list (N * tuples)) (t : N) (d : rdata) : option N :=
  match nlookup t recs with Some ts => rlookup d ts | None => None end.

(* size and earliest expiry of a partition, over the tuples of its records ([all_tuples p]) *)
Lemma inv_part_tuples p :
  Inv_part p -> p_size p = llen (tuples_of (p_records p)) /\ min_of (p_next_expiry p) (map snd (tuples_of (p_records p))).
Proof. intros [_ _ Hs Hm]. exact (conj Hs Hm). Qed.

Lemma abs_map_unfold c n t d :
  abs_map c (n, t, d) = match dlookup n (c_parts c) with Some p => rlook (p_records p) t d | None => None end.
Proof. reflexivity. Qed.

(* the Vec filed under record type t; empty if there is none *)
Definition vec_of (t : N) (recs : list (N * tuples)) : tuples :=
  match nlookup t recs with Some ts => ts | None => [] end.

Lemma rlook_vec recs t d : rlook recs t d = rlookup d (vec_of t recs).
Proof. unfold rlook, vec_of. destruct (nlookup t recs); reflexivity. Qed.

Lemma tuples_of_set t recs :
  exists A B, tuples_of recs = A ++ vec_of t recs ++ B /\
    forall ts', tuples_of (ainsert N.eqb t ts' recs) = A ++ ts' ++ B.
Proof.
  unfold vec_of, ainsert. destruct (nlookup t recs) as [ts|] eqn:H.
  - destruct (alookup_split N.eqb N.eqb_eq _ _ _ H) as (pre & suf & -> & _ & Hr & _).
    exists (tuples_of pre), (tuples_of suf). unfold tuples_of. split; [rewrite flat_map_app; reflexivity|].
    intro ts'. rewrite Hr, flat_map_app. reflexivity.
  - exists (tuples_of recs), []. unfold tuples_of. split; [rewrite app_nil_r; reflexivity|].
    intro ts'. rewrite flat_map_app. cbn [flat_map snd]. rewrite app_nil_r. reflexivity.
Qed.

Lemma rlook_insert recs t ts' t' d' :
  rlook (ainsert N.eqb t ts' recs) t' d' = if t' =? t then rlookup d' ts' else rlook recs t' d'.
Proof. unfold rlook. rewrite (alookup_ainsert N.eqb N.eqb_eq). destruct (t' =? t); reflexivity. Qed.

Lemma swap_remove_dup_some d l e l' :
  swap_remove_dup d l = Some (e, l') -> Permutation l ((d, e) :: l').
Proof.
  revert e l'. induction l as [|[d0 e0] t IH]; intros e l'; cbn [swap_remove_dup]; [discriminate|].
  destruct (rdata_eqb d0 d) eqn:E.
  - apply rdata_eqb_eq in E. subst d0. intro H. inversion H; subst. apply perm_skip.
    destruct t as [|x t']; [constructor|].
    assert (Hne : x :: t' <> []) by discriminate.
    rewrite (app_removelast_last (d, e) Hne) at 1.
    apply Permutation_sym, Permutation_cons_append.
  - destruct (swap_remove_dup d t) as [[e1 t1]|] eqn:E1; [|discriminate].
    intro H. inversion H; subst. specialize (IH _ _ eq_refl).
    eapply perm_trans; [apply perm_skip, IH|]. apply perm_swap.
Qed.

Lemma swap_remove_dup_none d l : swap_remove_dup d l = None -> ~ In d (map fst l).
Proof.
  induction l as [|[d0 e0] t IH]; cbn [swap_remove_dup map fst In]; [tauto|].
  destruct (rdata_eqb d0 d) eqn:E; [discriminate|].
  destruct (swap_remove_dup d t) as [[e1 t1]|]; [discriminate|].
  intros _ [H|H]; [|exact (IH eq_refl H)].
  subst. rewrite (keqb_refl rdata_eqb rdata_eqb_eq) in E. discriminate.
Qed.

(* a Vec after the duplicate (if any) was swapped out and the new tuple pushed *)
Lemma pushed_tuples (d : rdata) (e : N) (ts dup ts0 : tuples) :
  NoDup (map fst ts) -> Permutation ts (dup ++ ts0) -> (forall x, In x dup -> fst x = d) ->
  ~ In d (map fst ts0) ->
  NoDup (map fst (ts0 ++ [(d, e)])) /\
  forall d', rlookup d' (ts0 ++ [(d, e)]) = if rdata_eqb d' d then Some e else rlookup d' ts.
Proof.
  intros Hnd Hp Hdup Hni.
  assert (Hnd0 : NoDup (map fst ts0)).
  { apply (Permutation_map fst) in Hp. apply (Permutation_NoDup Hp) in Hnd.
    rewrite map_app in Hnd. induction (map fst dup) as [|x l IH]; [exact Hnd|]. inversion Hnd; auto. }
  split.
  - rewrite map_app. apply NoDup_snoc; assumption.
  - intro d'. rewrite (alookup_app rdata_eqb). cbn [alookup].
    destruct (rdata_eqb d' d) eqn:E.
    + apply rdata_eqb_eq in E. subst d'.
      apply (alookup_none_iff rdata_eqb rdata_eqb_eq) in Hni. rewrite Hni. reflexivity.
    + assert (Hne : d' <> d) by (apply (keqb_false rdata_eqb rdata_eqb_eq); exact E).
      assert (Heq : rlookup d' ts0 = rlookup d' ts).
      { apply (alookup_ext_key rdata_eqb rdata_eqb_eq); [exact Hnd0 | exact Hnd|].
        intro v. rewrite Hp, in_app_iff. split; [auto|].
        intros [H|H]; [|exact H]. apply Hdup in H. contradiction. }
      rewrite Heq. destruct (rlookup d' ts); reflexivity.
Qed.

(* [q'] is the queue [q] with key [k] bound to [ov] ([None]: not a key) *)
Definition q_set (q q' : pqueue) (k : dname) (ov : option N) : Prop :=
  NoDup (map fst q) ->
  NoDup (map fst q') /\ forall k', dlookup k' q' = if dname_eqb k' k then ov else dlookup k' q.

Lemma q_set_same q k ov : dlookup k q = ov -> q_set q q k ov.
Proof.
  intros <- Hn. split; [exact Hn|]. intro k'. destruct (dname_eqb k' k) eqn:E; [|reflexivity].
  apply dname_eqb_eq in E. subst. reflexivity.
Qed.

Lemma q_set_trans q q1 q2 k v1 v2 : q_set q q1 k v1 -> q_set q1 q2 k v2 -> q_set q q2 k v2.
Proof.
  intros H1 H2 Hn. destruct (H1 Hn) as [N1 L1]. destruct (H2 N1) as [N2 L2]. split; [exact N2|].
  intro k'. rewrite L2, L1. destruct (dname_eqb k' k); reflexivity.
Qed.

Lemma q_set_change q q1 k v1 v : q_set q q1 k (Some v1) -> q_set q (pq_change k v q1) k (Some v).
Proof.
  intros H1 Hn. destruct (H1 Hn) as [N1 L1]. unfold pq_change. split; [rewrite (areplace_keys dname_eqb); exact N1|].
  intro k'. rewrite (alookup_areplace dname_eqb dname_eqb_eq), !L1, (keqb_refl dname_eqb dname_eqb_eq).
  destruct (dname_eqb k' k); reflexivity.
Qed.

Lemma q_set_push q k v : q_set q (pq_push k v q) k (Some v).
Proof.
  intro Hn. split; [apply (ainsert_nodup dname_eqb dname_eqb_eq), Hn|].
  intro k'. apply (alookup_ainsert dname_eqb dname_eqb_eq).
Qed.

Lemma q_set_remove q k : q_set q (pq_remove k q) k None.
Proof.
  intro Hn. split; [apply (aremove_nodup dname_eqb), Hn|].
  intro k'. apply (alookup_aremove dname_eqb dname_eqb_eq), Hn.
Qed.

Lemma queue_ok_set q q' parts parts' f k op :
  queue_ok q parts f -> q_set q q' k (option_map f op) ->
  (forall k', dlookup k' parts' = if dname_eqb k' k then op else dlookup k' parts) ->
  queue_ok q' parts' f.
Proof.
  intros [Hn Hl] Hs Hp. destruct (Hs Hn) as [Hn' Hl']. split; [exact Hn'|].
  intro k'. rewrite Hl', Hp, Hl. destruct (dname_eqb k' k); reflexivity.
Qed.

Lemma min_expiry_from_spec init recs :
  min_of (min_expiry_from init recs) (init :: map snd (tuples_of recs)).
Proof.
  replace (min_expiry_from init recs)
    with (fold_left (fun acc e => if e <? acc then e else acc) (map snd (tuples_of recs)) init); [apply fold_min_spec|].
  unfold min_expiry_from, tuples_of. revert init.
  induction (flat_map snd recs) as [|x l IH]; intro i; cbn [fold_left map]; [reflexivity | apply IH].
Qed.

Lemma vec_nodup p t : Inv_part p -> NoDup (map fst (vec_of t (p_records p))).
Proof.
  intros [_ Hv _ _]. unfold vec_of. destruct (nlookup t (p_records p)) as [ts|] eqn:H; [|constructor].
  exact (alookup_forall N.eqb N.eqb_eq _ _ _ _ Hv H).
Qed.

(* the records of a partition after (d, expiry) was pushed on the Vec of type t, from which the
   duplicates [dup] of d (one or none) had been taken out: [X] is everything else *)
Lemma pushed_records p t d expiry dup ts0 :
  Inv_part p ->
  Permutation (vec_of t (p_records p)) (dup ++ ts0) -> (forall x, In x dup -> fst x = d) ->
  ~ In d (map fst ts0) ->
  let recs' := ainsert N.eqb t (ts0 ++ [(d, expiry)]) (p_records p) in
  NoDup (map fst recs') /\ Forall (fun e => NoDup (map fst (snd e))) recs' /\
  (forall t' d', rlook recs' t' d' =
                 if (t' =? t) && rdata_eqb d' d then Some expiry else rlook (p_records p) t' d') /\
  exists X, Permutation (tuples_of recs') ((d, expiry) :: X) /\
            Permutation (tuples_of (p_records p)) (dup ++ X).
Proof.
  intros HP Hp Hdup Hni recs'. pose proof HP as [Hk Hv _ _].
  destruct (pushed_tuples d expiry _ dup ts0 (vec_nodup p t HP) Hp Hdup Hni) as [Hnd' Hlk].
  destruct (tuples_of_set t (p_records p)) as (A & B & Hall & Hall').
  split; [apply (ainsert_nodup N.eqb N.eqb_eq), Hk|].
  split; [apply (ainsert_forall N.eqb N.eqb_eq); assumption|]. split.
  - intros t' d'. unfold recs'. rewrite rlook_insert.
    destruct (N.eqb_spec t' t) as [->|Hne]; cbn [andb]; [|reflexivity]. rewrite Hlk, rlook_vec. reflexivity.
  - exists (A ++ ts0 ++ B). split.
    + unfold recs'. rewrite Hall', <- !app_assoc. cbn [app]. rewrite !app_assoc. symmetry. apply Permutation_middle.
    + rewrite Hall, Hp, <- app_assoc. apply Permutation_app_swap_app.
Qed.

(* what the first block of upsert (existing partition) must deliver *)
Definition block_ok (p : partition) (c : cache) (name : dname) (t : N) (d : rdata) (expiry : N)
  (st : list (N * tuples) * N * N * N * pqueue) : Prop :=
  let '(recs, psize, csize, ne, xq) := st in
  NoDup (map fst recs) /\
  Forall (fun e => NoDup (map fst (snd e))) recs /\
  psize + 1 = llen (tuples_of recs) /\
  csize + p_size p = c_size c + psize /\
  min_of (if expiry <? ne then expiry else ne) (map snd (tuples_of recs)) /\
  (forall t' d', rlook recs t' d' =
                 if (t' =? t) && rdata_eqb d' d then Some expiry else rlook (p_records p) t' d') /\
  q_set (c_expiry c) xq name (Some ne).

Lemma block_dup p c name t d expiry ts de ts' :
  Inv_part p -> 1 <= c_size c -> dlookup name (c_expiry c) = Some (p_next_expiry p) ->
  nlookup t (p_records p) = Some ts -> swap_remove_dup d ts = Some (de, ts') ->
  exists st,
    (let recs := areplace N.eqb t (ts' ++ [(d, expiry)]) (p_records p) in
     let* psize := csub (p_size p) 1 in
     let* csize := csub (c_size c) 1 in
     if de =? p_next_expiry p then
       let ne := min_expiry_from expiry recs in
       Ok (recs, psize, csize, ne, pq_change name ne (c_expiry c))
     else Ok (recs, psize, csize, p_next_expiry p, c_expiry c)) = Ok st /\
    block_ok p c name t d expiry st.
Proof.
  intros HP Hc Hq Ht Hsw. destruct (inv_part_tuples p HP) as [Hs Hm].
  apply swap_remove_dup_some in Hsw.
  rewrite <- (ainsert_some N.eqb _ (ts' ++ [(d, expiry)]) _ _ Ht).
  replace ts with (vec_of t (p_records p)) in Hsw by (unfold vec_of; rewrite Ht; reflexivity).
  assert (Hni : ~ In d (map fst ts')).
  { pose proof (vec_nodup p t HP) as Hts. apply (Permutation_map fst) in Hsw. apply (Permutation_NoDup Hsw) in Hts.
    inversion Hts; assumption. }
  destruct (pushed_records p t d expiry [(d, de)] ts' HP Hsw) as (C1 & C2 & C6 & X & P2 & P1);
    [intros x [<-|[]]; reflexivity | exact Hni |]. cbn [app] in P1.
  set (recs := ainsert N.eqb t (ts' ++ [(d, expiry)]) (p_records p)) in *.
  assert (L1 : p_size p = 1 + llen X) by (rewrite Hs, (llen_perm _ _ P1), llen_cons; reflexivity).
  assert (L2 : llen (tuples_of recs) = 1 + llen X) by (rewrite (llen_perm _ _ P2), llen_cons; reflexivity).
  cbv zeta. rewrite (csub_ok (p_size p) 1) by lia. rewrite (csub_ok (c_size c) 1) by lia. cbn [bind].
  apply (Permutation_map snd) in P1, P2. cbn [map snd] in P1, P2.
  destruct (N.eqb_spec de (p_next_expiry p)) as [Hde|Hde]; (eexists; split; [reflexivity|]); unfold block_ok;
    (split; [exact C1|]); (split; [exact C2|]); (split; [lia|]); (split; [lia|]); (split; [|split; [exact C6|]]).
  - (* the earliest record was replaced: the minimum is taken afresh, over the whole partition *)
    destruct (min_expiry_from_spec expiry recs) as [F1 F2]. inversion F2 as [|? ? Hle F3]; subst.
    destruct (N.ltb_spec expiry (min_expiry_from expiry recs)); [lia|]. split; [|exact F3].
    destruct F1 as [F1|F1]; [|exact F1]. rewrite <- F1.
    eapply Permutation_in; [apply Permutation_sym, P2|left; reflexivity].
  - eapply q_set_change, q_set_same, Hq.
  - eapply min_of_perm; [apply Permutation_sym, P2|]. apply min_of_add.
    apply (min_of_perm _ _ _ P1) in Hm. destruct Hm as [M1 M2]. inversion M2; subst. split; [|assumption].
    destruct M1 as [M1|M1]; [congruence | exact M1].
  - apply q_set_same, Hq.
Qed.

(* no duplicate: the Vec of type t (empty if the type is new) just grows *)
Lemma block_fresh p c name t d expiry ts :
  Inv_part p -> dlookup name (c_expiry c) = Some (p_next_expiry p) ->
  vec_of t (p_records p) = ts -> ~ In d (map fst ts) ->
  block_ok p c name t d expiry
    (ainsert N.eqb t (ts ++ [(d, expiry)]) (p_records p), p_size p, c_size c, p_next_expiry p, c_expiry c).
Proof.
  intros HP Hq <- Hni. destruct (inv_part_tuples p HP) as [Hs Hm].
  destruct (pushed_records p t d expiry [] _ HP (Permutation_refl _)) as (C1 & C2 & C6 & X & P2 & P1);
    [intros x [] | exact Hni |]. cbn [app] in P1.
  unfold block_ok. split; [exact C1|]. split; [exact C2|].
  split; [rewrite (llen_perm _ _ P2), llen_cons, <- (llen_perm _ _ P1); lia|]. split; [lia|].
  split; [|split; [exact C6|apply q_set_same, Hq]].
  apply (Permutation_map snd) in P1, P2. cbn [map snd] in P2.
  eapply min_of_perm; [apply Permutation_sym, P2|]. apply min_of_add. eapply min_of_perm; eassumption.
Qed.

Lemma inv_part_of c n p : Inv c -> dlookup n (c_parts c) = Some p -> Inv_part p.
Proof. intros H Hl. exact (alookup_forall dname_eqb dname_eqb_eq _ _ _ _ (inv_parts c H) Hl). Qed.

Lemma queue_lookup q parts f n p :
  queue_ok q parts f -> dlookup n parts = Some p -> dlookup n q = Some (f p).
Proof. intros [_ H] Hl. rewrite H, Hl. reflexivity. Qed.

Lemma queue_lookup_inv q parts f n v :
  queue_ok q parts f -> dlookup n q = Some v -> exists p, dlookup n parts = Some p /\ f p = v.
Proof.
  intros [_ H] Hl. rewrite H in Hl. destruct (dlookup n parts) as [p|]; [|discriminate].
  exists p. inversion Hl. auto.
Qed.

Lemma part_size_pos p : Inv_part p -> 1 <= p_size p.
Proof.
  intros [_ _ Hs [Hm _]]. rewrite Hs. destruct (all_tuples p); [destruct Hm|rewrite llen_cons; lia].
Qed.

Lemma part_size_le c n p : Inv c -> dlookup n (c_parts c) = Some p -> p_size p <= c_size c.
Proof. intros H Hl. rewrite (inv_size c H). eapply (asum_lookup_le dname_eqb dname_eqb_eq), Hl. Qed.

(* [c'] is [c] with the partition of [name] set to [op] ([None]: removed): the invariant holds again and
   the abstract maps change at that name only *)
Definition part_set (c c' : cache) (name : dname) (op : option partition) : Prop :=
  Inv c' /\ c_desired c' = c_desired c /\
  (forall n t d, abs_map c' (n, t, d) =
     if dname_eqb n name then match op with Some p' => rlook (p_records p') t d | None => None end
     else abs_map c (n, t, d)) /\
  (forall n, abs_lru c' n = if dname_eqb n name then option_map p_last_read op else abs_lru c n).

Lemma part_set_intro c c' name op :
  Inv c' -> c_desired c' = c_desired c ->
  (forall k, dlookup k (c_parts c') = if dname_eqb k name then op else dlookup k (c_parts c)) ->
  part_set c c' name op.
Proof.
  intros I D Lp. split; [exact I|]. split; [exact D|]. split.
  - intros n t d. rewrite !abs_map_unfold, Lp. destruct (dname_eqb n name); [destruct op|]; reflexivity.
  - intro n. unfold abs_lru. rewrite Lp. destruct (dname_eqb n name); reflexivity.
Qed.

Lemma part_replace c name p p' acc' exp' sz' :
  Inv c -> dlookup name (c_parts c) = Some p -> Inv_part p' ->
  q_set (c_access c) acc' name (Some (p_last_read p')) ->
  q_set (c_expiry c) exp' name (Some (p_next_expiry p')) ->
  sz' + p_size p = c_size c + p_size p' ->
  part_set c {| c_parts := areplace dname_eqb name p' (c_parts c); c_access := acc'; c_expiry := exp';
                c_size := sz'; c_desired := c_desired c |} name (Some p').
Proof.
  intros [Hk Hp Ha He Hs] Hl Hp' Sa Se Hsz.
  assert (Lp : forall k, dlookup k (areplace dname_eqb name p' (c_parts c)) =
                         if dname_eqb k name then Some p' else dlookup k (c_parts c)).
  { intro k. rewrite (alookup_areplace dname_eqb dname_eqb_eq), Hl. reflexivity. }
  apply part_set_intro; [constructor; cbn [c_parts c_access c_expiry c_size c_desired]|reflexivity|exact Lp].
  - rewrite (areplace_keys dname_eqb). exact Hk.
  - apply (areplace_forall dname_eqb dname_eqb_eq); [exact Hp | exact Hp'].
  - exact (queue_ok_set _ _ _ _ _ _ (Some p') Ha Sa Lp).
  - exact (queue_ok_set _ _ _ _ _ _ (Some p') He Se Lp).
  - pose proof (asum_replace dname_eqb dname_eqb_eq p_size name (c_parts c) p p' Hl). lia.
Qed.

Lemma part_remove c name p acc' exp' sz' :
  Inv c -> dlookup name (c_parts c) = Some p ->
  q_set (c_access c) acc' name None -> q_set (c_expiry c) exp' name None ->
  sz' + p_size p = c_size c ->
  part_set c {| c_parts := aremove dname_eqb name (c_parts c); c_access := acc'; c_expiry := exp';
                c_size := sz'; c_desired := c_desired c |} name None.
Proof.
  intros [Hk Hp Ha He Hs] Hl Sa Se Hsz.
  assert (Lp : forall k, dlookup k (aremove dname_eqb name (c_parts c)) =
                         if dname_eqb k name then None else dlookup k (c_parts c))
    by (intro k; apply (alookup_aremove dname_eqb dname_eqb_eq), Hk).
  apply part_set_intro; [constructor; cbn [c_parts c_access c_expiry c_size c_desired]|reflexivity|exact Lp].
  - apply (aremove_nodup dname_eqb), Hk.
  - apply (aremove_forall dname_eqb), Hp.
  - exact (queue_ok_set _ _ _ _ _ _ None Ha Sa Lp).
  - exact (queue_ok_set _ _ _ _ _ _ None He Se Lp).
  - pose proof (asum_remove dname_eqb dname_eqb_eq p_size name (c_parts c) p Hl). lia.
Qed.

Lemma part_insert c name p' acc' exp' :
  Inv c -> dlookup name (c_parts c) = None -> Inv_part p' ->
  q_set (c_access c) acc' name (Some (p_last_read p')) ->
  q_set (c_expiry c) exp' name (Some (p_next_expiry p')) ->
  part_set c {| c_parts := ainsert dname_eqb name p' (c_parts c); c_access := acc'; c_expiry := exp';
                c_size := c_size c + p_size p'; c_desired := c_desired c |} name (Some p').
Proof.
  intros [Hk Hp Ha He Hs] Hl Hp' Sa Se.
  assert (Lp : forall k, dlookup k (ainsert dname_eqb name p' (c_parts c)) =
                         if dname_eqb k name then Some p' else dlookup k (c_parts c))
    by (intro k; apply (alookup_ainsert dname_eqb dname_eqb_eq)).
  apply part_set_intro; [constructor; cbn [c_parts c_access c_expiry c_size c_desired]|reflexivity|exact Lp].
  - apply (ainsert_nodup dname_eqb dname_eqb_eq), Hk.
  - apply (ainsert_forall dname_eqb dname_eqb_eq); [exact Hp | exact Hp'].
  - exact (queue_ok_set _ _ _ _ _ _ (Some p') Ha Sa Lp).
  - exact (queue_ok_set _ _ _ _ _ _ (Some p') He Se Lp).
  - rewrite (ainsert_none dname_eqb _ _ _ Hl), (asum_app (K:=dname)), Hs. cbn [asum fold_right snd]. lia.
Qed.

Lemma abs_map_name c n t d p :
  dlookup n (c_parts c) = Some p -> abs_map c (n, t, d) = rlook (p_records p) t d.
Proof. intro H. rewrite abs_map_unfold, H. reflexivity. Qed.

Lemma abs_lru_name c n p : dlookup n (c_parts c) = Some p -> abs_lru c n = Some (p_last_read p).
Proof. intro H. unfold abs_lru. rewrite H. reflexivity. Qed.

Lemma key_eqb_spec n t d n' t' d' :
  key_eqb (n, t, d) (n', t', d') = dname_eqb n n' && (t =? t') && rdata_eqb d d'.
Proof. reflexivity. Qed.

Lemma key_eqb_eq a b : key_eqb a b = true <-> a = b.
Proof.
  destruct a as [[n t] d], b as [[n' t'] d']. rewrite key_eqb_spec, !andb_true_iff, dname_eqb_eq, N.eqb_eq, rdata_eqb_eq.
  split; [intros [[-> ->] ->]; reflexivity | intro H; inversion H; auto].
Qed.

Lemma touch_ok c name p now :
  Inv c -> dlookup name (c_parts c) = Some p ->
  Inv (touch c name p now) /\
  (forall k, abs_map (touch c name p now) k = abs_map c k) /\
  (forall n, abs_lru (touch c name p now) n = if dname_eqb n name then Some now else abs_lru c n).
Proof.
  intros HI Hl. pose proof (inv_part_of _ _ _ HI Hl) as [P1 P2 P3 P4].
  destruct (part_replace c name p {| p_last_read := now; p_next_expiry := p_next_expiry p; p_size := p_size p;
                                     p_records := p_records p |}
              (pq_change name now (c_access c)) (c_expiry c) (c_size c) HI Hl) as (I & _ & M & U).
  - constructor; assumption.
  - exact (q_set_change _ _ _ _ _ (q_set_same _ _ _ (queue_lookup _ _ _ _ _ (inv_access c HI) Hl))).
  - exact (q_set_same _ _ _ (queue_lookup _ _ _ _ _ (inv_expiry c HI) Hl)).
  - reflexivity.
  - split; [exact I|]. split; [|exact U]. intros [[n t] d]. rewrite M. cbn [p_records].
    destruct (dname_eqb n name) eqn:E; [|reflexivity].
    apply dname_eqb_eq in E. subst. symmetry. apply abs_map_name, Hl.
Qed.

(* the partition of [name] now holds (t, d) with the new expiry and everything it held before *)
Lemma upsert_post c c' now name t d expiry p' :
  part_set c c' name (Some p') -> p_last_read p' = now ->
  (forall t' d', rlook (p_records p') t' d' =
                 if (t' =? t) && rdata_eqb d' d then Some expiry else abs_map c (name, t', d')) ->
  Inv c' /\
  (forall k, abs_map c' k = if key_eqb (name, t, d) k then Some expiry else abs_map c k) /\
  (forall n, abs_lru c' n = if dname_eqb name n then Some now else abs_lru c n) /\
  c_desired c' = c_desired c.
Proof.
  intros (I & D & M & U) <- Hr. split; [exact I|]. split; [|split; [|exact D]].
  - intros [[n' t'] d']. rewrite M, key_eqb_spec, (keqb_sym dname_eqb dname_eqb_eq name n'), (N.eqb_sym t t'),
      (keqb_sym rdata_eqb rdata_eqb_eq d d').
    destruct (dname_eqb n' name) eqn:E; cbn [andb]; [|reflexivity]. apply dname_eqb_eq in E. subst n'. apply Hr.
  - intro n. rewrite U, (keqb_sym dname_eqb dname_eqb_eq). reflexivity.
Qed.

Lemma upsert_ok c now name t d ttl :
  Inv c ->
  exists c', upsert c now name t d ttl = Ok c' /\ Inv c' /\
    (forall k, abs_map c' k = if key_eqb (name, t, d) k then Some (now + ttl) else abs_map c k) /\
    (forall n, abs_lru c' n = if dname_eqb name n then Some now else abs_lru c n) /\
    c_desired c' = c_desired c.
Proof.
  intro HI. unfold upsert. set (expiry := now + ttl).
  destruct (dlookup name (c_parts c)) as [p|] eqn:Hl.
  - pose proof (inv_part_of _ _ _ HI Hl) as HP.
    pose proof (queue_lookup _ _ _ _ _ (inv_expiry c HI) Hl) as Hq.
    pose proof (queue_lookup _ _ _ _ _ (inv_access c HI) Hl) as Hqa.
    pose proof (part_size_pos _ HP) as Hpos. pose proof (part_size_le _ _ _ HI Hl) as Hle.
    (* the first block *)
    match goal with |- context [bind ?blk _] =>
      assert (HB : exists st, blk = Ok st /\ block_ok p c name t d expiry st) end.
    { destruct (nlookup t (p_records p)) as [ts|] eqn:Ht.
      - destruct (swap_remove_dup d ts) as [[de ts']|] eqn:Hsw.
        + apply (block_dup p c name t d expiry ts de ts'); try assumption. lia.
        + eexists. split; [reflexivity|]. rewrite <- (ainsert_some N.eqb _ (ts ++ [(d, expiry)]) _ _ Ht).
          apply block_fresh; [assumption..| |apply swap_remove_dup_none, Hsw]. unfold vec_of. rewrite Ht. reflexivity.
      - eexists. split; [reflexivity|]. apply (block_fresh p c name t d expiry []); [assumption..| |intros []].
        unfold vec_of. rewrite Ht. reflexivity. }
    destruct HB as ([[[[recs psize] csize] ne] xq] & -> & B1 & B2 & B3 & B4 & B5 & B6 & B7).
    cbn [bind].
    (* then the queues and the sizes *)
    assert (Hfin : (if expiry <? ne then (expiry, pq_change name expiry xq) else (ne, xq)) =
                   (if expiry <? ne then expiry else ne, if expiry <? ne then pq_change name expiry xq else xq))
      by (destruct (expiry <? ne); reflexivity).
    rewrite Hfin. eexists. split; [reflexivity|].
    eapply upsert_post; [eapply part_replace; try eassumption| reflexivity |].
    + constructor; cbn [p_records p_size p_next_expiry]; unfold all_tuples; fold (tuples_of recs);
        [assumption | assumption | exact B3 | exact B5].
    + eapply q_set_change, q_set_same, Hqa.
    + cbn [p_next_expiry]. destruct (expiry <? ne); [eapply q_set_change|]; exact B7.
    + cbn [p_size]. lia.
    + intros t' d'. cbn [p_records]. rewrite B6, (abs_map_name _ _ _ _ _ Hl). reflexivity.
  - (* a new partition *)
    set (p' := {| p_last_read := now; p_next_expiry := expiry; p_size := 1;
                  p_records := ainsert N.eqb t [(d, expiry)] [] |}).
    eexists. split; [reflexivity|].
    apply (upsert_post c _ now name t d expiry p'); [apply (part_insert c name p' _ _ HI Hl); [|apply q_set_push..] | reflexivity |].
    + constructor; cbn [p' p_records p_size p_next_expiry all_tuples ainsert alookup app flat_map snd map fst].
      * constructor; [intros []|constructor].
      * constructor; [|constructor]. cbn [snd map fst]. constructor; [intros []|constructor].
      * reflexivity.
      * apply min_of_single.
    + intros t' d'. cbn [p' p_records]. rewrite rlook_insert, abs_map_unfold, Hl.
      destruct (t' =? t); cbn [andb alookup]; [|reflexivity]. destruct (rdata_eqb d' d); reflexivity.
Qed.

Lemma shared_insert_ok c now r :
  Inv c ->
  exists c', shared_insert c now r = Ok c' /\ Inv c' /\
    (forall k, abs_map c' k = a_insert (abs_map c) now r k) /\
    (forall n, abs_lru c' n = a_touch (abs_lru c) now r n) /\
    c_desired c' = c_desired c.
Proof.
  intro HI. unfold shared_insert, a_insert, a_touch.
  destruct (0 <? rr_ttl r); cbn [andb].
  - unfold cache_insert. destruct (upsert_ok c now (rr_name r) (rr_type r) (rr_data r) (rr_ttl r * NS_PER_S) HI)
      as (c' & H1 & H2 & H3 & H4 & H5).
    exists c'. unfold rr_key, expiry_of. auto.
  - exists c. auto.
Qed.

Lemma a_insert_all_ext m1 m2 now rs :
  (forall k, m1 k = m2 k) -> forall k, a_insert_all m1 now rs k = a_insert_all m2 now rs k.
Proof.
  revert m1 m2. induction rs as [|r rs IH]; intros m1 m2 H k; cbn [a_insert_all]; [apply H|].
  apply IH. intro k'. unfold a_insert. rewrite H. reflexivity.
Qed.
Lemma a_touch_all_ext l1 l2 now rs :
  (forall n, l1 n = l2 n) -> forall n, a_touch_all l1 now rs n = a_touch_all l2 now rs n.
Proof.
  revert l1 l2. induction rs as [|r rs IH]; intros l1 l2 H n; cbn [a_touch_all]; [apply H|].
  apply IH. intro n'. unfold a_touch. rewrite H. reflexivity.
Qed.

Lemma shared_insert_all_ok rs : forall c now,
  Inv c ->
  exists c', shared_insert_all c now rs = Ok c' /\ Inv c' /\
    (forall k, abs_map c' k = a_insert_all (abs_map c) now rs k) /\
    (forall n, abs_lru c' n = a_touch_all (abs_lru c) now rs n) /\
    c_desired c' = c_desired c.
Proof.
  induction rs as [|r rs IH]; intros c now HI; cbn [shared_insert_all a_insert_all a_touch_all].
  - exists c. auto.
  - destruct (shared_insert_ok c now r HI) as (c1 & -> & I1 & M1 & L1 & D1). cbn [bind].
    destruct (IH c1 now I1) as (c2 & -> & I2 & M2 & L2 & D2).
    exists c2. split; [reflexivity|]. split; [exact I2|]. split; [|split].
    + intro k. rewrite M2. apply a_insert_all_ext, M1.
    + intro n. rewrite L2. apply a_touch_all_ext, L1.
    + congruence.
Qed.

Lemma nodup_flat_map_tag {A B K} (key : A -> K) (tag : B -> K) (f : A -> list B) l :
  NoDup (map key l) -> (forall x, In x l -> NoDup (f x)) ->
  (forall x y, In x l -> In y (f x) -> tag y = key x) -> NoDup (flat_map f l).
Proof.
  induction l as [|a l IH]; intros Hk Hn Ht; cbn [flat_map]; [constructor|].
  cbn [map] in Hk. inversion Hk as [|? ? Hni Hk']; subst.
  apply nodup_app.
  - apply Hn. left; reflexivity.
  - apply IH; [exact Hk' | intros x Hx; apply Hn; right; exact Hx | intros x y Hx Hy; apply Ht; [right; exact Hx | exact Hy]].
  - intros y Hy Hy'. apply in_flat_map in Hy'. destruct Hy' as (x & Hx & Hyx).
    apply Hni. rewrite <- (Ht a y (or_introl eq_refl) Hy), (Ht x y (or_intror Hx) Hyx). apply in_map, Hx.
Qed.

Lemma nodup_map_filter {A B} (f : A -> B) (g : A -> bool) l : NoDup (map f l) -> NoDup (map f (filter g l)).
Proof.
  induction l as [|x l IH]; cbn [map filter]; intro H; [constructor|].
  inversion H; subst. destruct (g x); cbn [map]; [constructor|]; auto.
  intro Hin. match goal with H : ~ In _ _ |- _ => apply H end. exact (incl_map f (incl_filter g l) _ Hin).
Qed.

Lemma to_rrs_in name now t ts r :
  In r (to_rrs name now t ts) <->
  exists d e, In (d, e) ts /\
    r = {| rr_name := name; rr_type := t; rr_class := RC_IN; rr_ttl := remaining e now; rr_data := d |}.
Proof.
  unfold to_rrs. rewrite in_map_iff. split.
  - intros ([d e] & <- & Hin). exists d, e. cbn [fst snd]. rewrite remaining_secs_spec. auto.
  - intros (d & e & Hin & ->). exists (d, e). cbn [fst snd]. rewrite remaining_secs_spec. auto.
Qed.

Lemma to_rrs_keys name now t ts :
  map rr_key (to_rrs name now t ts) = map (fun d => (name, t, d)) (map fst ts).
Proof. unfold to_rrs. rewrite !map_map. reflexivity. Qed.

Lemma nodup_map_key (name : dname) (t : N) (ds : list rdata) :
  NoDup ds -> NoDup (map (fun d => (name, t, d)) ds).
Proof. apply FinFun.Injective_map_NoDup. intros x y [= ->]. reflexivity. Qed.

Lemma qtype_special qt :
  existsb (fun p => N.eqb (fst p) qt) qtype_table = true <->
  (qt = QT_AXFR \/ qt = QT_MAILB \/ qt = QT_MAILA \/ qt = QT_Wildcard).
Proof.
  unfold qtype_table, QT_AXFR, QT_MAILB, QT_MAILA, QT_Wildcard. cbn [existsb fst].
  rewrite !orb_true_iff, !N.eqb_eq. intuition congruence.
Qed.

(* the records of one type, as an answer *)
Lemma typed_answer c now name t p ts :
  Inv c -> dlookup name (c_parts c) = Some p -> nlookup t (p_records p) = Some ts ->
  forall r, In r (to_rrs name now t ts) <->
    rr_name r = name /\ rr_class r = RC_IN /\ rr_type r = t /\
    exists e, abs_map c (rr_key r) = Some e /\ rr_ttl r = remaining e now.
Proof.
  intros HI Hl Ht r. pose proof (inv_part_of _ _ _ HI Hl) as [_ Hv _ _].
  assert (Hts : NoDup (map fst ts)) by exact (alookup_forall N.eqb N.eqb_eq _ _ _ _ Hv Ht).
  rewrite to_rrs_in. split.
  - intros (d & e & Hin & ->). cbn [rr_name rr_class rr_type rr_ttl rr_key rr_data].
    split; [reflexivity|]. split; [reflexivity|]. split; [reflexivity|].
    exists e. split; [|reflexivity]. unfold rr_key. cbn [rr_name rr_type rr_data].
    rewrite (abs_map_name _ _ _ _ _ Hl). unfold rlook. rewrite Ht.
    apply (in_alookup rdata_eqb rdata_eqb_eq); assumption.
  - intros (Hn & Hc & Hty & e & Ha & Httl). exists (rr_data r), e. split.
    + unfold rr_key in Ha. rewrite Hn, Hty, (abs_map_name _ _ _ _ _ Hl) in Ha. unfold rlook in Ha. rewrite Ht in Ha.
      apply (alookup_in rdata_eqb rdata_eqb_eq), Ha.
    + destruct r; cbn in *; congruence.
Qed.

Definition any_rrs (name : dname) (now : N) (recs : list (N * list (rdata * N))) : list rr :=
  flat_map (fun e => to_rrs name now (fst e) (snd e)) recs.

Lemma any_nodup name now recs :
  NoDup (map fst recs) -> Forall (fun e => NoDup (map fst (snd e))) recs ->
  NoDup (map rr_key (any_rrs name now recs)).
Proof.
  intros Hk Hv. unfold any_rrs. rewrite map_flat_map. apply (nodup_flat_map_tag fst key_type); [exact Hk| |].
  - intros [t ts] Hin. cbn [fst snd]. rewrite to_rrs_keys. apply nodup_map_key.
    rewrite Forall_forall in Hv. exact (Hv _ Hin).
  - intros [t ts] y _ Hy. cbn [fst snd] in *. rewrite to_rrs_keys, in_map_iff in Hy.
    destruct Hy as (d & <- & _). reflexivity.
Qed.

Lemma any_answer c now name p :
  Inv c -> dlookup name (c_parts c) = Some p ->
  forall r, In r (any_rrs name now (p_records p)) <->
    rr_name r = name /\ rr_class r = RC_IN /\
    exists e, abs_map c (rr_key r) = Some e /\ rr_ttl r = remaining e now.
Proof.
  intros HI Hl r. pose proof (inv_part_of _ _ _ HI Hl) as [Hk _ _ _].
  unfold any_rrs. rewrite in_flat_map. split.
  - intros ([t ts] & Hin & Hr). cbn [fst snd] in Hr.
    apply (in_alookup N.eqb N.eqb_eq _ _ _ Hk) in Hin.
    apply (typed_answer c now name t p ts HI Hl Hin) in Hr. tauto.
  - intros (Hn & Hc & e & Ha & Httl).
    pose proof Ha as Ha'. unfold rr_key in Ha'. rewrite Hn, (abs_map_name _ _ _ _ _ Hl) in Ha'. unfold rlook in Ha'.
    destruct (nlookup (rr_type r) (p_records p)) as [ts|] eqn:Ht; [|discriminate].
    exists (rr_type r, ts). split; [apply (alookup_in N.eqb N.eqb_eq), Ht|]. cbn [fst snd].
    apply (typed_answer c now name _ p ts HI Hl Ht). split; [exact Hn|]. split; [exact Hc|]. split; [reflexivity|].
    exists e. auto.
Qed.

(* an answer of the raw getter: the clause of [answer_ok] about live records is void *)
Lemma answer_ok_raw m now name qt rrs :
  NoDup (map rr_key rrs) ->
  (forall r, In r rrs <->
     rr_name r = name /\ rr_class r = RC_IN /\ cache_qmatch qt (rr_type r) /\
     exists e, m (rr_key r) = Some e /\ rr_ttl r = remaining e now) ->
  answer_ok m now name qt false rrs.
Proof.
  intros Hn H. split; [exact Hn|]. intro r. rewrite H. split.
  - intros (A1 & A2 & A3 & e & A4 & A5). repeat (split; [assumption|]). exists e.
    split; [exact A4|]. split; [exact A5 | discriminate].
  - intros (A1 & A2 & A3 & e & A4 & A5 & _). repeat (split; [assumption|]). exists e. auto.
Qed.

(* what a lookup leaves behind and returns; [live] as in [answer_ok] *)
Definition get_post (c : cache) (now : N) (name : dname) (qt : N) (live : bool) (c' : cache) (rrs : list rr) : Prop :=
  Inv c' /\ (forall k, abs_map c' k = abs_map c k) /\
  answer_ok (abs_map c) now name qt live rrs /\
  lru_after_get (abs_map c) (abs_lru c) (abs_lru c') now name qt /\ c_desired c' = c_desired c.

(* nothing matches: the state is untouched and the answer empty *)
Lemma get_miss c now name qt :
  Inv c -> (forall t d e, cache_qmatch qt t -> abs_map c (name, t, d) = Some e -> False) ->
  get_post c now name qt false c [].
Proof.
  intros HI H. split; [exact HI|]. split; [reflexivity|]. split; [|split; [|reflexivity]].
  - split; [constructor|]. intro r. split; [intros []|]. intros (A1 & _ & A2 & e & A3 & _).
    unfold rr_key in A3. rewrite A1 in A3. exact (H _ _ _ A2 A3).
  - split; [reflexivity|]. split; [left; reflexivity|]. intros (t & d & e & A2 & A3). destruct (H _ _ _ A2 A3).
Qed.

(* the partition of [name] is read: it is touched, and [rs] is the answer *)
Lemma get_hit c now name qt p rs :
  Inv c -> dlookup name (c_parts c) = Some p -> answer_ok (abs_map c) now name qt false rs ->
  get_post c now name qt false (touch c name p now) rs.
Proof.
  intros HI Hl Ha. destruct (touch_ok c name p now HI Hl) as (T1 & T2 & T3).
  split; [exact T1|]. split; [exact T2|]. split; [exact Ha|]. split; [|reflexivity]. split; [|split].
  - intros n Hn. rewrite T3, (keqb_neq dname_eqb dname_eqb_eq _ _ Hn). reflexivity.
  - right. rewrite T3, (keqb_refl dname_eqb dname_eqb_eq). split; [|reflexivity].
    rewrite (abs_lru_name _ _ _ Hl). discriminate.
  - intros _. rewrite T3, (keqb_refl dname_eqb dname_eqb_eq). reflexivity.
Qed.

Lemma get_raw_ok c now name qt c' rrs :
  Inv c -> get_raw c now name qt = (c', rrs) -> get_post c now name qt false c' rrs.
Proof.
  intros HI.
  unfold get_raw. destruct (N.eqb_spec qt QT_Wildcard) as [Hw|Hw].
  - (* ANY *)
    unfold get_partition. destruct (dlookup name (c_parts c)) as [p|] eqn:Hl.
    + intros [= <- <-]. apply (get_hit _ _ _ _ _ _ HI Hl). pose proof (inv_part_of _ _ _ HI Hl) as [Hk Hv _ _].
      apply answer_ok_raw; [apply any_nodup; assumption|]. intro r. fold (any_rrs name now (p_records p)).
      rewrite (any_answer c now name p HI Hl). unfold cache_qmatch. tauto.
    + intros [= <- <-]. apply (get_miss _ _ _ _ HI). intros t d e _ A. rewrite abs_map_unfold, Hl in A. discriminate.
  - destruct (existsb (fun p => fst p =? qt) qtype_table) eqn:Hs.
    + (* AXFR, MAILB, MAILA *)
      apply qtype_special in Hs. intros [= <- <-]. apply (get_miss _ _ _ _ HI). intros t d e [Hq|(Hq & H1 & H2 & H3)] _; [contradiction|].
      destruct Hs as [Hs|[Hs|[Hs|Hs]]]; contradiction.
    + (* a record type *)
      assert (Hns : ~ (qt = QT_AXFR \/ qt = QT_MAILB \/ qt = QT_MAILA \/ qt = QT_Wildcard)).
      { intro Hq. apply qtype_special in Hq. congruence. }
      assert (Hqm : forall t, cache_qmatch qt t <-> t = qt).
      { intro t. unfold cache_qmatch. split; [intros [Hq|[Hq _]]; [contradiction | congruence]|].
        intros ->. right. repeat split; intro Hq; apply Hns; tauto. }
      unfold get_tuples. destruct (dlookup name (c_parts c)) as [p|] eqn:Hl.
      * destruct (nlookup qt (p_records p)) as [ts|] eqn:Ht.
        -- intros [= <- <-]. apply (get_hit _ _ _ _ _ _ HI Hl). pose proof (inv_part_of _ _ _ HI Hl) as [Hk Hv _ _].
           assert (Hts : NoDup (map fst ts)) by exact (alookup_forall N.eqb N.eqb_eq _ _ _ _ Hv Ht).
           apply answer_ok_raw; [rewrite to_rrs_keys; apply nodup_map_key, Hts|]. intro r.
           rewrite (typed_answer c now name qt p ts HI Hl Ht), Hqm. reflexivity.
        -- intros [= <- <-]. apply (get_miss _ _ _ _ HI). intros t d e Hq A. apply Hqm in Hq. subst t.
           rewrite (abs_map_name _ _ _ _ _ Hl) in A. unfold rlook in A. rewrite Ht in A. discriminate.
      * intros [= <- <-]. apply (get_miss _ _ _ _ HI). intros t d e _ A. rewrite abs_map_unfold, Hl in A. discriminate.
Qed.

Lemma get_ok c now name qt c' rrs :
  Inv c -> get c now name qt = (c', rrs) -> get_post c now name qt true c' rrs.
Proof.
  intros HI. unfold get. destruct (get_raw c now name qt) as [c1 rrs1] eqn:Hg.
  intro H; inversion H; subst c' rrs; clear H.
  destruct (get_raw_ok _ _ _ _ _ _ HI Hg) as (G1 & G2 & [G3 G4] & G5 & G6).
  split; [exact G1|]. split; [exact G2|]. split; [|split; [exact G5 | exact G6]].
  split; [apply nodup_map_filter, G3|]. intro r. rewrite filter_In, G4. split.
  - intros ((A1 & A2 & A3 & e & A4 & A5 & _) & Hpos). apply N.ltb_lt in Hpos.
    repeat (split; [assumption|]). exists e. split; [exact A4|]. split; [exact A5|]. intros _. lia.
  - intros (A1 & A2 & A3 & e & A4 & A5 & A6). split.
    + repeat (split; [assumption|]). exists e. split; [exact A4|]. split; [exact A5 | discriminate].
    + apply N.ltb_lt. specialize (A6 eq_refl). lia.
Qed.
