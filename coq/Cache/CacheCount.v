(* Cache/CacheCount.v -- counting: the listing [entries] of a cache state, the proof
   that current_size is the cardinality of the abstract map, and lemmas about [card]. *)
From Coq Require Import Permutation.
From RV Require Import Base.Prelude Name.NameModel Name.NameProofs Wire.WireTypes
  Cache.CacheFacts Cache.CacheModel Cache.CacheSpec Cache.CacheInsert.

Definition rec_entries (n : dname) (tts : N * list (rdata * N)) : list (akey * N) :=
  map (fun de => ((n, fst tts, fst de), snd de)) (snd tts).
Definition part_entries (np : dname * partition) : list (akey * N) :=
  flat_map (rec_entries (fst np)) (p_records (snd np)).
Definition entries (c : cache) : list (akey * N) := flat_map part_entries (c_parts c).

Lemma entries_nodup c : Inv c -> NoDup (map fst (entries c)).
Proof.
  intros HI. unfold entries. rewrite map_flat_map.
  apply (nodup_flat_map_tag fst key_name).
  - exact (inv_keys c HI).
  - intros [n p] Hin. pose proof (inv_parts c HI) as Hp. rewrite Forall_forall in Hp. specialize (Hp _ Hin).
    cbn [snd] in Hp. destruct Hp as [Hk Hv _ _]. unfold part_entries. cbn [fst snd]. rewrite map_flat_map.
    apply (nodup_flat_map_tag fst key_type).
    + exact Hk.
    + intros [t ts] Hts. rewrite Forall_forall in Hv. specialize (Hv _ Hts). cbn [snd] in Hv.
      unfold rec_entries. cbn [fst snd].
      match goal with |- NoDup ?x =>
        replace x with (map (fun d => (n, t, d)) (map fst ts)) by (rewrite !map_map; reflexivity) end.
      apply nodup_map_key, Hv.
    + intros [t ts] y _ Hy. unfold rec_entries in Hy. cbn [fst snd] in Hy. rewrite map_map in Hy.
      apply in_map_iff in Hy. destruct Hy as (de & <- & _). reflexivity.
  - intros [n p] y _ Hy. unfold part_entries in Hy. cbn [fst snd] in Hy. rewrite map_flat_map in Hy.
    apply in_flat_map in Hy. destruct Hy as ([t ts] & _ & Hy). unfold rec_entries in Hy. cbn [fst snd] in Hy.
    rewrite map_map in Hy. apply in_map_iff in Hy. destruct Hy as (de & <- & _). reflexivity.
Qed.

Lemma entries_in c k e : Inv c -> (In (k, e) (entries c) <-> abs_map c k = Some e).
Proof.
  intro HI. destruct k as [[n t] d]. unfold entries. rewrite in_flat_map. split.
  - intros ([n0 p] & Hp & Hin). unfold part_entries in Hin. cbn [fst snd] in Hin.
    apply in_flat_map in Hin. destruct Hin as ([t0 ts] & Hts & Hin).
    unfold rec_entries in Hin. cbn [fst snd] in Hin. apply in_map_iff in Hin. destruct Hin as ([d0 e0] & Heq & Hde).
    cbn [fst snd] in Heq. inversion Heq; subst.
    apply (in_alookup dname_eqb dname_eqb_eq _ _ _ (inv_keys c HI)) in Hp.
    pose proof (inv_part_of _ _ _ HI Hp) as [Hk Hv _ _].
    rewrite (abs_map_name _ _ _ _ _ Hp). unfold rlook.
    rewrite (in_alookup N.eqb N.eqb_eq _ _ _ Hk Hts).
    apply (in_alookup rdata_eqb rdata_eqb_eq); [|exact Hde].
    rewrite Forall_forall in Hv. exact (Hv _ Hts).
  - intro Ha. rewrite abs_map_unfold in Ha. destruct (alookup dname_eqb n (c_parts c)) as [p|] eqn:Hp; [|discriminate].
    unfold rlook in Ha. destruct (alookup N.eqb t (p_records p)) as [ts|] eqn:Hts; [|discriminate].
    exists (n, p). split; [apply (alookup_in dname_eqb dname_eqb_eq), Hp|].
    unfold part_entries. cbn [fst snd]. apply in_flat_map. exists (t, ts).
    split; [apply (alookup_in N.eqb N.eqb_eq), Hts|]. unfold rec_entries. cbn [fst snd].
    apply in_map_iff. exists (d, e). split; [reflexivity|]. apply (alookup_in rdata_eqb rdata_eqb_eq), Ha.
Qed.

Lemma part_entries_len n p : llen (part_entries (n, p)) = llen (tuples_of (p_records p)).
Proof.
  unfold part_entries, tuples_of. cbn [fst snd]. induction (p_records p) as [|[t ts] recs IH]; [reflexivity|].
  cbn [flat_map snd]. rewrite !llen_app, IH. unfold rec_entries, llen. cbn [snd]. rewrite map_length. reflexivity.
Qed.

Lemma entries_len c : Inv c -> llen (entries c) = c_size c.
Proof.
  intro HI. rewrite (inv_size c HI). pose proof (inv_parts c HI) as Hp. unfold entries.
  induction (c_parts c) as [|[n p] parts IH]; [reflexivity|].
  inversion Hp as [|? ? Hp1 Hp2]; subst. cbn [flat_map]. rewrite llen_app, (IH Hp2).
  rewrite (asum_cons (K:=dname)). cbn [snd] in *. rewrite part_entries_len.
  destruct Hp1 as [_ _ Hs _]. rewrite Hs. reflexivity.
Qed.

(* C15: the record count is the number of distinct (name, type, data) entries *)
Theorem count_is_distinct_entries c : Inv c -> card (abs_map c) (c_size c).
Proof.
  intro HI. exists (entries c). split; [apply entries_nodup, HI|].
  split; [intros k e; apply entries_in, HI | apply entries_len, HI].
Qed.

Lemma card_ext m m' n : (forall k, m' k = m k) -> card m n -> card m' n.
Proof.
  intros He (l & H1 & H2 & H3). exists l. split; [exact H1|]. split; [|exact H3].
  intros k e. rewrite He. apply H2.
Qed.

Lemma listing_dom (m : amap) (l : list (akey * N)) :
  (forall k e, In (k, e) l <-> m k = Some e) -> forall k, In k (map fst l) <-> m k <> None.
Proof.
  intros H k. rewrite in_map_iff. split.
  - intros ([k0 e] & <- & Hin). apply H in Hin. cbn [fst]. congruence.
  - intro Hn. destruct (m k) as [e|] eqn:E; [|congruence]. exists (k, e). split; [reflexivity | apply H, E].
Qed.

Lemma card_same_dom m m' n n' :
  (forall k, m k = None <-> m' k = None) -> card m n -> card m' n' -> n = n'.
Proof.
  intros Hd (l & H1 & H2 & H3) (l' & H1' & H2' & H3').
  assert (Hp : Permutation (map fst l) (map fst l')).
  { apply NoDup_Permutation; [exact H1 | exact H1'|]. intro k. rewrite (listing_dom m l H2), (listing_dom m' l' H2'), Hd. tauto. }
  apply Permutation_length in Hp. rewrite !map_length in Hp. rewrite <- H3, <- H3'. unfold llen. rewrite Hp. reflexivity.
Qed.

Lemma card_unique m n n' : card m n -> card m n' -> n = n'.
Proof. apply card_same_dom. tauto. Qed.

(* a map that is the content of a state has that state's record count *)
Lemma card_abs c m n : Inv c -> (forall k, m k = abs_map c k) -> card m n -> n = c_size c.
Proof.
  intros HI He Hc. eapply card_unique; [exact Hc|]. eapply card_ext; [exact He|].
  apply count_is_distinct_entries, HI.
Qed.

Lemma filter_partition_len {A} (f : A -> bool) (l : list A) :
  llen (filter f l) + llen (filter (fun x => negb (f x)) l) = llen l.
Proof.
  induction l as [|x l IH]; [reflexivity|]. cbn [filter]. destruct (f x); cbn [negb]; rewrite !llen_cons; lia.
Qed.

Lemma card_filter m l (P : akey -> N -> bool) :
  NoDup (map fst l) -> (forall k e, In (k, e) l <-> m k = Some e) ->
  card (restrict m P) (llen (filter (fun x => P (fst x) (snd x)) l)).
Proof.
  intros H1 H2. eexists. split; [apply nodup_map_filter, H1|]. split; [|reflexivity].
  intros k e. rewrite filter_In, H2. cbn [fst snd]. unfold restrict. split.
  - intros [-> ->]. reflexivity.
  - destruct (m k) as [e0|]; [|discriminate]. destruct (P k e0) eqn:E; [|discriminate].
    intros [= <-]. auto.
Qed.

Lemma card_restrict m n (P : akey -> N -> bool) :
  card m n ->
  exists n1, card (restrict m P) n1 /\ card (restrict m (fun k e => negb (P k e))) (n - n1) /\ n1 <= n.
Proof.
  intros (l & H1 & H2 & H3).
  pose proof (filter_partition_len (fun x => P (fst x) (snd x)) l) as Hlen. cbn beta in Hlen.
  pose proof (card_filter m l P H1 H2) as C1.
  pose proof (card_filter m l (fun k e => negb (P k e)) H1 H2) as C2. cbn beta in C2.
  eexists. split; [exact C1|]. split; [|lia].
  replace (n - _) with (llen (filter (fun x => negb (P (fst x) (snd x))) l)) by lia. exact C2.
Qed.

(* a partition is never empty: a cached name has an entry, and conversely *)
Lemma lru_has_entry c n t : Inv c -> abs_lru c n = Some t -> has_entry (abs_map c) n.
Proof.
  intros HI H. unfold abs_lru in H. destruct (alookup dname_eqb n (c_parts c)) as [p|] eqn:Hp; [|discriminate].
  pose proof (inv_part_of _ _ _ HI Hp) as [Hk Hv _ [Hm _]].
  apply in_map_iff in Hm. destruct Hm as ([d e] & _ & Hin). unfold all_tuples in Hin.
  apply in_flat_map in Hin. destruct Hin as ([t0 ts] & Hts & Hin). cbn [snd] in Hin.
  exists (n, t0, d), e. split; [reflexivity|]. rewrite (abs_map_name _ _ _ _ _ Hp). unfold rlook.
  rewrite (in_alookup N.eqb N.eqb_eq _ _ _ Hk Hts). apply (in_alookup rdata_eqb rdata_eqb_eq); [|exact Hin].
  rewrite Forall_forall in Hv. exact (Hv _ Hts).
Qed.

Lemma entry_has_lru c n : has_entry (abs_map c) n -> abs_lru c n <> None.
Proof.
  intros ([[n0 t] d] & e & Hn & Ha). cbn in Hn. subst n0. rewrite abs_map_unfold in Ha. unfold abs_lru.
  destruct (alookup dname_eqb n (c_parts c)); [discriminate | discriminate].
Qed.

Lemma has_entry_ext m m' n : (forall k, m' k = m k) -> has_entry m n -> has_entry m' n.
Proof. intros He (k & e & H1 & H2). exists k, e. rewrite He. auto. Qed.
