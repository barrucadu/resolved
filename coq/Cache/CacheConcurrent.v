(* Cache/CacheConcurrent.v -- the shared cache used from several threads at once (C05, C15).

   SharedCache is `Arc<Mutex<Cache>>`; every method body is ONE critical section (read from cache.rs
   by tools/tables.py: Base/TablesOk.shared_cache_methods_atomic), and the clock is read inside it.
   Base/Locks.v gives the small-step semantics of threads around one lock; here it is instantiated with
   the cache model's [step] as the body of a write section (there are no read sections: a mutex), and
   the "for every history" theorems of CacheProofs become "for every schedule of every number of
   threads":

   * [concurrent_inv]: after ANY schedule (hence at every instant of every schedule) the cache
     satisfies the representation invariant, its desired size is unchanged and its record count is the
     number of distinct (name, type, data) entries it holds (that no body started from such a state
     reaches a Panic site is [cexec_good]);
   * [concurrent_is_history]: after ANY schedule the cache is the state reached by a SEQUENTIAL history
     (the executed calls in lock order, each preceded by the clock advance up to its instant), and
     every result a thread got is the result of its call in that history -- so everything
     Properties/C05.v and C15.v prove about histories holds of concurrent use. *)
From RV Require Import Base.Prelude Base.Locks Name.NameModel Wire.WireTypes
  Cache.CacheModel Cache.CacheSpec Cache.CacheCount Cache.CacheProofs.

Section Conc.
Variable tb : tiebreak.
Hypothesis tb_ok : tie_ok tb.

(* the body of a SharedCache method executed at instant [now] on cache [c] *)
Definition cexec (now : N) (c : cache) (o : op) : cache * option out :=
  match step tb c now o with
  | Ok (c', _, x) => (c', Some x)
  | _ => (c, None)          (* a Panic site / fuel exhaustion: excluded by [cexec_good] *)
  end.

(* a mutex has no read sections *)
Definition no_rexec (seen : list cache) (q : Empty_set) : option out := match q with end.

Definition csys := sys cache op Empty_set (option out).
Definition cev := ev op Empty_set.
Definition crun (d : N) (evs : list cev) : csys :=
  run_sched cache op Empty_set (option out) cexec no_rexec (init_sys cache op Empty_set (option out) (with_desired_size d)) evs.

Definition good (d : N) (c : cache) : Prop := Inv c /\ c_desired c = d.

Lemma cexec_good d now c o : good d c -> good d (fst (cexec now c o)) /\ snd (cexec now c o) <> None.
Proof.
  intros [HI HD]. unfold cexec.
  destruct (step_inv tb tb_ok c now o HI) as (c' & now' & x & -> & I' & D'). cbn.
  split; [split; [assumption|congruence]|discriminate].
Qed.

Theorem concurrent_inv d evs :
  let s := crun d evs in
  Inv (shared _ _ _ _ s) /\ c_desired (shared _ _ _ _ s) = d /\
  card (abs_map (shared _ _ _ _ s)) (c_size (shared _ _ _ _ s)) /\
  Forall (good d) (Locks.hist _ _ _ _ s).
Proof.
  intro s.
  destruct (shared_invariant cache op Empty_set (option out) cexec no_rexec (good d) (with_desired_size d) evs) as [[HI HD] HF].
  - split; [apply inv_init|reflexivity].
  - intros now c w Hc. apply (cexec_good d now c w Hc).
  - fold (crun d evs) in HI, HD, HF. fold s in HI, HD, HF.
    split; [assumption|]. split; [assumption|]. split; [apply count_is_distinct_entries; assumption|assumption].
Qed.

Definition is_call (o : op) : bool := match o with Advance _ => false | _ => true end.

Lemma step_keeps_now c now o c' now' x : is_call o = true -> step tb c now o = Ok (c', now', x) -> now' = now.
Proof.
  intros Hc H. destruct o as [r|rs|name qt|name qt| |dt]; cbn [step is_call] in *; try discriminate.
  - destruct (shared_insert c now r); cbn [bind] in H; try discriminate. inversion H; reflexivity.
  - destruct (shared_insert_all c now rs); cbn [bind] in H; try discriminate. inversion H; reflexivity.
  - destruct (get c now name qt). inversion H; reflexivity.
  - destruct (get_raw c now name qt). inversion H; reflexivity.
  - destruct (prune tb c now) as [[c1 rep]| | |]; cbn [bind] in H; try discriminate. inversion H; reflexivity.
Qed.

Definition clin := lin op (option out).

(* executed calls (oldest first) as a history: advance the clock to the call's instant, then the call *)
Fixpoint ops_of (now : N) (ls : list clin) : list op :=
  match ls with
  | [] => []
  | l :: r => Advance (l_time _ _ l - now) :: l_w _ _ l :: ops_of (l_time _ _ l) r
  end.

(* what the history returns, for comparison with what the threads got *)
Fixpoint outs_of (ls : list clin) : list (option out) :=
  match ls with
  | [] => []
  | l :: r => Some OUnit :: l_out _ _ l :: outs_of r
  end.

Lemma replays_is_run ls : forall now c c',
  Inv c ->
  replays cache op (option out) cexec ls c c' ->
  sorted_from op (option out) now ls ->
  Forall (fun l => is_call (l_w _ _ l) = true) ls ->
  exists outs, run tb (ops_of now ls) c now = Ok (c', last_time op (option out) now ls, outs) /\
               map Some outs = outs_of ls.
Proof.
  induction ls as [|l ls IH]; intros now c c' HI Hr Hs Hc.
  - inversion Hr; subst. exists []. split; reflexivity.
  - inversion Hr as [|l0 ls0 s0 s0' Hout Hrest]; subst. destruct Hs as [Hle Hs]. inversion Hc as [|? ? Hc1 Hc2]; subst.
    cbn [ops_of run step bind last_time].
    replace (now + (l_time _ _ l - now)) with (l_time _ _ l) by lia.
    destruct (step_inv tb tb_ok c (l_time _ _ l) (l_w _ _ l) HI) as (c1 & now1 & x & Hstep & I1 & _).
    pose proof (step_keeps_now _ _ _ _ _ _ Hc1 Hstep) as ->.
    rewrite Hstep. cbn [bind].
    unfold cexec in Hout, Hrest. rewrite Hstep in Hout, Hrest. cbn [fst snd] in Hout, Hrest.
    destruct (IH (l_time _ _ l) c1 c' I1 Hrest Hs Hc2) as (outs & -> & Ho). cbn [bind].
    exists (OUnit :: x :: outs). split; [reflexivity|]. cbn [map outs_of]. rewrite Ho, Hout. reflexivity.
Qed.

(* what Base/Locks.v says of a schedule of cache calls: the executed bodies replay, at non-decreasing
   instants, are all calls, and every result handed back is one of theirs *)
Lemma crun_linearises d evs :
  (forall t o, In (CallW op Empty_set t o) evs -> is_call o = true) ->
  let s := crun d evs in
  let ls := rev (wlog _ _ _ _ s) in
  replays cache op (option out) cexec ls (with_desired_size d) (shared _ _ _ _ s) /\
  sorted_from op (option out) 0 ls /\
  Forall (fun l => is_call (l_w _ _ l) = true) ls /\
  (forall l, In (WRet cache op Empty_set (option out) l) (rets _ _ _ _ s) -> In l ls).
Proof.
  intros Hcalls s ls.
  destruct (writes_linearise_sorted cache op Empty_set (option out) cexec no_rexec (with_desired_size d) evs) as [Hr Hs].
  destruct (writes_linearise cache op Empty_set (option out) cexec no_rexec (with_desired_size d) evs) as (_ & _ & Hw).
  destruct (only_called_sections_run cache op Empty_set (option out) cexec no_rexec (with_desired_size d) evs) as [Hc _].
  split; [exact Hr|]. split; [exact Hs|]. split.
  - apply Forall_forall. intros l Hl. apply (Hcalls (l_tid _ _ l)), Hc, in_rev, Hl.
  - intros l Hl. apply -> in_rev. apply Hw, Hl.
Qed.

Theorem concurrent_is_history d evs :
  (forall t o, In (CallW op Empty_set t o) evs -> is_call o = true) ->
  let s := crun d evs in
  let ls := rev (wlog _ _ _ _ s) in
  exists outs,
    run tb (ops_of 0 ls) (with_desired_size d) 0 = Ok (shared _ _ _ _ s, last_time op (option out) 0 ls, outs) /\
    map Some outs = outs_of ls /\
    (* every value returned to a thread is the value recorded for its call in the history *)
    (forall l, In (WRet cache op Empty_set (option out) l) (rets _ _ _ _ s) -> In l ls).
Proof.
  intros Hcalls s ls. destruct (crun_linearises d evs Hcalls) as (Hr & Hs & Hc & Hw).
  destruct (replays_is_run ls 0 (with_desired_size d) (shared _ _ _ _ s) (inv_init d) Hr Hs Hc) as (outs & H1 & H2).
  exists outs. auto.
Qed.

(* a history theorem carried over: a concurrent get never returns a record past its TTL *)
Lemma ops_outs_nth ls : forall now k l,
  nth_error ls k = Some l ->
  nth_error (ops_of now ls) (2 * k + 1)%nat = Some (l_w _ _ l) /\
  nth_error (outs_of ls) (2 * k + 1)%nat = Some (l_out _ _ l).
Proof.
  induction ls as [|x xs IH]; intros now k l H; [destruct k; discriminate|].
  destruct k as [|k]; cbn [nth_error] in H.
  - inversion H; subst. change (2 * 0 + 1)%nat with 1%nat. cbn [ops_of outs_of nth_error]. split; reflexivity.
  - replace (2 * Datatypes.S k + 1)%nat with (Datatypes.S (Datatypes.S (2 * k + 1))) by lia.
    cbn [ops_of outs_of nth_error]. apply IH. exact H.
Qed.

Lemma hstep_call_time key st o : is_call o = true -> fst (hstep key st o) = fst st.
Proof. destruct o; cbn [is_call hstep fst]; intro H; try reflexivity; discriminate. Qed.

Lemma time_prefix key ls : forall now acc k l,
  sorted_from op (option out) now ls ->
  Forall (fun l => is_call (l_w _ _ l) = true) ls ->
  nth_error ls k = Some l ->
  fst (fold_left (hstep key) (firstn (2 * k + 1)%nat (ops_of now ls)) (now, acc)) = l_time _ _ l.
Proof.
  induction ls as [|x xs IH]; intros now acc k l Hs Hc H; [destruct k; discriminate|].
  destruct Hs as [Hle Hs]. inversion Hc as [|? ? Hc1 Hc2]; subst.
  destruct k as [|k]; cbn [nth_error] in H.
  - inversion H; subst. change (2 * 0 + 1)%nat with 1%nat.
    cbn [ops_of firstn fold_left hstep fst]. lia.
  - replace (2 * Datatypes.S k + 1)%nat with (Datatypes.S (Datatypes.S (2 * k + 1))) by lia.
    cbn [ops_of firstn fold_left].
    assert (E : hstep key (now, acc) (Advance (l_time _ _ x - now)) = (l_time _ _ x, acc)).
    { cbn [hstep fst snd]. f_equal. lia. }
    rewrite E.
    destruct (hstep key (l_time _ _ x, acc) (l_w _ _ x)) as [t1 acc1] eqn:Est.
    assert (Hf : t1 = l_time _ _ x).
    { pose proof (hstep_call_time key (l_time _ _ x, acc) (l_w _ _ x) Hc1) as G. rewrite Est in G. exact G. }
    subst t1. apply IH; assumption.
Qed.

Lemma nth_error_map_some {A} (l : list A) : forall i x,
  nth_error (map Some l) i = Some (Some x) -> nth_error l i = Some x.
Proof.
  intros i x H. rewrite nth_error_map in H. destruct (nth_error l i); [injection H as ->; reflexivity|discriminate].
Qed.

(* For every schedule: a get executed by any thread returns only records that are alive at the instant
   its body ran -- last inserted, in lock order, at t0 with TTL T, with now < t0 + T and the reported TTL
   within the time left.  ([firstn (2k+1) (ops_of 0 ls)] is the sequential history of everything that
   held the mutex before this get, with the clock advanced to its instant.) *)
Theorem concurrent_get_is_live d evs :
  (forall t o, In (CallW op Empty_set t o) evs -> is_call o = true) ->
  let s := crun d evs in
  let ls := rev (wlog _ _ _ _ s) in
  forall k l name qt rrs r,
    nth_error ls k = Some l -> l_w _ _ l = Get name qt -> l_out _ _ l = Some (ORRs rrs) -> In r rrs ->
    exists t0 T,
      last_insert (firstn (2 * k + 1)%nat (ops_of 0 ls)) (rr_key r) = Some (t0, T) /\
      l_time _ _ l < t0 + T * NS_PER_S /\
      rr_ttl r * NS_PER_S <= t0 + T * NS_PER_S - l_time _ _ l /\
      1 <= rr_ttl r /\ rr_name r = name /\ rr_class r = RC_IN.
Proof.
  intros Hcalls s ls k l name qt rrs r Hk Hw Ho Hin.
  destruct (concurrent_is_history d evs Hcalls) as (outs & Hrun & Hmap & _).
  fold s in Hrun, Hmap. fold ls in Hrun, Hmap.
  destruct (ops_outs_nth ls 0 k l Hk) as [Hop Hout].
  rewrite Hw in Hop. rewrite <- Hmap, Ho in Hout. apply nth_error_map_some in Hout.
  destruct (crun_linearises d evs Hcalls) as (_ & Hs & Hc & _).
  assert (Ht : time_of (firstn (2 * k + 1)%nat (ops_of 0 ls)) = l_time _ _ l).
  { unfold time_of, CacheSpec.hist. exact (time_prefix _ ls 0 None k l Hs Hc Hk). }
  destruct (served_record_is_live tb tb_ok d _ _ _ _ (2 * k + 1)%nat name qt rrs r Hrun Hop Hout Hin)
    as (t0 & T & H1 & H2 & H3 & H4).
  rewrite Ht in H2, H3. exists t0, T. auto.
Qed.

End Conc.

(* a schedule of two threads on one cache, to show the statements are not vacuous: thread 1 inserts,
   thread 2 tries to take the mutex meanwhile (and has to wait), then reads *)
Definition ex_rr : rr := {| rr_name := root_domain; rr_type := 1; rr_class := 1; rr_ttl := 300; rr_data := RD_A 7 |}.
Definition ex_sched : list (ev op Empty_set) :=
  [CallW _ _ 1 (Insert ex_rr); CallW _ _ 2 (Get root_domain 1); Acq _ _ 1; Acq _ _ 2; Tick _ _ 5;
   Step _ _ 2; Step _ _ 1; Rel _ _ 1; Acq _ _ 2; Tick _ _ 5; Step _ _ 2; Rel _ _ 2].

Example ex_sched_runs :
  let s := crun tb_first 10 ex_sched in
  length (wlog _ _ _ _ s) = 2%nat /\ length (rets _ _ _ _ s) = 2%nat /\
  map (fun l => (l_time _ _ l, l_tid _ _ l)) (rev (wlog _ _ _ _ s)) = [(5, 1%nat); (10, 2%nat)] /\
  c_size (shared _ _ _ _ s) = 1.
Proof. vm_compute. repeat split; reflexivity. Qed.
