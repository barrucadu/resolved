(* Properties/C10.v -- property theorems for C10 (CNAME chains are returned whole, in order, and
   loops end safely).  First chains whose links come from zones and the cache (local::resolve_local,
   dns_resolver::resolve in authoritative-only mode; lemmas in Resolver/LocalProofs.v), then chains
   that continue upstream: the recursive and forwarding models call [resolve_local] and concatenate
   its RRs with the (filtered, resp. forwarded) upstream answer (lemmas in Resolver/RecursiveProofs.v,
   ForwardingProofs.v; the filter's own chain theorem is C06_filter_chain_ok). *)
From RV Require Import Base.Prelude Name.NameModel Wire.WireTypes Zone.ZoneModel
     Resolver.LocalModel Resolver.LocalSpec Resolver.LocalProofs.

(* For a question of a type other than CNAME and ANY, every successful local result that is not a
   direct referral lists the CNAMEs in chain order starting at the question name, no owner twice,
   followed only by RRs of the asked type owned by the last target -- for every mix of
   authoritative zones, non-authoritative zones and cache, every stack and fuel.
   Hypotheses about the two sources: [zones_answers_ok] (discharged for typed zone trees by
   C10_zones_typed_answers_ok below),
   [cget_ok] (C05: a cache read returns RRs of the asked name and type only). *)
Theorem C10_local_chain_ok : forall zs cget,
  zones_answers_ok zs -> cget_ok cget ->
  forall f stack q l,
    q_type q <> RT_CNAME -> q_type q <> QT_Wildcard ->
    resolve_local zs cget f stack q = Ok l -> ~ is_referral l ->
    chain_ok (q_name q) (q_type q) (lresult_rrs l).
Proof. exact local_chain_ok. Qed.
Print Assumptions C10_local_chain_ok.

(* the same for what resolve() returns in authoritative-only mode *)
Theorem C10_authoritative_only_chain_ok : forall zs cget q r,
  zones_answers_ok zs -> cget_ok cget -> q_type q <> RT_CNAME -> q_type q <> QT_Wildcard ->
  (forall z ns, zones_resolve zs (q_name q) (q_type q) <> Some (z, Ok (ZDelegation ns))) ->
  resolve_authoritative_only zs cget q = Ok r ->
  chain_ok (q_name q) (q_type q) (resolved_rrs r).
Proof. exact authoritative_only_chain_ok. Qed.
Print Assumptions C10_authoritative_only_chain_ok.

(* The exception: a referral comes back only when the authoritative zone's own result for the
   question name is a delegation -- no alias is involved (an alias that runs into a delegation ends
   the chain with the CNAMEs so far).  That the NS RRs then sit in the answer is C09's finding F12. *)
Theorem C10_referral_only_direct_local : forall zs cget f stack q rrs soa d,
  resolve_local zs cget f stack q = Ok (LDelegation rrs soa d) ->
  exists z s, zones_resolve zs (q_name q) (q_type q) = Some (z, Ok (ZDelegation rrs))
              /\ zone_soa_rr z = Some s /\ soa = Some s.
Proof. exact referral_only_direct. Qed.
Print Assumptions C10_referral_only_direct_local.

Theorem C10_zones_typed_answers_ok : forall zs, zones_typedb zs = true -> zones_answers_ok zs.
Proof. exact zones_typed_answers_ok. Qed.
Print Assumptions C10_zones_typed_answers_ok.

(* Loops and over-long chains end safely.
   (a) The recursion has the shape "two guards, then one step whose recursive calls are made on the
       stack extended by the current question" ... *)
Theorem C10_recursion_shape : forall zs cget f stack q,
  resolve_local zs cget (S f) stack q =
  if at_recursion_limit stack then Err ERecursionLimit
  else if is_duplicate_question stack q then Err (EDuplicateQuestion q)
  else local_step zs cget q (fun name => resolve_local zs cget f (stack ++ [q]) (subq q name)).
Proof. exact resolve_local_eq. Qed.
Print Assumptions C10_recursion_shape.

(* (b) ... so the stack never holds a question twice nor more than RECURSION_LIMIT questions, *)
Theorem C10_stack_never_repeats : forall stack q,
  stack_ok stack -> guards_pass stack q -> stack_ok (stack ++ [q]).
Proof. exact stack_never_repeats. Qed.
Print Assumptions C10_stack_never_repeats.

(* (c) fuel RECURSION_LIMIT + 1 - |stack| always suffices (no hang, no unbounded recursion), *)
Theorem C10_fuel_suffices : forall zs cget f stack q,
  (length stack <= 32)%nat -> (33 <= f + length stack)%nat ->
  resolve_local zs cget f stack q <> OutOfFuel.
Proof. exact resolve_local_no_fuel. Qed.
Print Assumptions C10_fuel_suffices.

(* (d) and a loop or an over-long chain met *inside* a resolution never surfaces as an error: the
   only RecursionLimit / DuplicateQuestion errors are those of the question's own guards; deeper
   ones end the chain in a partial result ([LCname], which satisfies chain_ok by the theorem above,
   so no record is repeated). *)
Theorem C10_loops_end_local : forall zs cget f stack q e,
  resolve_local zs cget f stack q = Err e ->
  (e = ERecursionLimit /\ at_recursion_limit stack = true) \/
  (e = EDuplicateQuestion q /\ is_duplicate_question stack q = true) \/
  e = EDeadEnd q \/ (exists a, e = ELocalDelegationMissingNS a (q_name q)) \/
  (exists t, e = ECacheTypeMismatch RT_CNAME t).
Proof. exact loops_end. Qed.
Print Assumptions C10_loops_end_local.

Theorem C10_loops_end_top_local : forall zs cget f q e,
  resolve_local zs cget f [] q = Err e -> e <> ERecursionLimit /\ forall q', e <> EDuplicateQuestion q'.
Proof. exact loops_end_top. Qed.
Print Assumptions C10_loops_end_top_local.

(* the hypotheses are satisfiable, and the statements are about something: a worked configuration
   (LocalProofs.LocalExample) with an alias leaving an authoritative zone for the cache, and a loop *)
Example C10_example_hypotheses :
  zones_answers_ok LocalExample.ex_zones /\ cget_ok LocalExample.ex_cget.
Proof.
  split; [apply zones_typed_answers_ok, LocalExample.ex_zones_typed|apply LocalExample.cget_of_ok].
Qed.
Example C10_example_chain :
  chain_ok LocalExample.n_aec RT_A
    [{| rr_name := LocalExample.n_aec; rr_type := RT_CNAME; rr_class := RC_IN; rr_ttl := 300;
        rr_data := RD_Name LocalExample.n_tc |}; LocalExample.arr LocalExample.n_tc 7].
Proof.
  destruct C10_example_hypotheses as [Hz Hc].
  assert (H := fun h1 h2 => local_chain_ok _ _ Hz Hc _ _ _ _ h1 h2 LocalExample.ex_chain (fun H => H)).
  apply H; vm_compute; discriminate.
Qed.

(* chains that continue upstream *)
From RV Require Import Wire.WireModel Resolver.TransportModel Resolver.RecursiveModel
     Resolver.ForwardingModel Resolver.Universe Resolver.RecursiveProofs Resolver.ForwardingProofs.

(* recursive_chain_ok: the chain SHAPE, not [chain_ok].  For a question of a type other than CNAME
   and ANY every successful result of the recursive resolver lists the CNAMEs first, each owner the
   previous record's target, starting at the question name, followed only by records of the asked
   type owned by the last target (the conclusion is [chain_shape] written out: [chain_ok] without its
   "no owner twice" clause, which C10_recursive_owner_twice below refutes) -- whatever mix of
   zones, cache and upstream replies supplied the links: every oracle, every fuel.  The
   concatenations in resolve_combined_recursive / resolve_with_nameserver_response preserve the shape
   because the filter CONSTRUCTS a chain for every reply (C06_filter_chain_ok) and because the
   records "combined" from a Partial local result are none unless the question is ANY
   (C10_partial_only_for_any).  Where cut_at_local_authority (C01) cuts a reply, the
   records kept are the chain from the question name to the owner of the first record cut
   ([cut_chain], Resolver/CutFacts.v: a cut inside the CNAMEs ends at the previous target; a cut at
   the final records is at the first of them, all owned by the last target) and the nested
   resolution starts at that owner -- the same concatenation as for a CNAME response; likewise in
   forwarding mode.  Hypotheses about the two local sources as in C10_local_chain_ok, for
   every cache state. *)
Theorem C10_recursive_chain_ok :
  forall (cache : Type) (cache_get : cache -> dname -> N -> list rr) (cache_insert_all : cache -> list rr -> cache)
         (sort_names : list dname -> list dname) (zs : zones) (o : oracle) (pmode : protocol_mode) (port : N),
  zones_answers_ok zs -> (forall c, cget_ok (cache_get c)) ->
  forall fuel q st res st', q_type q <> RT_CNAME -> q_type q <> QT_Wildcard ->
  resolve_recursive cache cache_get cache_insert_all sort_names zs o pmode port fuel q st = (Ok res, st') ->
  exists cn fin last, resolved_rrs res = cn ++ fin /\ chain_from (q_name q) cn = Some last
    /\ Forall (fun r => rr_name r = last /\ rr_type r = q_type q) fin.
Proof.
  intros until port. intros Hz Hc fuel q st res st' H1 H2 H. apply finish_ok in H.
  exact (proj1 (rrn_chain_shape _ _ _ _ _ _ _ _ Hz Hc fuel) [] q st (ROk res) st' H1 H2 H).
Qed.
Print Assumptions C10_recursive_chain_ok.

(* forwarding_chain_ok: again the shape.  The forwarder's answer section is passed through
   unfiltered (deviation D6), so its shape is a hypothesis: every reply of the forwarder that passes
   the header gate carries such a chain for its question. *)
Theorem C10_forwarding_chain_ok :
  forall (cache : Type) (cache_get : cache -> dname -> N -> list rr) (cache_insert_all : cache -> list rr -> cache)
         (zs : zones) (o : oracle) (forwarder : addr),
  zones_answers_ok zs -> (forall c, cget_ok (cache_get c)) ->
  (forall q ts resp ts', query_nameserver o forwarder q true ts = (Val (Some resp), ts') ->
     chain_shape (q_name q) (q_type q) (m_answers resp)) ->
  forall fuel q st res st', q_type q <> RT_CNAME -> q_type q <> QT_Wildcard ->
  resolve_forwarding cache cache_get cache_insert_all zs o forwarder fuel q st = (Ok res, st') ->
  exists cn fin last, resolved_rrs res = cn ++ fin /\ chain_from (q_name q) cn = Some last
    /\ Forall (fun r => rr_name r = last /\ rr_type r = q_type q) fin.
Proof.
  intros until forwarder. intros Hz Hc Hfw fuel q st res st' H1 H2 H. apply finish_ok in H.
  exact (rfn_chain_shape _ _ _ _ _ _ Hz Hc Hfw fuel [] q st (ROk res) st' H1 H2 H).
Qed.
Print Assumptions C10_forwarding_chain_ok.

(* a Partial local result arises only for QTYPE * -- so for every other question the records merged
   in front of the upstream answer (prioritising_merge of combined_rrs) are none *)
Theorem C10_partial_only_for_any : forall zs cget f stack q rrs,
  q_type q <> QT_Wildcard -> resolve_local zs cget f stack q <> Ok (LPartial rrs).
Proof. exact no_partial. Qed.
Print Assumptions C10_partial_only_for_any.

(* an alias result of local resolution hands on exactly the chain so far: its records are the CNAME
   chain from the question name to the name still to be resolved *)
Theorem C10_local_alias_chain : forall zs cget, zones_answers_ok zs -> cget_ok cget ->
  forall f stack q rrs cq, q_type q <> QT_Wildcard ->
  resolve_local zs cget f stack q = Ok (LCname rrs cq) ->
  chain_from (q_name q) rrs = Some (q_name cq) /\ cq = subq q (q_name cq).
Proof. exact local_alias. Qed.
Print Assumptions C10_local_alias_chain.

(* SimpleCache meets the cache hypothesis *)
Theorem C10_simple_cache_ok : forall c, cget_ok (sc_get c).
Proof. exact sc_get_ok. Qed.
Print Assumptions C10_simple_cache_ok.

(* the "no owner twice" clause is FALSE for the recursive resolver when upstream contradicts
   itself: a witness.  10.0.0.1 (the root hint) answers www.com. A with
       www.com. CNAME a.com.   a.com. CNAME b.com.
   and then b.com. A with
       b.com. CNAME a.com.     a.com. CNAME c.com.    c.com. A 1.2.3.4
   Each reply is a proper chain for its question and the question stack never repeats
   (www.com., b.com.), but the alias a.com. is followed twice, to two different targets, and the
   result lists the owner a.com. twice.  [chain_ok] (C10_local_chain_ok) therefore fails for it
   while the shape proved above holds. *)
Definition c10_nm (ls : list label) : dname :=
  {| labels := ls ++ [[]]; nlen := fold_right (fun l acc => 1 + llen l + acc) 1 ls |}.
Definition c10_root := c10_nm [].
Definition c10_ns := c10_nm [[110; 115]].                          (* ns. *)
Definition c10_n (c : N) := c10_nm [[c]; [99; 111; 109]].          (* <c>.com. *)
Definition c10_www := c10_nm [[119; 119; 119]; [99; 111; 109]].    (* www.com. *)
Definition c10_rr (n : dname) (t : N) (d : rdata) : rr :=
  {| rr_name := n; rr_type := t; rr_class := RC_IN; rr_ttl := 300; rr_data := d |}.
Definition c10_ip : N := 167772161.
Definition c10_hints : zones :=
  match (let* z1 := zone_insert false (zone_new c10_root None) c10_root RT_NS (RD_Name c10_ns) 3600 in
         zone_insert false z1 c10_ns RT_A (RD_A c10_ip) 3600) with
  | Ok z => zones_insert [] z
  | _ => []
  end.
Definition c10_q (n : dname) : question := {| q_name := n; q_type := RT_A; q_class := RC_IN |}.
Definition c10_msg (q : question) (an : list rr) : list byte :=
  match encode (reply_message q {| sr_answers := an; sr_authority := []; sr_additional := []; sr_aa := true;
                                   sr_rcode := RCODE_NoError |}) with
  | Ok bs => bs
  | _ => []
  end.
Definition c10_table : table :=
  [ ((inl c10_ip, c10_q c10_www),
     c10_msg (c10_q c10_www) [c10_rr c10_www RT_CNAME (RD_Name (c10_n 97)); c10_rr (c10_n 97) RT_CNAME (RD_Name (c10_n 98))]);
    ((inl c10_ip, c10_q (c10_n 98)),
     c10_msg (c10_q (c10_n 98)) [c10_rr (c10_n 98) RT_CNAME (RD_Name (c10_n 97)); c10_rr (c10_n 97) RT_CNAME (RD_Name (c10_n 99));
                                 c10_rr (c10_n 99) RT_A (RD_A 16909060)]) ].
Definition c10_run :=
  resolve_simple (ModeRecursive OnlyV4) 53 c10_hints (table_oracle c10_table []) 200%nat (c10_q c10_www) (sc_empty, tstate_init).
Definition c10_result : list rr :=
  [c10_rr c10_www RT_CNAME (RD_Name (c10_n 97)); c10_rr (c10_n 97) RT_CNAME (RD_Name (c10_n 98));
   c10_rr (c10_n 98) RT_CNAME (RD_Name (c10_n 97)); c10_rr (c10_n 97) RT_CNAME (RD_Name (c10_n 99));
   c10_rr (c10_n 99) RT_A (RD_A 16909060)].

Example C10_recursive_owner_twice :
  fst c10_run = Ok (NonAuthoritative c10_result None)
  /\ ~ chain_ok c10_www RT_A c10_result
  /\ chain_shape c10_www RT_A c10_result.
Proof.
  split; [vm_compute; reflexivity|]. split.
  - intro H. apply chain_ok_cname_owners in H; [|discriminate]. vm_compute in H. discriminate.
  - exists (firstn 4 c10_result), (skipn 4 c10_result), (c10_n 99).
    split; [reflexivity|]. split; [vm_compute; reflexivity|]. repeat constructor.
Qed.
Print Assumptions C10_recursive_owner_twice.
