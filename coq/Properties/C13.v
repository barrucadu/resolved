(* Properties/C13.v -- property theorems for C13; statements only.
   "Writing any loaded zone back to text and parsing that text gives an equal zone - same apex, SOA,
   records, wildcard records and TTLs - so normalising a zone file (ztoz) preserves its meaning and
   normalising twice changes nothing more. ..."

   The escape level (escape_roundtrip), then the zone level: relative_name_roundtrip,
   zone_roundtrip (built zones, every admissible record order), normalise_idempotent,
   loaded_built / loaded_roundtrip (zones the parser returns), normalise_idempotent_text (the
   model's own record order: the second text is literally the first), and each for the address
   codec the model is run with, where no hypothesis about the codec is left. *)
From RV Require Import Base.Prelude Name.NameModel ZoneFile.ZoneFileModel ZoneFile.ZoneFileSpec
     ZoneFile.ZoneSerialiseModel ZoneFile.ZoneFileProofs ZoneFile.ZoneSerialiseProofs.

(* tokenising what serialise_octets wrote for bs yields the single token bs: every octet
   0..255 (quotes, backslashes, semicolons, parentheses, spaces, @, controls, >= 127), both
   quoting modes, whatever ends the entry *)
Theorem C13_escape_roundtrip : forall bs quoted t rest,
  Forall (fun o => o < 256) bs -> quoted = true \/ bs <> [] -> terminator_ok t = true ->
  tokenise_entry (serialise_octets bs quoted ++ terminator_text t rest)
  = Ok ([dup bs], terminator_rest t rest).
Proof. exact escape_roundtrip. Qed.
Print Assumptions C13_escape_roundtrip.

(* the same inside any entry of the layout family (as Zone::serialise writes them: tokens
   separated by single spaces, ended by a newline) *)
Theorem C13_escape_roundtrip_entry : forall items t rest,
  layout_ok false false items = Some false -> terminator_ok t = true ->
  tokenise_entry (items_text items ++ terminator_text t rest)
  = Ok (map dup (map wtoken_octets (items_tokens items)), terminator_rest t rest)
  /\ (forall q bs, Forall (fun o => o < 256) bs -> (q = true \/ bs <> []) ->
                   item_text (ITok (ser_token q bs)) = serialise_octets bs q
                   /\ wtoken_octets (ser_token q bs) = bs /\ wtoken_ok (ser_token q bs) = true).
Proof. exact escape_roundtrip_entry. Qed.
Print Assumptions C13_escape_roundtrip_entry.

(* the serialiser writes printable ASCII only *)
Theorem C13_serialise_octets_ascii : forall bs q,
  Forall (fun o => o < 256) bs -> Forall (fun c => 32 <= c <= 126) (serialise_octets bs q).
Proof. exact serialise_octets_ascii. Qed.
Print Assumptions C13_serialise_octets_ascii.

From RV Require Import Wire.WireTypes Zone.ZoneModel Zone.ZoneFlat Zone.ZoneProofs ZoneFile.ZfInstance
     ZoneFile.ZoneRtLines ZoneFile.ZoneRtLoop ZoneFile.ZoneRoundTrip ZoneFile.ZoneRtOrder ZoneFile.ZoneRtLoaded
     ZoneFile.ZoneRtCodec ZoneFile.ZoneRtFinal ZoneFile.ZoneRtText.

(* relative_name_roundtrip.  [name_ok]: well formed, labels ASCII and dot-free (D7).  What
   serialise_domain writes for a name -- relative to the apex, "@" for the apex itself, or the
   absolute name (root apex, zone not authoritative, name outside the apex, or the relative part
   being the single label "@", which would be read back as the apex) -- is, once un-escaped by the tokeniser
   ([dom_text]), read back as that name under the origin in force ([zorigin]: the apex iff a
   "$ORIGIN" line was written); in owner position it is an ordinary owner unless its leftmost label
   is "*", and with "*." before it the wildcard at that name *)
Theorem C13_relative_name_roundtrip : forall z name,
  name_ok (z_apex z) -> name_ok name ->
  serialise_domain z name = Ok (serialise_octets (dom_text z name) false)
  /\ parse_domain (zorigin z) (dom_text z name) = Ok name
  /\ (first_label name <> S_STAR -> parse_domain_or_wildcard (zorigin z) (dom_text z name) = Ok (MNormal name))
  /\ parse_domain_or_wildcard (zorigin z) (42 :: 46 :: dom_text z name) = Ok (MWildcard name).
Proof.
  intros z name Ha Hn. split; [apply serialise_domain_text; assumption|]. split; [apply dom_text_parse; assumption|].
  split; [intro; apply dom_text_owner; assumption|apply dom_text_wild; assumption].
Qed.
Print Assumptions C13_relative_name_roundtrip.

(* zone_roundtrip.
   [built z]: z = Zone::new(apex, soa) followed by insert / insert_wildcard calls, where the apex
   is the root or the zone has a SOA (D5), the apex, every owner and every name in RDATA (SOA
   included) is well formed with ASCII dot-free labels (D7), the leftmost label of the apex and
   of every ORDINARY owner is not the single octet "*" (names merely starting with '*' are
   fine), the inserted records have one of the 18 types the parser knows other than SOA with
   RDATA of that type's shape, u16/u32 fields and TTLs in range, octet strings of octets, and A /
   AAAA values a u32 / eight u16.
   [admissible z recs wrecs]: the (name, records) lists the serialiser iterates over list the
   zone's records -- one entry per owner, no empty entry, under an owner the records of each type
   in the zone's order, the types themselves in ANY order (HashMap iteration order; even
   interleaved); the names in any order (they are sorted anyway).
   [zone_same z z']: same apex, same SOA, the same nodes, and at every node for every type the
   same list of ordinary and of wildcard records (data, TTLs, order).
   For every codec with Display-then-FromStr the identity on plain characters ([codec_rt]): *)
Theorem C13_zone_roundtrip : forall ip, codec_rt ip -> forall z recs wrecs,
  built z -> admissible z recs wrecs ->
  exists txt z', zone_serialise_with ip z recs wrecs = Ok txt /\ deserialise ip txt = Ok z' /\
    zone_same z z' /\ built z' /\ admissible z' recs wrecs /\ zone_serialise_with ip z' recs wrecs = Ok txt.
Proof. exact zone_roundtrip. Qed.
Print Assumptions C13_zone_roundtrip.

(* [built] is closed under the API: Zone::new with an admissible apex / SOA, and every
   insert / insert_wildcard of an admissible record (zone_apply = zone_insert on an operation
   record) succeeds and stays inside *)
Theorem C13_built_closed :
  (forall apex s, head_ok apex s -> built (zone_new apex s)) /\
  (forall z o, built z -> op_src_ok o -> exists z', zone_apply z o = Ok z' /\ built z').
Proof. exact (conj built_new built_insert). Qed.
Print Assumptions C13_built_closed.

(* the order of the model's own all_records / all_wildcard_records is admissible, and so is every
   re-ordering of the names and of the type groups under a name *)
Theorem C13_own_order_admissible : forall z, built z ->
  admissible z (zone_all_records z) (zone_all_wildcard_records z).
Proof. exact own_order_admissible. Qed.
Print Assumptions C13_own_order_admissible.

Theorem C13_regroup_admissible : forall z recs wrecs recs' wrecs',
  admissible z recs wrecs -> regrouped recs recs' -> regrouped wrecs wrecs' -> admissible z recs' wrecs'.
Proof. exact regroup_admissible. Qed.
Print Assumptions C13_regroup_admissible.

(* normalise_idempotent: the zone read back, written again in the order of the first pass, gives
   the very same text; written in any order admissible for it and read again, it is the same zone *)
Theorem C13_normalise_idempotent : forall ip, codec_rt ip -> forall z recs wrecs txt z',
  built z -> admissible z recs wrecs ->
  zone_serialise_with ip z recs wrecs = Ok txt -> deserialise ip txt = Ok z' ->
  zone_serialise_with ip z' recs wrecs = Ok txt /\
  forall recs' wrecs', admissible z' recs' wrecs' ->
    exists txt' z'', zone_serialise_with ip z' recs' wrecs' = Ok txt' /\ deserialise ip txt' = Ok z'' /\
                     zone_same z' z'' /\ zone_same z z''.
Proof. exact normalise_idempotent. Qed.
Print Assumptions C13_normalise_idempotent.

(* loaded zones: whatever Zone::deserialise returns is a built zone (every label ASCII and dot-free
   -- any ASCII octet incl. @ ; ( ) double quote, backslash, space and controls, lower-cased --; an ordinary owner's
   leftmost label is never "*": parse_domain_or_wildcard makes such an owner a wildcard; FromStr of the codec yields values in range) *)
Theorem C13_loaded_built : forall ip, codec_range ip -> forall data z, deserialise ip data = Ok z -> built z.
Proof. exact loaded_built. Qed.
Print Assumptions C13_loaded_built.

Theorem C13_loaded_roundtrip : forall ip, codec_rt ip -> codec_range ip -> forall data z recs wrecs,
  deserialise ip data = Ok z -> admissible z recs wrecs ->
  exists txt z', zone_serialise_with ip z recs wrecs = Ok txt /\ deserialise ip txt = Ok z' /\
    zone_same z z' /\ zone_serialise_with ip z' recs wrecs = Ok txt.
Proof. exact loaded_roundtrip. Qed.
Print Assumptions C13_loaded_roundtrip.

(* the codec the model is run with (std's Ipv4Addr / Ipv6Addr as modelled in Ip/IpModel.v) meets both
   hypotheses ... *)
Theorem C13_codec_instance : codec_rt zf_codec /\ codec_range zf_codec.
Proof. exact (conj zf_codec_rt zf_codec_range). Qed.
Print Assumptions C13_codec_instance.

(* ... so for Zone::serialise / Zone::deserialise as the model driver runs them nothing is assumed:
   API-built zones, and ztoz (parse, write, parse, write, parse) on any text that parses *)
Theorem C13_zone_roundtrip_zf : forall z, built z ->
  exists txt z', zf_serialise z = Ok txt /\ zf_deserialise txt = Ok z' /\ zone_same z z'.
Proof. exact zf_zone_roundtrip. Qed.
Print Assumptions C13_zone_roundtrip_zf.

Theorem C13_ztoz_twice_zf : forall data z, zf_deserialise data = Ok z ->
  exists txt z', zf_serialise z = Ok txt /\ zf_deserialise txt = Ok z' /\ zone_same z z' /\
    exists txt' z'', zf_serialise z' = Ok txt' /\ zf_deserialise txt' = Ok z'' /\ zone_same z' z'' /\ zone_same z z''.
Proof. exact zf_loaded_roundtrip. Qed.
Print Assumptions C13_ztoz_twice_zf.

(* the hypotheses are satisfiable: an authoritative zone with the owner "\@", a wildcard at the apex
   holding a TXT made of every kind of special octet, the owner "*a", an owner "a b.;"; a root-apex
   zone that is not authoritative; a zone loaded through "$ORIGIN *.e." / "@" (ZoneRtFinal.Examples) *)
Example C13_built_ex1 : exists z txt z', zone_build Examples.apex1 (Some Examples.so1) Examples.ops1 = Ok z /\
  zf_serialise z = Ok txt /\ zf_deserialise txt = Ok z' /\ zone_same z z'.
Proof. exact Examples.roundtrip1. Qed.
Example C13_built_ex2 : exists z txt z', zone_build root_domain None Examples.ops2 = Ok z /\
  zf_serialise z = Ok txt /\ zf_deserialise txt = Ok z' /\ zone_same z z'.
Proof. exact Examples.roundtrip2. Qed.

(* normalise_idempotent, literally ("normalising twice changes nothing more"), for Zone::serialise
   as the MODEL runs it -- the model's own record order: names sorted by the derived Ord, under a
   name the type groups in the insertion order of the association list standing for the
   HashMap<RecordType, Vec<..>>, inside a group Vec order.  The zone z' read back from the text of
   z is built by inserting the records in text order, so its type groups come in the order in
   which the first pass listed them (ZoneRtText.same_flat); the names are sorted, and the derived
   Ord is a total order (ZoneRtText.sort_names_unique): the second-pass text is the first-pass text.
   This exact statement is TRUE of the model (its order is deterministic); for the
   implementation, whose HashMap iteration order is arbitrary, the statement that carries over is
   C13_normalise_idempotent above (every admissible order gives the same zone, the same order
   parameter the same text) -- the correspondence stream compares the implementation's texts after a
   stable sort of the lines of each name block by (owner field, type field) for that reason. *)
Theorem C13_normalise_idempotent_text : forall ip, codec_rt ip -> forall z txt z',
  built z -> zone_serialise ip z = Ok txt -> deserialise ip txt = Ok z' -> zone_serialise ip z' = Ok txt.
Proof. exact own_text_idempotent. Qed.
Print Assumptions C13_normalise_idempotent_text.

(* the same for every zone the parser returns, and with the codec the model is run with (no
   hypothesis left): ztoz applied to its own output reproduces it octet for octet *)
Theorem C13_normalise_idempotent_text_loaded : forall ip, codec_rt ip -> codec_range ip -> forall data z txt z',
  deserialise ip data = Ok z -> zone_serialise ip z = Ok txt -> deserialise ip txt = Ok z' -> zone_serialise ip z' = Ok txt.
Proof. exact loaded_text_idempotent. Qed.
Print Assumptions C13_normalise_idempotent_text_loaded.

Theorem C13_normalise_idempotent_text_zf : forall z txt z',
  built z -> zf_serialise z = Ok txt -> zf_deserialise txt = Ok z' -> zf_serialise z' = Ok txt.
Proof. exact zf_text_idempotent. Qed.
Print Assumptions C13_normalise_idempotent_text_zf.

Theorem C13_ztoz_text_fixpoint_zf : forall data z txt z',
  zf_deserialise data = Ok z -> zf_serialise z = Ok txt -> zf_deserialise txt = Ok z' -> zf_serialise z' = Ok txt.
Proof. exact zf_loaded_text_idempotent. Qed.
Print Assumptions C13_ztoz_text_fixpoint_zf.

(* the hypotheses are satisfiable and the conclusion is about a non-trivial text: the zone of
   C13_built_ex1 (SOA, NS and a wildcard TXT at the apex, four more owners; text: Examples.text1) *)
Example C13_text_idempotent_ex1 : exists z txt z', zone_build Examples.apex1 (Some Examples.so1) Examples.ops1 = Ok z /\
  zf_serialise z = Ok txt /\ zf_deserialise txt = Ok z' /\ zf_serialise z' = Ok txt.
Proof.
  destruct Examples.built1 as (z & E & Hb). destruct (zf_zone_roundtrip z Hb) as (txt & z' & S & D & _).
  exists z, txt, z'. split; [exact E|]. split; [exact S|]. split; [exact D|]. exact (zf_text_idempotent z txt z' Hb S D).
Qed.
