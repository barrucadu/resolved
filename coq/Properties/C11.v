(* Properties/C11.v -- property theorems for C11; statements only.
   "Parsing a zone file yields exactly the records it denotes ... Unsupported or inconsistent
   input ... is rejected with an error instead of being loaded in part."

   Entry level: tokenise_render (the tokeniser honours the layout family: quotes, \X and \DDD
   escapes, parentheses -- also touching tokens --, comments, white space), parse_rr_forms (the
   ten field shapes, owner / TTL inheritance, wildcard owners), one rejection lemma per listed
   fault, no partial load, and soa_raises_ttls.
   File level: C11_parse_denotes, the statement
       valid f -> deserialise (render f) = Ok z /\ z represents (denote f)
   for files of the abstract syntax of ZoneFile/ZoneParseDenotes.v laid out ANYHOW in the layout
   family (white space, \X and \DDD escapes, quoted tokens, parenthesised groups spanning lines,
   comments, blank lines), all ten field shapes, all owner forms, $ORIGIN changes, owner / TTL
   inheritance, the SOA, in canonical SPELLING (names lower-case, numbers and addresses as Display
   prints them); C11_parse_denotes_spelled, the same for respelled files (letter case, leading
   zeros and '+', TYPE<n>, "*."); what is left is said at the end of the file. *)
From RV Require Import Base.Prelude Name.NameModel Name.NameSpec Wire.WireTypes Zone.ZoneModel
     ZoneFile.ZoneFileModel ZoneFile.ZoneFileSpec ZoneFile.ZoneFileProofs.

(* tokenise (render items) = the tokens, for every entry written in the layout family *)
Theorem C11_tokenise_render : forall items t rest,
  layout_ok false false items = Some false -> terminator_ok t = true ->
  tokenise_entry (items_text items ++ terminator_text t rest)
  = Ok (map dup (map wtoken_octets (items_tokens items)), terminator_rest t rest).
Proof. exact tokenise_render. Qed.
Print Assumptions C11_tokenise_render.

Theorem C11_tokenise_render_simple : forall toks t rest,
  forallb plain_token toks = true -> terminator_ok t = true ->
  tokenise_entry (render_simple toks ++ terminator_text t rest) = Ok (map dup toks, terminator_rest t rest).
Proof. exact tokenise_render_simple. Qed.
Print Assumptions C11_tokenise_render_simple.

(* the ten field shapes x every record type the RDATA tokens of which parse *)
Theorem C11_parse_rr_forms : forall ip sh origin pd pt o ttl ty rd n td,
  try_parse_rtype_with_data ip origin (ty :: rd) = Ok (Some td) ->
  (forall q, (type_pos sh < q <= 3)%nat -> try_from ip origin (shape_tokens sh o ttl ty rd) q = Ok None) ->
  all_digits (fst o) = false -> leqb (fst o) S_IN = false ->
  all_digits (fst ttl) = true -> uint_from_str U32_MAX (fst ttl) = Some n ->
  parse_rr ip origin pd pt (shape_tokens sh o ttl ty rd) = denote_rr sh origin pd pt o n td.
Proof. exact parse_rr_forms. Qed.
Print Assumptions C11_parse_rr_forms.

(* the "unambiguous" hypothesis has a simple decidable sufficient condition *)
Theorem C11_unambiguous_sufficient : forall ip origin (tokens : list token) q,
  match nth_error tokens q with Some t => rtype_from_str (fst t) = None | None => True end ->
  try_from ip origin tokens q = Ok None.
Proof. exact try_from_not_type. Qed.
Print Assumptions C11_unambiguous_sufficient.

(* rejection, one lemma per listed fault *)
Theorem C11_reject_include : forall ip st s t0 toks rest f fuel,
  tokenise_entry s = Ok (t0 :: toks, rest) -> fst t0 = S_INCLUDE ->
  exists e, deser_loop ip (f :: fuel) st s = Err e.
Proof. exact reject_include. Qed.
Print Assumptions C11_reject_include.

Theorem C11_reject_class : forall ip origin pd pt o x y ty rd td,
  try_parse_rtype_with_data ip origin (ty :: rd) = Ok (Some td) ->
  (leqb (fst x) S_IN = false -> leqb (fst y) S_IN = false ->
   exists e, parse_rr ip origin pd pt (o :: x :: y :: ty :: rd) = Err e)
  /\ (try_from ip origin (o :: x :: ty :: rd) 3 = Ok None ->
      leqb (fst x) S_IN = false -> leqb (fst o) S_IN = false -> uint_from_str U32_MAX (fst x) = None ->
      exists e, parse_rr ip origin pd pt (o :: x :: ty :: rd) = Err e).
Proof.
  intros ip origin pd pt o x y ty rd td H. split.
  - intros. eapply reject_class_5; eassumption.
  - intros. eapply reject_class_4; eassumption.
Qed.
Print Assumptions C11_reject_class.

Theorem C11_reject_second_soa : forall st r m rn a b c d e x,
  rr_data r = RD_SOA m rn a b c d e -> d_apex_soa st = Some x -> deser_step st (ERR r) = Err MultipleSOA.
Proof. exact reject_second_soa. Qed.
Print Assumptions C11_reject_second_soa.

Theorem C11_reject_wildcard_soa : forall st n d ttl,
  match to_rr (MWildcard n) (RT_SOA, d) ttl with
  | EWildcardRR r => deser_step st (EWildcardRR r) = Err WildcardSOA
  | _ => False
  end.
Proof. exact reject_wildcard_soa. Qed.
Print Assumptions C11_reject_wildcard_soa.

Theorem C11_reject_outside_apex : forall st r,
  dstate_wf st -> In r (d_rrs st) \/ In r (d_wrrs st) ->
  is_subdomain_of (rr_name r) (state_apex st) = false ->
  exists e, assemble st = Err e.
Proof. exact reject_outside_apex. Qed.
Print Assumptions C11_reject_outside_apex.

Theorem C11_reject_relative_without_origin : forall s c,
  forallb is_ascii s = true -> last_opt s = Some c -> (c <> 46 \/ s = S_AT) ->
  parse_domain None s = Err ExpectedOrigin.
Proof. exact reject_relative_without_origin. Qed.
Print Assumptions C11_reject_relative_without_origin.

Theorem C11_reject_no_ttl : forall sh origin pd o n td,
  has_ttl sh = false -> (fst td =? RT_SOA) = false ->
  exists e, denote_rr sh origin pd None o n td = Err e.
Proof. exact reject_no_ttl. Qed.
Print Assumptions C11_reject_no_ttl.

(* an error of any entry is the result of the whole parse: the zone is only built at the end *)
Theorem C11_no_partial_load : forall ip data,
  (forall z, deserialise ip data = Ok z ->
             exists st, deser_loop ip (0 :: data) dstate_init data = Ok st /\ assemble st = Ok z)
  /\ (forall x, deser_loop ip (0 :: data) dstate_init data = Err x -> deserialise ip data = Err x)
  /\ (forall f fuel st s e rest x,
         parse_entry ip (d_origin st) (d_prev_domain st) (d_prev_ttl st) s = Ok (Some e, rest) ->
         deser_step st e = Err x -> deser_loop ip (f :: fuel) st s = Err x).
Proof.
  intros ip data. split; [apply no_partial_load|split; [apply loop_error_is_final|]].
  intros. eapply deser_loop_err; eassumption.
Qed.
Print Assumptions C11_no_partial_load.

(* a SOA raises every TTL of the zone to its MINIMUM *)
Theorem C11_soa_raises_ttls : forall ip data z s,
  deserialise ip data = Ok z -> z_soa z = Some s ->
  forall n zrs zr,
    In (n, zrs) (zone_all_records z) \/ In (n, zrs) (zone_all_wildcard_records z) ->
    In zr zrs -> soa_minimum s <= zr_ttl zr.
Proof. exact soa_raises_ttls. Qed.
Print Assumptions C11_soa_raises_ttls.

(* the hypotheses are satisfiable: concrete files, evaluated *)
Definition ip0 : ipcodec :=
  {| parse_v4 := fun _ => Some 7; parse_v6 := fun _ => None; show_v4 := fun _ => []; show_v6 := fun _ => [] |}.

(* "$ORIGIN e." / "@ IN SOA @ @ 1 2 3 4 60" / "w 5 IN TXT a" / "*.w 7 IN TXT b": both TTLs are raised to 60 *)
Definition ex_soa_text : list N := [36; 79; 82; 73; 71; 73; 78; 32; 101; 46; 10; 64; 32; 73; 78; 32; 83; 79; 65; 32; 64; 32; 64; 32; 49; 32; 50; 32; 51; 32; 52; 32; 54; 48; 10; 119; 32; 53; 32; 73; 78; 32; 84; 88; 84; 32; 97; 10; 42; 46; 119; 32; 55; 32; 73; 78; 32; 84; 88; 84; 32; 98; 10].
Example C11_soa_raises_ttls_ex :
  match deserialise ip0 ex_soa_text with
  | Ok z => match z_soa z with
            | Some s => soa_minimum s = 60
                        /\ map (fun p => map zr_ttl (snd p)) (zone_all_records z) = [[60]; [60]]
                        /\ map (fun p => map zr_ttl (snd p)) (zone_all_wildcard_records z) = [[60]]
            | None => False
            end
  | _ => False
  end.
Proof. vm_compute. repeat split; reflexivity. Qed.

(* "a. 5 IN A 1.2.3.4" / "$INCLUDE x": the record before the $INCLUDE is not loaded either *)
Definition ex_include_text : list N := [97; 46; 32; 53; 32; 73; 78; 32; 65; 32; 49; 46; 50; 46; 51; 46; 52; 10; 36; 73; 78; 67; 76; 85; 68; 69; 32; 120; 10].
Example C11_reject_include_ex : deserialise ip0 ex_include_text = Err IncludeNotSupported.
Proof. vm_compute. reflexivity. Qed.

From RV Require Import Zone.ZoneFlat Zone.ZoneProofs ZoneFile.ZfInstance ZoneFile.ZoneRtLines ZoneFile.ZoneRtLoop
     ZoneFile.ZoneRtCodec ZoneFile.ZoneParseDenotes.

(* A file is a list of lines; a line holds an entry of the abstract syntax (or none: blank and
   comment-only lines), a layout -- ANY list of items of the layout family whose tokens are the
   entry's fields -- and a terminator (newline, comment, end of input; only the last line may end
   without a newline).  [lines_ok]: the layouts are in the family, the names are expressible
   (well formed, ASCII dot-free lower-case labels), numbers in range, the type one of the 18 with
   RDATA of its shape, an owner written as a name is not all digits and does not use the
   wildcard syntax; decidable: [lines_okb] is a sound checker.
   [denote]: origin tracking, "@" and relative names against the current origin, owner (with
   its wildcard-ness) and TTL inherited from the previous record -- the TTL as loaded, D3 --,
   class optional, TTL and class in either order, an owner "*" / "*.x" / expanding to "*.x" is
   a wildcard, the SOA makes the zone authoritative at its owner with TTL = MINIMUM; the result
   is (apex, SOA, insertions), its content flat_of_ops of Zone/ZoneFlat.v, which raises every TTL
   to the SOA minimum; None if an owner lies outside the apex, a second or a wildcard SOA, a
   relative name / @ / * without origin, no owner or no TTL to inherit.
   Then the parser returns a zone with that apex and SOA whose record tree represents (relation
   R of Zone/ZoneProofs.v, the one C02 is stated with) exactly those records; it is the zone
   Zone::new + insert / insert_wildcard build from them.

   The spelling is the canonical one here: names in lower case, numbers and addresses as Display
   prints them, the type by its mnemonic, the wildcard at the root as "*..".  Other spellings:
   C11_parse_denotes_spelled below. *)
Theorem C11_parse_denotes : forall ip, codec_rt ip -> forall ls apex so ops,
  lines_ok ip sp_init ls -> denote ls = Some (apex, so, ops) ->
  exists z, deserialise ip (render ls) = Ok z /\ z_apex z = apex /\ z_soa z = so /\
            zone_build apex so ops = Ok z /\ R (labels apex) (z_records z) (flat_of_ops apex so ops).
Proof. exact parse_denotes. Qed.
Print Assumptions C11_parse_denotes.

(* validity is checkable by computation *)
Theorem C11_lines_okb_sound : forall ip ls s, lines_okb ip s ls = true -> lines_ok ip s ls.
Proof. exact lines_okb_sound. Qed.
Print Assumptions C11_lines_okb_sound.

(* for the codec the model is run with nothing is assumed *)
Theorem C11_parse_denotes_zf : forall ls apex so ops,
  lines_okb zf_codec sp_init ls = true -> denote ls = Some (apex, so, ops) ->
  exists z, zf_deserialise (render ls) = Ok z /\ z_apex z = apex /\ z_soa z = so /\
            zone_build apex so ops = Ok z /\ R (labels apex) (z_records z) (flat_of_ops apex so ops).
Proof.
  intros ls apex so ops H. apply (parse_denotes zf_codec zf_codec_rt). apply lines_okb_sound. exact H.
Qed.
Print Assumptions C11_parse_denotes_zf.

(* an instance: eight lines using most of the syntax
     $ORIGIN example.com.
     @ IN SOA ns h ( 1 2 3          <- parenthesised group over two lines, trailing comment
      4 60 ) ; the SOA
     www 300 A 1.2.3.4              <- relative owner, TTL, no class
     ; note                         <- comment-only line
     <TAB>IN TXT <quoted a b>       <- owner and TTL inherited, quoted token with a space
     * MX 10 @                      <- the wildcard at the origin, TTL inherited, @ in RDATA
     $ORIGIN sub                    <- relative change of origin
     @ 5 IN CNAME w\119w\.example.com.   <- @ = sub.example.com., \DDD and \X escapes, no final newline *)
Local Notation ex := ([101; 120; 97; 109; 112; 108; 101] : label).
Local Notation com := ([99; 111; 109] : label).
Local Notation www := ([119; 119; 119] : label).
Definition tk (s : list N) : item := ITok (rawtok s).
Definition qt (s : list N) : item := ITok {| wt_quoted := true; wt_pieces := map PRaw s |}.
Definition sp1 : item := IWs 32.
Definition frr0 o t c tf ty rd := {| f_owner := o; f_ttl := t; f_class := c; f_ttl_first := tf; f_type := ty; f_rd := rd |}.
Definition ex_lines : list fline :=
  [ {| l_entry := Some (FOrigin (NAbs (ZoneProofs.nm [ex; com])));
       l_items := [tk S_ORIGIN; sp1; tk [101;120;97;109;112;108;101;46;99;111;109;46]]; l_term := TNl |};
    {| l_entry := Some (FRR (frr0 (Some (OName NAt)) None true false RT_SOA (A_SOA (NRel [[110;115]]) (NRel [[104]]) 1 2 3 4 60)));
       l_items := [tk [64]; sp1; tk S_IN; sp1; tk [83;79;65]; sp1; tk [110;115]; sp1; tk [104]; sp1; IOpen; sp1; tk [49]; sp1; tk [50]; sp1; tk [51];
                   INl; sp1; tk [52]; sp1; tk [54;48]; sp1; IClose; sp1];
       l_term := TCommentNl [32;116;104;101;32;83;79;65] |};
    {| l_entry := Some (FRR (frr0 (Some (OName (NRel [www]))) (Some 300) false false RT_A (A_A 16909060)));
       l_items := [tk [119;119;119]; sp1; tk [51;48;48]; sp1; tk [65]; sp1; tk [49;46;50;46;51;46;52]]; l_term := TNl |};
    {| l_entry := None; l_items := []; l_term := TCommentNl [32;110;111;116;101] |};
    {| l_entry := Some (FRR (frr0 None None true false RT_TXT (A_Octets [97;32;98])));
       l_items := [IWs 9; tk S_IN; sp1; tk [84;88;84]; sp1; qt [97;32;98]]; l_term := TNl |};
    {| l_entry := Some (FRR (frr0 (Some OStar) None false false RT_MX (A_MX 10 NAt)));
       l_items := [tk [42]; sp1; tk [77;88]; sp1; tk [49;48]; sp1; tk [64]]; l_term := TNl |};
    {| l_entry := Some (FOrigin (NRel [[115;117;98]])); l_items := [tk S_ORIGIN; sp1; tk [115;117;98]]; l_term := TNl |};
    {| l_entry := Some (FRR (frr0 (Some (OName NAt)) (Some 5) true true RT_CNAME (A_Name (NAbs (ZoneProofs.nm [www; ex; com])))));
       l_items := [tk [64]; sp1; tk [53]; sp1; tk S_IN; sp1; tk [67;78;65;77;69]; sp1;
                   ITok {| wt_quoted := false; wt_pieces := [PRaw 119; PEscD 119; PRaw 119; PEscX 46] ++ map PRaw [101;120;97;109;112;108;101;46;99;111;109;46] |}];
       l_term := TEof |} ].

Example C11_parse_denotes_ex :
  lines_okb zf_codec sp_init ex_lines = true /\
  exists apex so ops z,
    denote ex_lines = Some (apex, so, ops) /\ apex = ZoneProofs.nm [ex; com] /\ length ops = 4%nat /\
    zf_deserialise (render ex_lines) = Ok z /\ z_apex z = apex /\ z_soa z = so /\
    R (labels apex) (z_records z) (flat_of_ops apex so ops) /\
    (* the TTLs 300 stay (>= 60), the CNAME's 5 is raised to the SOA minimum 60 *)
    map (fun p => map zr_ttl (snd p)) (zone_all_records z) = [[60]; [300; 300]; [60]] /\
    map (fun p => map zr_ttl (snd p)) (zone_all_wildcard_records z) = [[300]].
Proof.
  split; [vm_compute; reflexivity|].
  destruct (denote ex_lines) as [[[apex so] ops]|] eqn:Ed; [|vm_compute in Ed; discriminate].
  destruct (C11_parse_denotes_zf ex_lines apex so ops ltac:(vm_compute; reflexivity) Ed) as (z & Hz & Ha & Hs & _ & HR).
  exists apex, so, ops, z. split; [reflexivity|].
  assert (Hv : apex = ZoneProofs.nm [ex; com] /\ length ops = 4%nat) by (vm_compute in Ed; injection Ed as <- <- <-; split; reflexivity).
  destruct Hv as [Hv1 Hv2]. split; [exact Hv1|]. split; [exact Hv2|]. split; [exact Hz|]. split; [exact Ha|]. split; [exact Hs|].
  split; [exact HR|]. vm_compute in Hz. injection Hz as <-. split; reflexivity.
Qed.

From RV Require Import ZoneFile.ZoneSerialiseModel ZoneFile.ZoneParseSpelling.

(* upper-case letters in names: parse_domain and parse_domain_or_wildcard fold the ASCII case of
   EVERY text (absolute, relative, "@", "*", "*.x"): a name may be written in any letter case *)
Theorem C11_spelling_upper : forall o s,
  parse_domain o (map lower s) = parse_domain o s /\
  parse_domain_or_wildcard o (map lower s) = parse_domain_or_wildcard o s.
Proof. intros o s. split; [apply parse_domain_lower|apply pdw_lower]. Qed.
Print Assumptions C11_spelling_upper.

(* numbers: <u16/u32 as FromStr> reads the value from its decimal text preceded by any number of
   zeros and, before those, one '+' (max = 65535 / 4294967295); the first form is all digits, as a
   TTL field must be *)
Theorem C11_spelling_numbers : forall max n k, n < 4294967296 -> n <= max ->
  uint_from_str max (repeat 48 k ++ show_dec n) = Some n /\
  uint_from_str max (43 :: repeat 48 k ++ show_dec n) = Some n /\
  all_digits (repeat 48 k ++ show_dec n) = true.
Proof. intros max n k H1 H2. split; [apply uint_zeros; assumption|]. split; [apply uint_plus; assumption|apply zeros_all_digits]. Qed.
Print Assumptions C11_spelling_numbers.

(* the type written TYPE<n>, n the code of one of the 18 known types, is that type *)
Theorem C11_spelling_type : forall ty, rtype_known ty = true ->
  rtype_from_str (show_rtype ty) = Some ty /\ rtype_from_str (rtype_unknown_prefix ++ show_dec ty) = Some ty.
Proof. intros ty H. split; [apply show_rtype_parse|apply type_code_parse]; exact H. Qed.
Print Assumptions C11_spelling_type.

(* the wildcard at the root written "*." (canonically "*..": "*." before the root's text ".") *)
Theorem C11_spelling_root_wildcard : forall o,
  parse_domain_or_wildcard o [42; 46] = Ok (MWildcard root_domain) /\
  parse_domain_or_wildcard o (oref_text (OWild (NAbs root_domain))) = Ok (MWildcard root_domain).
Proof. intro o. split; reflexivity. Qed.
Print Assumptions C11_spelling_root_wildcard.

(* composed: C11_parse_denotes for files whose tokens are RESPELLED.  [lines_ok_sp] is [lines_ok]
   with "the tokens of the line are the entry's canonical tokens" replaced by "are a spelling of
   the entry" ([entry_spelled]): each name token is the canonical text in any letter case
   (map lower t = canonical); each number any text FromStr reads as the value (leading zeros, '+';
   the TTL field: all digits); an address any text the codec's FromStr reads as the value; the
   type token any text RecordType::from_str reads as the type (mnemonic or TYPE<n>); the owner of
   the wildcard at the root also "*."; PROVIDED the respelled entry stays unambiguous to parse_rr:
   the owner token is not "IN", "$ORIGIN", "$INCLUDE", and no RDATA token but the last reads as a
   type mnemonic (an owner "in" written "IN" is the class; "MINFO NS x." is an NS record owned by
   "MINFO": these are different entries, not spellings).  Layout stays arbitrary.  The hypothesis
   [codec_rt ip] is not used: the address tokens are constrained through the codec's FromStr alone. *)
Theorem C11_parse_denotes_spelled : forall ip, codec_rt ip -> forall ls apex so ops,
  lines_ok_sp ip sp_init ls -> denote ls = Some (apex, so, ops) ->
  exists z, deserialise ip (render ls) = Ok z /\ z_apex z = apex /\ z_soa z = so /\
            zone_build apex so ops = Ok z /\ R (labels apex) (z_records z) (flat_of_ops apex so ops).
Proof. intros ip _. apply parse_denotes_spelled. Qed.
Print Assumptions C11_parse_denotes_spelled.

(* it generalises C11_parse_denotes: the canonical spelling is one of the spellings *)
Theorem C11_canonical_is_spelled : forall ip, codec_rt ip -> forall ls, lines_ok ip sp_init ls -> lines_ok_sp ip sp_init ls.
Proof. intros ip Hip ls. apply (lines_ok_spelled ip Hip ls sp_init). exact I. Qed.
Print Assumptions C11_canonical_is_spelled.

(* validity of a respelled file is checkable by computation *)
Theorem C11_lines_ok_spb_sound : forall ip ls s, lines_ok_spb ip s ls = true -> lines_ok_sp ip s ls.
Proof. exact lines_ok_spb_sound. Qed.
Print Assumptions C11_lines_ok_spb_sound.

Theorem C11_parse_denotes_spelled_zf : forall ls apex so ops,
  lines_ok_spb zf_codec sp_init ls = true -> denote ls = Some (apex, so, ops) ->
  exists z, zf_deserialise (render ls) = Ok z /\ z_apex z = apex /\ z_soa z = so /\
            zone_build apex so ops = Ok z /\ R (labels apex) (z_records z) (flat_of_ops apex so ops).
Proof.
  intros ls apex so ops H. apply parse_denotes_spelled. apply lines_ok_spb_sound. exact H.
Qed.
Print Assumptions C11_parse_denotes_spelled_zf.

(* an instance: every respelling at once; the file is NOT canonical (lines_okb rejects it)
     $ORIGIN Example.COM.
     @ IN SOA Ns H 01 +2 003 4 +060        <- upper-case letters in names, leading zeros and '+' in RDATA numbers
                                              ("NS" there would be rejected by the checker: a type mnemonic before the last token)
     WWW 0300 TYPE1 1.2.3.4                <- upper-case owner, TTL with a leading zero, TYPE1 = A
     *.Sub 007 IN TYPE15 +010 Mail         <- wildcard owner in mixed case, TYPE15 = MX, '+' and zeros
   and, without a SOA (apex = the root), the wildcard at the root written "*.":
     *. 5 TXT x *)
Definition ex_sp_lines : list fline :=
  [ {| l_entry := Some (FOrigin (NAbs (ZoneProofs.nm [ex; com])));
       l_items := [tk S_ORIGIN; sp1; tk [69;120;97;109;112;108;101;46;67;79;77;46]]; l_term := TNl |};
    {| l_entry := Some (FRR (frr0 (Some (OName NAt)) None true false RT_SOA (A_SOA (NRel [[110;115]]) (NRel [[104]]) 1 2 3 4 60)));
       l_items := [tk [64]; sp1; tk S_IN; sp1; tk [83;79;65]; sp1; tk [78;115]; sp1; tk [72]; sp1; tk [48;49]; sp1; tk [43;50]; sp1;
                   tk [48;48;51]; sp1; tk [52]; sp1; tk [43;48;54;48]];
       l_term := TNl |};
    {| l_entry := Some (FRR (frr0 (Some (OName (NRel [www]))) (Some 300) false false RT_A (A_A 16909060)));
       l_items := [tk [87;87;87]; sp1; tk [48;51;48;48]; sp1; tk [84;89;80;69;49]; sp1; tk [49;46;50;46;51;46;52]]; l_term := TNl |};
    {| l_entry := Some (FRR (frr0 (Some (OWild (NRel [[115;117;98]]))) (Some 7) true true RT_MX (A_MX 10 (NRel [[109;97;105;108]]))));
       l_items := [tk [42;46;83;117;98]; sp1; tk [48;48;55]; sp1; tk S_IN; sp1; tk [84;89;80;69;49;53]; sp1; tk [43;48;49;48]; sp1;
                   tk [77;97;105;108]];
       l_term := TEof |} ].

Example C11_parse_denotes_spelled_ex :
  lines_ok_spb zf_codec sp_init ex_sp_lines = true /\ lines_okb zf_codec sp_init ex_sp_lines = false /\
  exists apex so ops z,
    denote ex_sp_lines = Some (apex, so, ops) /\ apex = ZoneProofs.nm [ex; com] /\ length ops = 2%nat /\
    zf_deserialise (render ex_sp_lines) = Ok z /\ z_apex z = apex /\ z_soa z = so /\
    R (labels apex) (z_records z) (flat_of_ops apex so ops) /\
    option_map soa_minimum (z_soa z) = Some 60 /\
    map (fun p => (labels (fst p), map (fun r => (zr_type r, zr_ttl r, zr_data r)) (snd p))) (zone_all_records z)
    = [ ([ex; com; []], [(RT_SOA, 60, RD_SOA (ZoneProofs.nm [[110;115]; ex; com]) (ZoneProofs.nm [[104]; ex; com]) 1 2 3 4 60)]);
        ([www; ex; com; []], [(RT_A, 300, RD_A 16909060)]) ] /\
    map (fun p => (labels (fst p), map (fun r => (zr_type r, zr_ttl r, zr_data r)) (snd p))) (zone_all_wildcard_records z)
    = [ ([[115;117;98]; ex; com; []], [(RT_MX, 60, RD_MX 10 (ZoneProofs.nm [[109;97;105;108]; ex; com]))]) ].
Proof.
  split; [vm_compute; reflexivity|]. split; [vm_compute; reflexivity|].
  destruct (denote ex_sp_lines) as [[[apex so] ops]|] eqn:Ed; [|vm_compute in Ed; discriminate].
  destruct (C11_parse_denotes_spelled_zf ex_sp_lines apex so ops ltac:(vm_compute; reflexivity) Ed) as (z & Hz & Ha & Hs & _ & HR).
  exists apex, so, ops, z. split; [reflexivity|].
  assert (Hv : apex = ZoneProofs.nm [ex; com] /\ length ops = 2%nat) by (vm_compute in Ed; injection Ed as <- <- <-; split; reflexivity).
  destruct Hv as [Hv1 Hv2]. split; [exact Hv1|]. split; [exact Hv2|]. split; [exact Hz|]. split; [exact Ha|]. split; [exact Hs|].
  split; [exact HR|]. vm_compute in Hz. injection Hz as <-. repeat split; reflexivity.
Qed.

Definition ex_root_wild_lines : list fline :=
  [ {| l_entry := Some (FRR (frr0 (Some (OWild (NAbs root_domain))) (Some 5) false false RT_TXT (A_Octets [120])));
       l_items := [tk [42;46]; sp1; tk [53]; sp1; tk [84;88;84]; sp1; tk [120]]; l_term := TNl |} ].

Example C11_spelling_root_wildcard_ex :
  lines_ok_spb zf_codec sp_init ex_root_wild_lines = true /\ lines_okb zf_codec sp_init ex_root_wild_lines = false /\
  match zf_deserialise (render ex_root_wild_lines) with
  | Ok z => z_apex z = root_domain /\ zone_all_records z = [] /\
            map (fun p => (fst p, map zr_data (snd p))) (zone_all_wildcard_records z) = [(root_domain, [RD_Octets [120]])]
  | _ => False
  end.
Proof. split; [vm_compute; reflexivity|]. split; [vm_compute; reflexivity|]. vm_compute. repeat split; reflexivity. Qed.

(* an owner NAME written with a leading "*." -- relative ("*.a.b" under an origin) or absolute
   ("*.a.b.") -- is textually the wildcard owner, and the syntax tree "name whose first label is *"
   has the text and (by star_rule: the last branch of parse_domain_or_wildcard) the denotation of the tree OWild, which
   C11_parse_denotes(_spelled) covers: the restriction in oref_ok removes a duplicate tree, not a text *)
Theorem C11_star_owner_same : forall o,
  (forall pre, pre <> [] ->
     oref_text (OName (NRel (S_STAR :: pre))) = oref_text (OWild (NRel pre)) /\
     resolve_owner o (OName (NRel (S_STAR :: pre))) = resolve_owner o (OWild (NRel pre))) /\
  (forall front, NameProofs.good_front front -> front <> [] ->
     oref_text (OName (NAbs (mk (S_STAR :: front)))) = oref_text (OWild (NAbs (mk front))) /\
     resolve_owner o (OName (NAbs (mk (S_STAR :: front)))) = resolve_owner o (OWild (NAbs (mk front)))).
Proof. intro o. split; [apply star_owner_rel|apply star_owner_abs]. Qed.
Print Assumptions C11_star_owner_same.

(* What C11_parse_denotes_spelled leaves out -- a statement, NOT proved:
   Theorem C11_parse_denotes_spelling_partial : C11_parse_denotes_spelled
     (a) with a '+' also in the TTL FIELD of the shapes that have an owner (parse_rr_4 and the last
         branch of parse_rr_3 call parse_u32 on it directly; in the owner-less shapes "+5" is not all
         digits and IS an owner name, so there it is not a spelling of a TTL): needs parse_rr_forms
         (ZoneFileProofs.v) restated with "all digits" only where the code tests it;
     (b) without the side conditions where they are not needed: an upper-case RDATA name that is a
         type mnemonic is harmless unless the tokens after it parse as that type's RDATA
         (inner_plain is sufficient, not necessary).
   Not a gap: "an owner NAME written with a leading '*.'" is the same TEXT as the wildcard owner
   OWild and is covered as such (oref_ok only excludes the second abstract syntax tree for one
   text; C11_star_owner_same above shows both trees have that text and that denotation).
   The correspondence stream generates all these spellings, judged by the python denotation. *)
