(* Properties/C15.v -- "Cache pruning is exact, bounded and least-recently-used".
   Statements only; the proofs are in Cache/ and Base/Locks.v.

   Setting as in Properties/C05.v.  [Inv] is the representation invariant of
   PartitionedCache (CacheSpec): unique keys, no duplicate value in a Vec, every
   partition's size = number of its records >= 1, next_expiry = minimum expiry, both
   priority queues hold exactly the partition keys with priorities last_read /
   next_expiry, current_size = sum of the partition sizes.  [abs_map c] is the finite map
   (name, type, data) -> expiry held by state c, [abs_lru c] the map name -> last use,
   [card m n] says that m has exactly n entries.

   Several threads: SharedCache is Arc<Mutex<Cache>> and every method body is one critical
   section that reads the clock inside it (read from cache.rs by tools/tables.py,
   Base/TablesOk.shared_cache_methods_atomic).  Base/Locks.v models threads around one lock
   as a small-step system whose schedules are ALL event lists; Cache/CacheConcurrent.v
   instantiates it with the cache model: [C15_concurrent_invariant] and
   [C15_concurrent_is_history] below hold for every schedule of every number of threads.
   Outside: that std::sync::Mutex provides the exclusion the model assumes (the thorough
   tier hammers one real cache from 2..8 threads and checks Inv on the quiescent dump). *)
From RV Require Import Base.Prelude Name.NameModel Wire.WireTypes
  Cache.CacheModel Cache.CacheSpec Cache.CacheCount Cache.CacheProofs.
From RV Require Base.Locks Cache.CacheConcurrent.

(* the invariant holds initially, is preserved by every operation, hence holds after
   every history; no history reaches a Panic site (usize underflow) or runs out of fuel *)
Theorem C15_inv_init : forall d, Inv (with_desired_size d).
Proof. exact inv_init. Qed.
Print Assumptions C15_inv_init.

Theorem C15_inv_preserved : forall tb, tie_ok tb -> forall c now o,
  Inv c -> exists c' now' x, step tb c now o = Ok (c', now', x) /\ Inv c' /\ c_desired c' = c_desired c.
Proof. exact step_inv. Qed.
Print Assumptions C15_inv_preserved.

Theorem C15_inv_after_history : forall tb, tie_ok tb -> forall desired ops c now outs,
  run tb ops (with_desired_size desired) 0 = Ok (c, now, outs) -> Inv c /\ c_desired c = desired.
Proof. exact inv_after_history. Qed.
Print Assumptions C15_inv_after_history.

Theorem C15_history_never_panics : forall tb, tie_ok tb -> forall desired ops,
  exists c now outs, run tb ops (with_desired_size desired) 0 = Ok (c, now, outs).
Proof. exact history_never_panics. Qed.
Print Assumptions C15_history_never_panics.

(* with the model's own fuel (|expiry queue| + 1 expiry steps,
   |access queue| evictions) prune completes: no OutOfFuel, no Panic.  In particular the
   [while current_size > desired_size] loop cannot spin on an empty queue. *)
Theorem C15_prune_terminates : forall tb, tie_ok tb -> forall c now,
  Inv c -> exists c' rep, prune tb c now = Ok (c', rep) /\ Inv c'.
Proof. exact prune_terminates. Qed.
Print Assumptions C15_prune_terminates.

Theorem C15_prune_no_expired_left : forall tb, tie_ok tb -> forall c now c' rep,
  Inv c -> prune tb c now = Ok (c', rep) -> forall k e, abs_map c' k = Some e -> now < e.
Proof. exact prune_no_expired_left. Qed.
Print Assumptions C15_prune_no_expired_left.

Theorem C15_prune_at_most_desired : forall tb, tie_ok tb -> forall c now c' rep,
  Inv c -> prune tb c now = Ok (c', rep) ->
  c_size c' <= c_desired c /\ forall n, card (abs_map c') n -> n <= c_desired c.
Proof. exact prune_at_most_desired. Qed.
Print Assumptions C15_prune_at_most_desired.

(* the result of prune is
   an abstract prune ([a_prune]: expired entries go, then whole names [evs] in order, each
   one cached, alive and least recently used at its turn and evicted only while the count
   exceeds the desired size; last-use instants of surviving names unchanged) and the four
   numbers are the cardinalities of the abstract sets ([report_ok]) *)
Theorem C15_prune_refines : forall tb, tie_ok tb -> forall c now,
  Inv c ->
  exists c' rep evs, prune tb c now = Ok (c', rep) /\ Inv c' /\ c_desired c' = c_desired c /\
    a_prune (abs_map c) (abs_lru c) now (c_desired c) (abs_map c') (abs_lru c') evs /\
    report_ok (abs_map c) (abs_map c') now (c_desired c) evs rep.
Proof. exact prune_refines. Qed.
Print Assumptions C15_prune_refines.

(* the same over histories: a prune at step i of any history is an abstract prune of the
   state reached by the first i operations, reports the true numbers, leaves nothing
   expired and at most the desired number of entries *)
Theorem C15_prune_in_history : forall tb, tie_ok tb -> forall desired ops c now outs i rep,
  run tb ops (with_desired_size desired) 0 = Ok (c, now, outs) ->
  nth_error ops i = Some Prune -> nth_error outs i = Some (OPrune rep) ->
  exists ci ci' evs,
    run tb (firstn i ops) (with_desired_size desired) 0 = Ok (ci, time_of (firstn i ops), firstn i outs) /\
    prune tb ci (time_of (firstn i ops)) = Ok (ci', rep) /\ Inv ci /\ Inv ci' /\
    a_prune (abs_map ci) (abs_lru ci) (time_of (firstn i ops)) desired (abs_map ci') (abs_lru ci') evs /\
    report_ok (abs_map ci) (abs_map ci') (time_of (firstn i ops)) desired evs rep /\
    (forall k e, abs_map ci' k = Some e -> time_of (firstn i ops) < e) /\
    c_size ci' <= desired /\ card (abs_map ci') (c_size ci').
Proof. exact prune_in_history. Qed.
Print Assumptions C15_prune_in_history.

Theorem C15_count_is_distinct_entries : forall c, Inv c -> card (abs_map c) (c_size c).
Proof. exact count_is_distinct_entries. Qed.
Print Assumptions C15_count_is_distinct_entries.

Theorem C15_count_after_history : forall tb, tie_ok tb -> forall desired ops c now outs,
  run tb ops (with_desired_size desired) 0 = Ok (c, now, outs) -> card (abs_map c) (c_size c).
Proof. exact count_after_history. Qed.
Print Assumptions C15_count_after_history.

(* every operation refines the abstract cache *)
Theorem C15_step_refines : forall tb, tie_ok tb -> forall c now o,
  Inv c ->
  exists c' now' x, step tb c now o = Ok (c', now', x) /\ Inv c' /\ c_desired c' = c_desired c /\
    abs_step (abs_map c) (abs_lru c) now (c_desired c) o (abs_map c') (abs_lru c') now' x.
Proof. exact step_refines. Qed.
Print Assumptions C15_step_refines.

(* ties among equal expiry instants do not affect what is reported as expired *)
Theorem C15_expired_count_tie_independent : forall tb1 tb2 c now c1 r1 c2 r2,
  tie_ok tb1 -> tie_ok tb2 -> Inv c ->
  prune tb1 c now = Ok (c1, r1) -> prune tb2 c now = Ok (c2, r2) ->
  pr_expired r1 = pr_expired r2 /\ pr_overflowed r1 = pr_overflowed r2.
Proof. exact expired_count_tie_independent. Qed.
Print Assumptions C15_expired_count_tie_independent.

Theorem C15_tb_first_ok : tie_ok tb_first.
Proof. exact tb_first_ok. Qed.
Print Assumptions C15_tb_first_ok.

(* [CacheConcurrent.crun tb d evs]: the system (clock, cache, mutex state, one program counter per
   thread, log) after the schedule [evs] -- any list of: time passes, thread t calls a method, t tries
   to take the mutex, t runs the body it holds the mutex for, t releases -- from an empty cache of
   desired size d.  After EVERY schedule, hence at every instant of every concurrent use: the
   representation invariant holds, the desired size is unchanged, the record count equals the number
   of distinct (name, type, data) entries held, and the same was true of every value the cache has
   ever had. *)
Theorem C15_concurrent_invariant : forall tb, tie_ok tb -> forall d evs,
  let s := CacheConcurrent.crun tb d evs in
  Inv (Locks.shared _ _ _ _ s) /\ c_desired (Locks.shared _ _ _ _ s) = d /\
  card (abs_map (Locks.shared _ _ _ _ s)) (c_size (Locks.shared _ _ _ _ s)) /\
  Forall (CacheConcurrent.good d) (Locks.hist _ _ _ _ s).
Proof. exact CacheConcurrent.concurrent_inv. Qed.
Print Assumptions C15_concurrent_invariant.

(* Linearisability: after every schedule the cache is the state reached by ONE sequential history --
   the executed method bodies in the order they held the mutex, each preceded by the clock advance up
   to its instant -- and what each thread was handed back is the result of its call in that history.
   So every theorem of this file and of Properties/C05.v about histories ([run]) is a theorem about
   concurrent use. *)
Theorem C15_concurrent_is_history : forall tb, tie_ok tb -> forall d evs,
  (forall t o, In (Locks.CallW op Empty_set t o) evs -> CacheConcurrent.is_call o = true) ->
  let s := CacheConcurrent.crun tb d evs in
  let ls := rev (Locks.wlog _ _ _ _ s) in
  exists outs,
    run tb (CacheConcurrent.ops_of 0 ls) (with_desired_size d) 0
      = Ok (Locks.shared _ _ _ _ s, Locks.last_time op (option out) 0 ls, outs) /\
    map Some outs = CacheConcurrent.outs_of ls /\
    (forall l, In (Locks.WRet cache op Empty_set (option out) l) (Locks.rets _ _ _ _ s) -> In l ls).
Proof. exact CacheConcurrent.concurrent_is_history. Qed.
Print Assumptions C15_concurrent_is_history.

(* the mutex really excludes: never two threads inside a body *)
Theorem C15_concurrent_mutual_exclusion : forall tb d evs t1 t2,
  let s := CacheConcurrent.crun tb d evs in
  Locks.holds_w _ _ _ _ (Locks.pcs _ _ _ _ s t1) -> Locks.holds_w _ _ _ _ (Locks.pcs _ _ _ _ s t2) -> t1 = t2.
Proof.
  intros tb d evs t1 t2 s H1 H2.
  exact (proj1 (Locks.mutual_exclusion _ _ _ _ _ _ (with_desired_size d) evs t1 t2 H1) H2).
Qed.
Print Assumptions C15_concurrent_mutual_exclusion.

(* a two-thread schedule in which the second thread has to wait for the mutex *)
Example C15_concurrent_example :
  let s := CacheConcurrent.crun tb_first 10 CacheConcurrent.ex_sched in
  length (Locks.wlog _ _ _ _ s) = 2%nat /\ length (Locks.rets _ _ _ _ s) = 2%nat /\
  map (fun l => (Locks.l_time _ _ l, Locks.l_tid _ _ l)) (rev (Locks.wlog _ _ _ _ s)) = [(5, 1%nat); (10, 2%nat)] /\
  c_size (Locks.shared _ _ _ _ s) = 1.
Proof. exact CacheConcurrent.ex_sched_runs. Qed.

Definition ex_name (l : N) : dname := {| labels := [[l]; []]; nlen := 3 |}.
Definition ex_mname : dname := ex_name 109.
Definition ex_a_rr (n : dname) (v ttl : N) : rr :=
  {| rr_name := n; rr_type := RT_A; rr_class := RC_IN; rr_ttl := ttl; rr_data := RD_A v |}.
Definition ex_mx_rr (n : dname) (ttl : N) : rr :=
  {| rr_name := n; rr_type := RT_MX; rr_class := RC_IN; rr_ttl := ttl; rr_data := RD_MX 10 ex_mname |}.

(* next_expiry of a name is the minimum over ALL its record types (cache.rs, upsert): were it
   recomputed over the inserted type only, this prune would report (false, 2, 0, 0) and keep the
   expired MX *)
Definition witness : list op :=
  [Advance 1; Insert (ex_a_rr (ex_name 97) 16909060 1); Advance 1; Insert (ex_mx_rr (ex_name 97) 2);
   Advance 1; Insert (ex_a_rr (ex_name 97) 16909060 100); Advance 2500000000; Prune].

Example C15_witness :
  exists c now,
    run tb_first witness (with_desired_size 10) 0 =
    Ok (c, now, [OUnit; OUnit; OUnit; OUnit; OUnit; OUnit; OUnit;
                 OPrune {| pr_overflowed := false; pr_current := 1; pr_expired := 1; pr_pruned := 0 |}]) /\
    abs_map c (ex_name 97, RT_MX, RD_MX 10 ex_mname) = None /\
    abs_map c (ex_name 97, RT_A, RD_A 16909060) = Some 100000000003.
Proof. eexists _, _. split; [vm_compute; reflexivity|]. split; vm_compute; reflexivity. Qed.

(* an over-size prune: three names, desired size 2; "a" was used least recently and goes,
   whole (both its records), although evicting one record would have sufficed *)
Definition lru_history : list op :=
  [Advance 1; InsertAll [ex_a_rr (ex_name 97) 1 300; ex_a_rr (ex_name 97) 2 300]; Advance 1;
   Insert (ex_a_rr (ex_name 98) 1 300); Advance 1; Insert (ex_a_rr (ex_name 99) 1 1); Advance 1;
   Get (ex_name 98) QT_Wildcard; Advance 1000000000; Prune].

Example C15_lru_example :
  exists c now,
    run tb_first lru_history (with_desired_size 2) 0 =
    Ok (c, now, [OUnit; OUnit; OUnit; OUnit; OUnit; OUnit; OUnit; ORRs [ex_a_rr (ex_name 98) 1 299]; OUnit;
                 OPrune {| pr_overflowed := true; pr_current := 1; pr_expired := 1; pr_pruned := 2 |}]) /\
    abs_lru c (ex_name 97) = None /\ abs_lru c (ex_name 98) = Some 4.
Proof. eexists _, _. split; [vm_compute; reflexivity|]. split; vm_compute; reflexivity. Qed.
