(* Properties/C07.v -- property theorems for C07 (recursive resolution finds the authoritative answer
   in any delegation tree).  The proofs are in the Resolver/Recursive*.v files: a theorem here is
   closed by [exact lemma], or by the few lines that instantiate one, and followed by Print
   Assumptions.

   The property, C07_correct: for a consistent universe [u] whose root servers the hints name,
       fst (resolve (ModeRecursive mode) port hints (universe_oracle u []) fuel q (empty cache, tstate_init))
       = Ok (NonAuthoritative (aa_rrs (auth_answer u q)) (aa_soa (auth_answer u q)))
   when auth_answer is defined and every zone has a nameserver address the mode can use.  The
   theorems of this file prove it for the recursive model run against Universe.serve through the
   wire codec, under hypotheses stated question by question (the delegation chain of the name with
   its glue, or a plan for nameservers without glue); the comment at the end of the file says what
   they cover and what is left to the differential stream and the oracle of vlib/p_c07.py
   (implementation result = extracted auth_answer on every generated consistent universe; the model
   agrees with the implementation on every exchange).

   In order: the specification side (Universe.v: referrals are strictly deeper, auth_answer comes
   from the universe); referral progress and provenance on the model; the reply filter on what a
   server says, and the two kinds of hop; then the end-to-end theorems: depth 0 and 1, chains of any
   depth, warm caches, sequences of questions, aliases, all four protocol modes, nameservers without
   glue, servers holding several zones of a chain.  Each is followed by a worked universe that meets
   its hypotheses (checked by evaluating the boolean checks of Resolver/UniverseCheck.v and of the
   Recursive*.v files) on which the same run is also evaluated inside Coq. *)
From RV Require Import Base.Prelude Name.NameModel Wire.WireTypes Zone.ZoneModel Resolver.LocalModel
     Resolver.TransportModel Resolver.RecursiveModel Resolver.ForwardingModel Resolver.Universe
     Resolver.ResolverFacts.

Theorem C07_referral_strictly_deeper : forall z n c,
  wf_cuts z -> cut_owner z n = Some c ->
  is_subdomain_of n c = true /\ nlabels (uz_apex z) < nlabels c.
Proof. exact referral_strictly_deeper. Qed.
Print Assumptions C07_referral_strictly_deeper.

Theorem C07_auth_answer_from_universe : forall u q r,
  In r (aa_rrs (auth_answer u q)) ->
  exists z, In z (u_zones u) /\ In r (zone_data z) /\ is_subdomain_of (rr_name r) (uz_apex z) = true.
Proof. exact auth_answer_from_universe. Qed.
Print Assumptions C07_auth_answer_from_universe.

(* a worked universe: root -> com., an alias inside com. *)
Definition nm (ls : list label) : dname :=
  {| labels := ls ++ [[]]; nlen := fold_right (fun l acc => 1 + llen l + acc) 1 ls |}.
Definition l_com : label := [99; 111; 109].
Definition l_www : label := [119; 119; 119].
Definition l_ns : label := [110; 115].
Definition l_a : label := [97].
Definition l_alias : label := [97; 108; 105; 97; 115].

Definition n_root := nm [].
Definition n_a := nm [l_a].
Definition n_com := nm [l_com].
Definition n_ns_com := nm [l_ns; l_com].
Definition n_www_com := nm [l_www; l_com].
Definition n_alias_com := nm [l_alias; l_com].

Definition mk_rr (n : dname) (t ttl : N) (d : rdata) : rr :=
  {| rr_name := n; rr_type := t; rr_class := RC_IN; rr_ttl := ttl; rr_data := d |}.
Definition ip_root : N := 167772161.      (* 10.0.0.1 *)
Definition ip_com : N := 167772162.       (* 10.0.0.2 *)

Definition ex_universe : universe :=
  {| u_zones :=
       [ {| uz_apex := n_root;
            uz_soa := mk_rr n_root RT_SOA 300 (RD_SOA n_a n_a 1 7200 3600 86400 300);
            uz_rrs := [mk_rr n_root RT_NS 3600 (RD_Name n_a); mk_rr n_a RT_A 3600 (RD_A ip_root)];
            uz_cuts := [mk_rr n_com RT_NS 3600 (RD_Name n_ns_com)];
            uz_glue := [mk_rr n_ns_com RT_A 3600 (RD_A ip_com)] |};
         {| uz_apex := n_com;
            uz_soa := mk_rr n_com RT_SOA 300 (RD_SOA n_ns_com n_ns_com 1 7200 3600 86400 300);
            uz_rrs := [mk_rr n_com RT_NS 3600 (RD_Name n_ns_com); mk_rr n_ns_com RT_A 3600 (RD_A ip_com);
                       mk_rr n_www_com RT_A 300 (RD_A 3221225985);
                       mk_rr n_alias_com RT_CNAME 120 (RD_Name n_www_com)];
            uz_cuts := []; uz_glue := [] |} ];
     u_servers := [(inl ip_root, [n_root]); (inl ip_com, [n_com])] |}.

(* the configured root hints: a non-authoritative `.` zone *)
Definition ex_hints : zones :=
  match (let* z1 := zone_insert false (zone_new n_root None) n_root RT_NS (RD_Name n_a) 3600 in
         zone_insert false z1 n_a RT_A (RD_A ip_root) 3600) with
  | Ok z => zones_insert [] z
  | _ => []
  end.

Definition ex_q : question := {| q_name := n_alias_com; q_type := RT_A; q_class := RC_IN |}.
Definition ex_q_missing : question := {| q_name := nm [l_ns; l_ns; l_com]; q_type := RT_A; q_class := RC_IN |}.

Definition ex_run (q : question) :=
  resolve_simple (ModeRecursive PreferV4) 53 ex_hints (universe_oracle ex_universe []) 100%nat q
                 (sc_empty, tstate_init).

(* the universe is consistent; the model, talking to it through the wire codec, returns exactly
   the authoritative answer (alias + address; then nothing + the zone's SOA for a missing name),
   after one referral (two exchanges) *)
Example C07_example_two_level :
  consistentb ex_universe = true
  /\ fst (ex_run ex_q) = Ok (NonAuthoritative (aa_rrs (auth_answer ex_universe ex_q)) None)
  /\ aa_rrs (auth_answer ex_universe ex_q)
     = [mk_rr n_alias_com RT_CNAME 120 (RD_Name n_www_com); mk_rr n_www_com RT_A 300 (RD_A 3221225985)]
  /\ length (ts_rlog (snd (snd (ex_run ex_q)))) = 2%nat
  /\ fst (ex_run ex_q_missing)
     = Ok (NonAuthoritative (aa_rrs (auth_answer ex_universe ex_q_missing)) (aa_soa (auth_answer ex_universe ex_q_missing)))
  /\ aa_soa (auth_answer ex_universe ex_q_missing)
     = Some (mk_rr n_com RT_SOA 300 (RD_SOA n_ns_com n_ns_com 1 7200 3600 86400 300)).
Proof. vm_compute. repeat split. Qed.
Print Assumptions C07_example_two_level.

(* the hypothesis of C07_referral_strictly_deeper holds for the zones of the worked universe *)
Example C07_example_wf_cuts : Forall wf_cuts (u_zones ex_universe).
Proof.
  unfold ex_universe; cbn [u_zones].
  constructor; [|constructor; [|constructor]]; intros r H; cbn [uz_cuts] in H.
  - destruct H as [H|[]]. subst r. vm_compute. split; reflexivity.
  - destruct H.
Qed.

From RV Require Import Resolver.ValidateModel Resolver.RecursiveProofs.

(* referral_progress.  The only way the candidate loop of resolve_recursive_notimeout changes the
   delegation in use: a candidate's address was found, the server's reply passed the gate and the
   filter, and the filter made a Delegation of it.  Then the loop continues with exactly that
   delegation (its hosts in the order of [sort_names], fast pass first), and the delegation is
   strictly deeper than the one in use (match count strictly greater), encloses the question name --
   so its match count is at most the number of labels of the question name: at most that many
   referrals are followed per question -- and names at least one host.  Every oracle. *)
Theorem C07_referral_progress :
  forall (cache : Type) (cache_get : cache -> dname -> N -> list rr) (cache_insert_all : cache -> list rr -> cache)
         (sort_names : list dname -> list dname) (zs : zones) (o : oracle) (pmode : protocol_mode) (port : N)
         (rec : list question -> question -> RM cache rres) (loop : N -> list dname -> list dname -> bool -> RM cache rres)
         stack q combined mc cands next locally st candidate rest a st1 nr st2 d st3,
  pop_last cands = Some (candidate, rest) ->
  resolve_hostname_to_ip cache cache_get zs pmode rec stack locally candidate st = (Val (Some a), st1) ->
  query_and_validate cache o (a, port) q mc st1 = (Val (Some nr), st2) ->
  resolve_with_nameserver_response cache cache_insert_all zs rec stack combined nr q st2 = (Val (inr d), st3) ->
  candidate_step cache cache_get cache_insert_all sort_names zs o pmode port rec loop stack q combined mc cands next locally st
  = loop (ns_match_count d) (sort_names (ns_hostnames d)) [] true st3
  /\ mc < ns_match_count d
  /\ is_subdomain_of (q_name q) (ns_name d) = true
  /\ ns_match_count d <= llen (labels (q_name q))
  /\ ns_hostnames d <> [].
Proof. exact referral_progress. Qed.
Print Assumptions C07_referral_progress.

(* ... and when a candidate's address cannot be found the delegation in use stays the same *)
Theorem C07_no_referral_same_delegation :
  forall (cache : Type) (cache_get : cache -> dname -> N -> list rr) (cache_insert_all : cache -> list rr -> cache)
         (sort_names : list dname -> list dname) (zs : zones) (o : oracle) (pmode : protocol_mode) (port : N)
         (rec : list question -> question -> RM cache rres) (loop : N -> list dname -> list dname -> bool -> RM cache rres)
         stack q combined mc cands next locally st candidate rest st1,
  pop_last cands = Some (candidate, rest) ->
  resolve_hostname_to_ip cache cache_get zs pmode rec stack locally candidate st = (Val None, st1) ->
  exists cands' next' locally',
    candidate_step cache cache_get cache_insert_all sort_names zs o pmode port rec loop stack q combined mc cands next locally st
    = loop mc cands' next' locally' st1.
Proof. exact no_referral_same_delegation. Qed.
Print Assumptions C07_no_referral_same_delegation.

(* answer_provenance (shared with C08, where the statement is spelt out): every record the
   recursive resolver returns agrees in owner, type and data with local data, with what the cache
   held before, or with a record of a reply the oracle sent during the resolution that passed the
   gate and that the filter's specification allows *)
Theorem C07_answer_provenance :
  forall (cache : Type) (cache_get : cache -> dname -> N -> list rr) (cache_insert_all : cache -> list rr -> cache)
         (sort_names : list dname -> list dname) (zs : zones) (o : oracle) (pmode : protocol_mode) (port : N)
         (cache_content : cache -> rr -> Prop),
  (forall c n t r, In r (cache_get c n t) -> exists r', cache_content c r' /\ rr_sim r r') ->
  (forall c rrs r, cache_content (cache_insert_all c rrs) r -> cache_content c r \/ exists r', In r' rrs /\ rr_sim r r') ->
  forall fuel q st res st',
  resolve_recursive cache cache_get cache_insert_all sort_names zs o pmode port fuel q st = (Ok res, st') ->
  forall r, In r (resolved_rrs res ++ opt_list (resolved_soa_rr res)) ->
  exists r0, rr_sim r r0 /\
    (zone_src zs r0 \/ cache_content (fst st) r0 \/ upstream_src o (ts_rlog (snd st')) r0).
Proof. exact recursive_provenance. Qed.
Print Assumptions C07_answer_provenance.

(* The hops of a resolution against Universe.serve (lemmas: Resolver/RecursiveCorrect.v).
   [delivers o u port]: the transport hands the resolver the message [serve] prescribes (what the
   stream's table oracle, built from [serve], does when nothing is faulted and the reply fits the
   transport). *)
From RV Require Import Wire.WireModel Wire.WireGrammar Wire.WireEncodeProofs Resolver.RecursiveCorrect Resolver.UniverseCheck.

(* the reply filter is COMPLETE on the three shapes of reply an authoritative server gives (C06
   proves it sound): a plain answer is accepted whole, *)
Theorem C07_filter_accepts_plain_answer : forall q aa rcode ans au ad mc,
  Forall (fun r => rr_is_unknown r = false /\ rr_name r = q_name q /\ rtype_matches (rr_type r) (q_type q) = true
                   /\ rr_type r <> RT_CNAME) ans ->
  ans <> [] ->
  validate_nameserver_response q (reply_message q {| sr_answers := ans; sr_authority := au; sr_additional := ad;
                                                     sr_aa := aa; sr_rcode := rcode |}) mc
  = Ok (Some (NRAnswer ans None)).
Proof. exact validate_plain_answer. Qed.
Print Assumptions C07_filter_accepts_plain_answer.

(* a denial (no answers, the zone's SOA alone in the authority section) is an empty answer with that SOA, *)
Theorem C07_filter_accepts_denial : forall q aa rcode soa ad mc,
  (rcode = RCODE_NoError \/ rcode = RCODE_NameError) ->
  rr_type soa = RT_SOA -> is_subdomain_of (q_name q) (rr_name soa) = true -> mc <= llen (labels (rr_name soa)) ->
  validate_nameserver_response q (reply_message q {| sr_answers := []; sr_authority := [soa]; sr_additional := ad;
                                                     sr_aa := aa; sr_rcode := rcode |}) mc
  = Ok (Some (NRAnswer [] (Some soa))).
Proof. exact validate_denial. Qed.
Print Assumptions C07_filter_accepts_denial.

(* and a referral (the NS set of one delegation point enclosing the question name, deeper than the
   delegation in use) is a Delegation to that point whose hosts are exactly the NS targets *)
Theorem C07_filter_accepts_referral : forall q aa rcode c ns ad mc,
  ns <> [] -> Forall (fun r => rr_name r = c /\ exists h, is_ns_rr r = Some h) ns ->
  is_subdomain_of (q_name q) c = true -> mc < llen (labels c) ->
  exists rrs names,
    validate_nameserver_response q (reply_message q {| sr_answers := []; sr_authority := ns; sr_additional := ad;
                                                       sr_aa := aa; sr_rcode := rcode |}) mc
    = Ok (Some (NRDelegation rrs {| ns_hostnames := names; ns_name := c |}))
    /\ (forall h, In h names <-> exists r, In r ns /\ is_ns_rr r = Some h).
Proof. exact validate_referral. Qed.
Print Assumptions C07_filter_accepts_referral.

(* at the zone that owns the question name (longest apex, no delegation point on the way, no alias
   at the name) what a server of that zone says IS the authoritative answer *)
Theorem C07_serve_is_auth_answer : forall u a z q,
  owns_plainly u z q -> serves_owner u a z q ->
  aa_defined (auth_answer u q) = true /\
  aa_rrs (auth_answer u q) = filter (fun r => rtype_matches (rr_type r) (q_type q)) (rrs_at z (q_name q)) /\
  ((aa_rrs (auth_answer u q) <> [] /\ aa_soa (auth_answer u q) = None
    /\ serve u a q = Some (reply_message q {| sr_answers := aa_rrs (auth_answer u q); sr_authority := []; sr_additional := [];
                                              sr_aa := true; sr_rcode := RCODE_NoError |}))
   \/ (aa_rrs (auth_answer u q) = [] /\ aa_soa (auth_answer u q) = Some (uz_soa z)
       /\ exists rcode, (rcode = RCODE_NoError \/ rcode = RCODE_NameError)
            /\ serve u a q = Some (reply_message q {| sr_answers := []; sr_authority := [uz_soa z]; sr_additional := [];
                                                      sr_aa := true; sr_rcode := rcode |}))).
Proof. exact serve_is_auth_answer. Qed.
Print Assumptions C07_serve_is_auth_answer.

(* C07_last_hop_partial.  For EVERY universe: when the candidate loop is at a delegation no deeper
   than the zone [z] that owns the question name (no delegation point on the way, no alias at the
   name; question type other than CNAME / ANY), the candidate it picks has an address at which a
   server of [z] listens, and the transport delivers what [serve] prescribes, the loop returns
   EXACTLY the authoritative answer: the records of the asked type at the name, or no records and
   the zone's SOA. *)
Theorem C07_last_hop_partial :
  forall (cache : Type) (cache_get : cache -> dname -> N -> list rr) (cache_insert_all : cache -> list rr -> cache)
         (sort_names : list dname -> list dname) (zs : zones) (o : oracle) (pmode : protocol_mode) (port : N)
         u z q (rec : list question -> question -> RM cache rres) (loop : N -> list dname -> list dname -> bool -> RM cache rres)
         stack mc cands next locally st candidate rest a st1,
  delivers o u port q -> owns_plainly u z q -> serves_owner u a z q ->
  q_type q <> RT_CNAME -> q_type q <> QT_Wildcard ->
  Forall (fun r => rr_is_unknown r = false) (zone_data z) ->
  rr_type (uz_soa z) = RT_SOA -> rr_name (uz_soa z) = uz_apex z -> mc <= llen (labels (uz_apex z)) ->
  pop_last cands = Some (candidate, rest) ->
  resolve_hostname_to_ip cache cache_get zs pmode rec stack locally candidate st = (Val (Some a), st1) ->
  ts_elapsed (snd st1) <= BUDGET_MS ->
  exists st',
    candidate_step cache cache_get cache_insert_all sort_names zs o pmode port rec loop stack q [] mc cands next locally st
    = (Val (ROk (NonAuthoritative (aa_rrs (auth_answer u q)) (aa_soa (auth_answer u q)))), st').
Proof.
  intros cache cache_get cache_insert_all sort_names zs o pmode port u z q rec loop stack mc cands next locally st candidate rest a st1
         Hd Ho Hs Hq1 Hq2 Hknown Hsoat Hsoan Hmc Ep Eh Hbud.
  destruct (last_hop cache cache_get cache_insert_all sort_names zs o pmode port _ u z q rec loop stack mc cands next locally st
              candidate rest a st1 (delivers_any _ _ _ _ Hd) Ho Hs Hq1 Hq2 Hknown Hsoat Hsoan Hmc Ep Eh Hbud) as (ts' & E & _).
  eexists. exact E.
Qed.
Print Assumptions C07_last_hop_partial.

(* C07_referral_hop_partial.  For EVERY universe: when the candidate has an address at which a
   server listens whose best zone [z0] for the question name has a delegation point [c] on the way,
   deeper than the delegation in use, and the transport delivers [serve]'s referral, the loop caches
   the NS set of the cut and the glue for its hosts and continues with exactly the delegation [c]
   and the NS targets at [c] as hosts.  (Excluded: the question name owns glue in that referral --
   the glue shortcut, finding F11.) *)
Theorem C07_referral_hop_partial :
  forall (cache : Type) (cache_get : cache -> dname -> N -> list rr) (cache_insert_all : cache -> list rr -> cache)
         (sort_names : list dname -> list dname) (zs : zones) (o : oracle) (pmode : protocol_mode) (port : N)
         u a z0 c q (rec : list question -> question -> RM cache rres) (loop : N -> list dname -> list dname -> bool -> RM cache rres)
         stack mc cands next locally st candidate rest st1,
  delivers o u port q ->
  (exists zs', zones_of_server u a = Some zs' /\ best_zone zs' (q_name q) None = Some z0) ->
  cut_owner z0 (q_name q) = Some c ->
  Forall (fun r => exists h, is_ns_rr r = Some h) (uz_cuts z0) ->
  mc < llen (labels c) ->
  (forall r, In r (uz_glue z0 ++ uz_rrs z0) -> rr_name r <> q_name q) ->
  pop_last cands = Some (candidate, rest) ->
  resolve_hostname_to_ip cache cache_get zs pmode rec stack locally candidate st = (Val (Some a), st1) ->
  ts_elapsed (snd st1) <= BUDGET_MS ->
  exists names ts3,
    candidate_step cache cache_get cache_insert_all sort_names zs o pmode port rec loop stack q [] mc cands next locally st
    = loop (llen (labels c)) (sort_names names) [] true
           (cache_insert_all (fst st1)
              (filter (ns_glue_filter c names true false) (sr_authority (referral z0 c))
               ++ filter (ns_glue_filter c names false true) (sr_additional (referral z0 c))), ts3)
    /\ (forall h, In h names <-> exists r, In r (uz_cuts z0) /\ rr_name r = c /\ is_ns_rr r = Some h)
    /\ ts_elapsed ts3 <= BUDGET_MS.
Proof.
  intros cache cache_get cache_insert_all sort_names zs o pmode port u a z0 c q rec loop stack mc cands next locally st candidate rest st1
         Hd Hs Hcut Hnsty Hmc Hnoglue Ep Eh Hbud.
  destruct (referral_hop cache cache_get cache_insert_all sort_names zs o pmode port _ u a z0 c q mc st1
              (delivers_any _ _ _ _ Hd) Hs Hcut Hnsty Hmc Hnoglue Hbud) as (names & ts3 & Hnames & _ & Hbud3 & _ & Hstep).
  exists names, ts3. split; [exact (Hstep _ _ _ _ _ _ _ _ _ Ep Eh)|auto].
Qed.
Print Assumptions C07_referral_hop_partial.

(* the fault-free universe oracle DELIVERS: for a well-formed question whose request fits a
   datagram, in a universe whose servers' replies to it are well-formed messages of at most 512
   octets ([serve_fits]), query_nameserver returns exactly the message [serve] prescribes -- the
   request and the reply make the round trip through the wire codec (C04), the request's question
   is recovered by the oracle, the id is patched in, the datagram fits the receive buffer, the
   budget is not touched *)
Theorem C07_universe_oracle_delivers : forall u port q,
  wf_question q ->
  (forall req, encode (make_request q false) = Ok req -> llen req <= 512) ->
  (forall a m, serve u a q = Some m -> wf_message m /\ exists bs, encode m = Ok bs /\ llen bs <= 512) ->
  forall a m ts, ts_elapsed ts <= BUDGET_MS -> serve u a q = Some m ->
    response_matches_request (make_request q false) m = true ->
    exists ts', query_nameserver (universe_oracle u []) (a, port) q false ts = (Val (Some m), ts')
                /\ ts_elapsed ts' <= BUDGET_MS.
Proof.
  intros u port q Hq Hreq Hfits a m ts Hbud Hs Hm.
  destruct (universe_oracle_exchange u port q Hq Hreq Hfits a m ts Hbud Hs Hm) as (r & E). eexists. split; [exact E|exact Hbud].
Qed.
Print Assumptions C07_universe_oracle_delivers.

(* the hypotheses of the two hop theorems are met in the worked universe: com. owns www.com.
   plainly and 10.0.0.2 serves it; the root server has the cut com. on the way *)
Definition ex_dummy_zone : uzone :=
  {| uz_apex := n_root; uz_soa := mk_rr n_root RT_SOA 0 (RD_A 0); uz_rrs := []; uz_cuts := []; uz_glue := [] |}.
Definition ex_root_zone : uzone := nth 0 (u_zones ex_universe) ex_dummy_zone.
Definition ex_com_zone : uzone := nth 1 (u_zones ex_universe) ex_dummy_zone.
Definition ex_q_www : question := {| q_name := n_www_com; q_type := RT_A; q_class := RC_IN |}.
Example C07_example_hops :
  owns_plainly ex_universe ex_com_zone ex_q_www
  /\ serves_owner ex_universe (inl ip_com) ex_com_zone ex_q_www
  /\ cut_owner ex_root_zone n_www_com = Some n_com
  /\ Forall (fun r => rr_is_unknown r = false) (zone_data ex_com_zone)
  /\ Forall (fun r => exists h, is_ns_rr r = Some h) (uz_cuts ex_root_zone).
Proof.
  split; [|split; [|split; [|split]]].
  - repeat split; vm_compute; reflexivity.
  - eexists. split; vm_compute; reflexivity.
  - vm_compute. reflexivity.
  - vm_compute. repeat constructor.
  - repeat constructor. eexists. vm_compute. reflexivity.
Qed.

(* ... and the worked universe's replies to that question are well-formed messages that fit a
   datagram, so the universe oracle delivers them (the hypothesis [delivers] of the hop theorems holds) *)
Example C07_example_delivers : forall port, delivers (universe_oracle ex_universe []) ex_universe port ex_q_www.
Proof.
  intro port. refine (C07_universe_oracle_delivers _ _ _ _ _ _); [apply wf_question_b_sound; vm_compute; reflexivity| |].
  - intros req E. vm_compute in E. inversion E; subst. vm_compute. discriminate.
  - apply serve_fitsb_sound. vm_compute. reflexivity.
Qed.

From Coq Require Import Permutation.
From RV Require Import Name.NameSpec Zone.ZoneFlat Resolver.RecursiveDepth1 Resolver.RecursiveChain.

(* For EVERY universe [u] with a root zone [zroot], every list [hints] of root hints (NS records of
   the root, A records of the hosts they name) from which Zone::insert builds the resolver's only
   local zone, every order [sort_names] of the candidate list that is a permutation, every port and
   every fuel >= 3: started on an empty SimpleCache in protocol mode only-v4 against the fault-free
   universe oracle (through the wire codec), the recursive resolver returns EXACTLY the
   authoritative answer -- the records of the asked type at the name as the owning zone lists
   them, or no records and that zone's SOA (NODATA / NXDOMAIN) -- when the zone owning the question
   name is the root zone (one exchange, with a root server) ...

   Hypotheses (definitions in RecursiveDepth1.v, each with its reading):
     hints_for u zroot hints q     the hints are well formed, name a nameserver, hold an A record for
                                   each, lead to servers of the root zone, do not answer q themselves
     plain_question u q            q well formed, not for CNAME / ANY; request and the servers'
                                   replies fit a 512-octet datagram and are well-formed messages
     answering_zone u z q          z owns the name (longest apex, no cut on the way), no alias there;
                                   known record types; its SOA is an SOA at its apex *)
Theorem C07_correct_depth0 :
  forall (sort_names : list dname -> list dname) (port : N) (u : universe) (zroot : uzone)
         (hints : list rr) (hz : zone) (q : question) (fuel : nat),
  (forall l, Permutation (sort_names l) l) ->
  uz_apex zroot = root_domain ->
  zone_build root_domain None (hint_ops hints) = Ok hz ->
  hints_for u zroot hints q -> plain_question u q ->
  answering_zone u zroot q -> (3 <= fuel)%nat ->
  exists c' ts' a e,
    resolve scache sc_get sc_insert_all sort_names (ModeRecursive OnlyV4) port (zones_insert [] hz)
            (universe_oracle u []) fuel q (sc_empty, tstate_init)
    = (Ok (NonAuthoritative (aa_rrs (auth_answer u q)) (aa_soa (auth_answer u q))), (c', ts'))
    /\ ts_log ts' = [e] /\ query_to port q a e /\ serves_owner u (inl a) zroot q.
Proof.
  intros sort_names port u zroot hints hz q fuel Hs Ha Hb Hh Hq Hz Hf.
  exact (depth0_correct sort_names Hs port u zroot hints hz q Ha Hb Hh Hq fuel Hz Hf).
Qed.
Print Assumptions C07_correct_depth0.

(* ... and when it is a zone [zc] delegated from the root zone with glue (two exchanges: a root
   server's referral, then a server of [zc]).
     delegated_from_root u zroot zc hints q
        the root zone's delegation point on the way to the name is the apex of zc; its cut records
        are NS records; zc's apex is not the root; every nameserver of the delegation has an A record
        with positive TTL in the root zone's glue or data (glue-complete, wherever the host's name lies);
        all those addresses (and the hints' addresses for such a host, if any) are servers whose closest
        zone for the name is zc; the question name itself owns nothing in the root zone's glue or data
        (finding F11) *)
Theorem C07_correct_depth1 :
  forall (sort_names : list dname -> list dname) (port : N) (u : universe) (zroot zc : uzone)
         (hints : list rr) (hz : zone) (q : question) (fuel : nat),
  (forall l, Permutation (sort_names l) l) ->
  zone_build root_domain None (hint_ops hints) = Ok hz ->
  hints_for u zroot hints q -> plain_question u q ->
  answering_zone u zc q -> delegated_from_root u zroot zc hints q -> (3 <= fuel)%nat ->
  exists c' ts' a0 a1 e1 e2,
    resolve scache sc_get sc_insert_all sort_names (ModeRecursive OnlyV4) port (zones_insert [] hz)
            (universe_oracle u []) fuel q (sc_empty, tstate_init)
    = (Ok (NonAuthoritative (aa_rrs (auth_answer u q)) (aa_soa (auth_answer u q))), (c', ts'))
    /\ ts_log ts' = [e1; e2] /\ query_to port q a0 e1 /\ query_to port q a1 e2
    /\ serves_owner u (inl a0) zroot q /\ serves_owner u (inl a1) zc q.
Proof.
  intros sort_names port u zroot zc hints hz q fuel Hs Hb Hh Hq Hz Hd Hf.
  exact (depth1_correct sort_names Hs port u zroot hints hz q Hb Hh Hq zc fuel Hz Hd Hf).
Qed.
Print Assumptions C07_correct_depth1.

(* the order of hook H5 (what resolve_simple, the model the driver runs, uses) is a permutation *)
Theorem C07_sort_names_ord_permutation : forall l, Permutation (sort_names_ord l) l.
Proof. exact sort_names_ord_perm. Qed.
Print Assumptions C07_sort_names_ord_permutation.

(* the lookup fact behind the first step, for EVERY list of hints: the zone Zone::insert builds from
   them answers a lookup (any well-formed name, any type but ANY) with exactly the matching hints,
   owner = the query name, or finds nothing (C02's flat specification: resolve_refines_flat) *)
Theorem C07_hints_zone_lookup : forall hints hz name qt,
  Forall hint_ok hints -> zone_build root_domain None (hint_ops hints) = Ok hz ->
  wf_name name -> qt <> QT_Wildcard ->
  exists zr, zone_resolve hz name qt = Some (Ok zr) /\
    ((zr = ZNameError /\ forall x, ~ hint_match hints name qt x) \/
     (exists rrs, zr = ZAnswer rrs /\ forall x, In x rrs <-> hint_match hints name qt x)).
Proof. intros hints hz name qt Hh Hb. exact (shaped_hints_resolve hints (hint_oks_shape _ Hh) hz name qt Hb). Qed.
Print Assumptions C07_hints_zone_lookup.

(* "get after insert_all" for SimpleCache: an address record inserted with a positive TTL into the
   empty cache is read back, and what is read back was inserted *)
Theorem C07_simple_cache_get_after_insert_all :
  (forall n t, sc_get sc_empty n t = [])
  /\ (forall rrs r, In r rrs -> rr_type r = RT_A -> 0 < rr_ttl r ->
        sc_get (sc_insert_all sc_empty rrs) (rr_name r) RT_A <> [])
  /\ (forall rrs n x, In x (sc_get (sc_insert_all sc_empty rrs) n RT_A) ->
        rr_name x = n /\ rr_type x = RT_A /\ rr_class x = RC_IN /\
        exists r, In r rrs /\ rr_name r = n /\ rr_type r = RT_A /\ rr_data r = rr_data x).
Proof. split; [exact sc_empty_get|]. split; [exact sc_get_a_complete|exact sc_get_a_sound]. Qed.
Print Assumptions C07_simple_cache_get_after_insert_all.

(* the hypotheses are met by the worked universe of C07_example_two_level *)
Definition ex_hint_rrs : list rr := [mk_rr n_root RT_NS 3600 (RD_Name n_a); mk_rr n_a RT_A 3600 (RD_A ip_root)].
Definition ex_hz : zone :=
  match zone_build root_domain None (hint_ops ex_hint_rrs) with Ok z => z | _ => zone_new root_domain None end.
(* a name the root zone owns (and does not hold): www. *)
Definition ex_q_root : question := {| q_name := nm [l_www]; q_type := RT_A; q_class := RC_IN |}.

Lemma ex_hz_built : zone_build root_domain None (hint_ops ex_hint_rrs) = Ok ex_hz.
Proof. vm_compute. reflexivity. Qed.

(* the hints zone of C07_example_two_level is that zone *)
Example C07_example_hints_zone : zones_insert [] ex_hz = ex_hints.
Proof. vm_compute. reflexivity. Qed.

Lemma ex_hints_for q : (q = ex_q_www \/ q = ex_q_root) -> hints_for ex_universe ex_root_zone ex_hint_rrs q.
Proof. intros [-> | ->]; apply hints_forb_sound; vm_compute; reflexivity. Qed.

Lemma ex_plain_question q : (q = ex_q_www \/ q = ex_q_root) -> plain_question ex_universe q.
Proof. intros [-> | ->]; apply plain_questionb_sound; vm_compute; reflexivity. Qed.

Lemma ex_answering : answering_zone ex_universe ex_root_zone ex_q_root /\ answering_zone ex_universe ex_com_zone ex_q_www.
Proof. split; apply answering_zoneb_sound; vm_compute; reflexivity. Qed.

(* www. : the root zone owns it; one exchange, NXDOMAIN with the root's SOA *)
Example C07_example_depth0 : exists c' ts' a e,
  resolve scache sc_get sc_insert_all sort_names_ord (ModeRecursive OnlyV4) 53 (zones_insert [] ex_hz)
          (universe_oracle ex_universe []) 100%nat ex_q_root (sc_empty, tstate_init)
  = (Ok (NonAuthoritative [] (Some (uz_soa ex_root_zone))), (c', ts'))
  /\ ts_log ts' = [e] /\ query_to 53 ex_q_root a e /\ serves_owner ex_universe (inl a) ex_root_zone ex_q_root.
Proof.
  exact (C07_correct_depth0 sort_names_ord 53 ex_universe ex_root_zone ex_hint_rrs ex_hz ex_q_root 100%nat
           C07_sort_names_ord_permutation eq_refl ex_hz_built (ex_hints_for _ (or_intror eq_refl))
           (ex_plain_question _ (or_intror eq_refl)) (proj1 ex_answering) ltac:(lia)).
Qed.

(* www.com. : com. owns it, delegated from the root with glue for ns.com.; two exchanges *)
Example C07_example_depth1 : exists c' ts' a0 a1 e1 e2,
  resolve scache sc_get sc_insert_all sort_names_ord (ModeRecursive OnlyV4) 53 (zones_insert [] ex_hz)
          (universe_oracle ex_universe []) 100%nat ex_q_www (sc_empty, tstate_init)
  = (Ok (NonAuthoritative [mk_rr n_www_com RT_A 300 (RD_A 3221225985)] None), (c', ts'))
  /\ ts_log ts' = [e1; e2] /\ query_to 53 ex_q_www a0 e1 /\ query_to 53 ex_q_www a1 e2
  /\ serves_owner ex_universe (inl a0) ex_root_zone ex_q_www /\ serves_owner ex_universe (inl a1) ex_com_zone ex_q_www.
Proof.
  apply (C07_correct_depth1 sort_names_ord 53 ex_universe ex_root_zone ex_com_zone ex_hint_rrs ex_hz ex_q_www 100%nat
           C07_sort_names_ord_permutation ex_hz_built (ex_hints_for _ (or_introl eq_refl))
           (ex_plain_question _ (or_introl eq_refl)) (proj2 ex_answering)); [|lia].
  apply chain_link_delegated_from_root; [reflexivity|]. apply chain_linkb_sound. vm_compute. reflexivity.
Qed.

From RV Require Import Resolver.ResolverCacheInstance.
From RV Require Resolver.RecursiveWarm.   (* cache_laws_hist, rc_cache_laws: the real cache's history laws *)

(* For EVERY universe [u], every chain of its zones  zroot > z1 > ... > zk  ([rest] = z1..zk, k
   arbitrary) in which each zone is delegated from the one before on the way to the question name
   with A glue for each of its nameservers, and the last zone owns the question name plainly; every
   list of root hints from which Zone::insert builds the resolver's only local zone; every candidate
   order that is a permutation; every port; every fuel >= k + 2: started on an empty SimpleCache in
   protocol mode only-v4 against the fault-free universe oracle (through the wire codec), the
   recursive resolver returns EXACTLY the authoritative answer (the records of the asked type as the
   owning zone lists them, or no records and that zone's SOA), and its log is exactly one UDP
   exchange about the question per zone of the chain, in order, root server first: the i-th with a
   server whose closest zone for the question name is the i-th zone of the chain.  The depths of
   the apexes along the chain increase strictly (each referral followed is strictly deeper).

   Hypotheses (RecursiveDepth1.v, RecursiveChain.v), all but [serve_fits] inside [plain_question]
   decidable on the universe, the hints and the question:
     hints_for u zroot hints q, plain_question u q     as for C07_correct_depth0/1
     chain_from u hints q [] zroot [z1; ..; zk]        for each i:  chain_link [z(i-1); ..; zroot] zi z(i+1),
                                                       and  answering_zone u zk q
     chain_link prev zp zc
        the delegation point of zp on the way to the name is the apex of zc; zp's cut records are NS
        records; the apex of zc has strictly more labels than that of zp; the question name owns no
        glue or data in zp (finding F11); every nameserver host of the cut has a well-formed name and
        an A record with TTL > 0 in zp's glue or data; every A record for that host in the glue or
        data of zp or of a zone above it in the chain ([prev]: the cache may hold their glue by then),
        and every A record the hints hold for it, names a server whose closest zone for the question
        name is zc.
   C07_correct_depth0 / _depth1 are the cases k = 0 / k = 1 (RecursiveChain.delegated_from_root_link). *)
Theorem C07_correct_chain :
  forall (sort_names : list dname -> list dname) (port : N) (u : universe) (zroot : uzone) (rest : list uzone)
         (hints : list rr) (hz : zone) (q : question) (fuel : nat),
  (forall l, Permutation (sort_names l) l) ->
  uz_apex zroot = root_domain ->
  zone_build root_domain None (hint_ops hints) = Ok hz ->
  hints_for u zroot hints q -> plain_question u q ->
  chain_from u hints q [] zroot rest -> (length rest + 2 <= fuel)%nat ->
  exists c' ts',
    resolve scache sc_get sc_insert_all sort_names (ModeRecursive OnlyV4) port (zones_insert [] hz)
            (universe_oracle u []) fuel q (sc_empty, tstate_init)
    = (Ok (NonAuthoritative (aa_rrs (auth_answer u q)) (aa_soa (auth_answer u q))), (c', ts'))
    /\ Forall2 (fun z e => exists a, query_to port q a e /\ serves_owner u (inl a) z q) (zroot :: rest) (ts_log ts')
    /\ depths_increase zroot rest.
Proof.
  intros sort_names port u zroot rest hints hz q fuel Hs Ha Hb Hh Hq Hc Hf.
  exact (chain_correct scache sc_get sc_insert_all sc_empty sc_hist_laws sort_names Hs port u zroot hints hz q Ha Hb Hh Hq rest fuel Hc Hf).
Qed.
Print Assumptions C07_correct_chain.

(* the same for the real cache model (Cache/CacheModel.v under its invariant), started empty
   (Cache::new) at any fixed virtual instant [now] *)
Theorem C07_correct_chain_real_cache :
  forall (now : N) (sort_names : list dname -> list dname) (port : N) (u : universe) (zroot : uzone) (rest : list uzone)
         (hints : list rr) (hz : zone) (q : question) (fuel : nat),
  (forall l, Permutation (sort_names l) l) ->
  uz_apex zroot = root_domain ->
  zone_build root_domain None (hint_ops hints) = Ok hz ->
  hints_for u zroot hints q -> plain_question u q ->
  chain_from u hints q [] zroot rest -> (length rest + 2 <= fuel)%nat ->
  exists c' ts',
    resolve rcache (rc_get now) (rc_insert_all now) sort_names (ModeRecursive OnlyV4) port (zones_insert [] hz)
            (universe_oracle u []) fuel q (rc_new, tstate_init)
    = (Ok (NonAuthoritative (aa_rrs (auth_answer u q)) (aa_soa (auth_answer u q))), (c', ts'))
    /\ Forall2 (fun z e => exists a, query_to port q a e /\ serves_owner u (inl a) z q) (zroot :: rest) (ts_log ts')
    /\ depths_increase zroot rest.
Proof.
  intros now sort_names port u zroot rest hints hz q fuel Hs Ha Hb Hh Hq Hc Hf.
  exact (chain_correct rcache (rc_get now) (rc_insert_all now) rc_new (RecursiveWarm.cache_laws_hist _ _ _ _ (RecursiveWarm.rc_cache_laws now) (rc_empty_get now))
           sort_names Hs port u zroot hints hz q Ha Hb Hh Hq rest fuel Hc Hf).
Qed.
Print Assumptions C07_correct_chain_real_cache.

(* the three laws of the abstract cache the induction uses, stated over histories of insert_all
   from the empty cache (cache_after = fold_left insert_all): the empty cache answers nothing; an A
   record read at a name agrees in name, type and data with a record some insert_all was given; an
   A record with TTL > 0 given to the last insert_all makes the read at its name non-empty.
   SimpleCache meets them, and so does the real cache model at any fixed instant. *)
Theorem C07_chain_cache_laws :
  ((forall n t, sc_get sc_empty n t = [])
   /\ (forall ls n x, In x (sc_get (cache_after scache sc_insert_all sc_empty ls) n RT_A) ->
         rr_name x = n /\ rr_type x = RT_A /\ rr_class x = RC_IN /\
         exists r, In r (concat ls) /\ rr_name r = n /\ rr_type r = RT_A /\ rr_data r = rr_data x)
   /\ (forall ls rrs r, In r rrs -> rr_type r = RT_A -> 0 < rr_ttl r ->
         sc_get (cache_after scache sc_insert_all sc_empty (ls ++ [rrs])) (rr_name r) RT_A <> []))
  /\ forall now,
     ((forall n t, rc_get now rc_new n t = [])
      /\ (forall ls n x, In x (rc_get now (cache_after rcache (rc_insert_all now) rc_new ls) n RT_A) ->
            rr_name x = n /\ rr_type x = RT_A /\ rr_class x = RC_IN /\
            exists r, In r (concat ls) /\ rr_name r = n /\ rr_type r = RT_A /\ rr_data r = rr_data x)
      /\ (forall ls rrs r, In r rrs -> rr_type r = RT_A -> 0 < rr_ttl r ->
            rc_get now (cache_after rcache (rc_insert_all now) rc_new (ls ++ [rrs])) (rr_name r) RT_A <> [])).
Proof.
  split; [split; [exact sc_empty_get|split; [exact sc_hist_sound|exact sc_hist_complete]]|].
  intro now. exact (RecursiveWarm.cache_laws_hist _ _ _ _ (RecursiveWarm.rc_cache_laws now) (rc_empty_get now)).
Qed.
Print Assumptions C07_chain_cache_laws.

(* the hypotheses are met by a worked chain of depth 3 (RecursiveChain.v):
   . -> com. -> example.com. -> sub.example.com., one nameserver with glue per zone, a consistent
   universe; www.sub.example.com. A is answered after three referrals (four exchanges, fuel 5 =
   k + 2), and MX is denied with the SOA of sub.example.com. after the same four exchanges; the
   last conjuncts are the same run evaluated inside Coq (vm_compute): the addresses asked, in order *)
Example C07_example_depth3 :
  (exists c' ts',
     resolve scache sc_get sc_insert_all sort_names_ord (ModeRecursive OnlyV4) 53 (zones_insert [] c3_hz)
             (universe_oracle c3_universe []) 5%nat c3_q (sc_empty, tstate_init)
     = (Ok (NonAuthoritative [c3_rr c3_n_www RT_A 300 (RD_A 3221225985)] None), (c', ts'))
     /\ Forall2 (fun z e => exists a, query_to 53 c3_q a e /\ serves_owner c3_universe (inl a) z c3_q)
                [c3_root; c3_com; c3_ex; c3_sub] (ts_log ts')
     /\ depths_increase c3_root [c3_com; c3_ex; c3_sub])
  /\ (exists c' ts',
     resolve scache sc_get sc_insert_all sort_names_ord (ModeRecursive OnlyV4) 53 (zones_insert [] c3_hz)
             (universe_oracle c3_universe []) 5%nat c3_q_mx (sc_empty, tstate_init)
     = (Ok (NonAuthoritative [] (Some (uz_soa c3_sub))), (c', ts'))
     /\ Forall2 (fun z e => exists a, query_to 53 c3_q_mx a e /\ serves_owner c3_universe (inl a) z c3_q_mx)
                [c3_root; c3_com; c3_ex; c3_sub] (ts_log ts')
     /\ depths_increase c3_root [c3_com; c3_ex; c3_sub])
  /\ (let r := resolve scache sc_get sc_insert_all sort_names_ord (ModeRecursive OnlyV4) 53 (zones_insert [] c3_hz)
                       (universe_oracle c3_universe []) 5%nat c3_q (sc_empty, tstate_init) in
      fst r = Ok (NonAuthoritative [c3_rr c3_n_www RT_A 300 (RD_A 3221225985)] None)
      /\ map x_addr (ts_log (snd (snd r))) = [(inl c3_ip0, 53); (inl c3_ip1, 53); (inl c3_ip2, 53); (inl c3_ip3, 53)]
      /\ consistentb c3_universe = true).
Proof. exact (conj chain_example_depth3 (conj chain_example_depth3_nodata chain_example_depth3_eval)). Qed.
Print Assumptions C07_example_depth3.

From RV Require Import Resolver.RecursiveWarm Resolver.RecursiveSequence.

(* [cache_consistent u hints cache cache_get c] (Resolver/RecursiveWarm.v), for every record type t
   proper (not ANY / AXFR / MAILB / MAILA):
     sound     every record read from c at (n, t) has the owner, type and data of a record in the
               cuts, the glue or the data (SOA included) of a zone of u;
     closed    every host named by an NS record read from c has a well-formed name and an A record
               in the hints or a non-empty A RRset in c (the fast candidate pass resolves it);
     complete  a non-empty RRset read from c at (n, t), t <> NS, n not a nameserver host of u, holds
               the data of EVERY record of (n, t) in the data of u's zones.
   (a) A cache that answers nothing is consistent: the empty SimpleCache and the real cache model's
   Cache::new at any instant. *)
Theorem C07_empty_cache_consistent : forall u hints,
  cache_consistent u hints scache sc_get sc_empty
  /\ forall now, cache_consistent u hints rcache (rc_get now) rc_new.
Proof. intros u hints. split; [exact (sc_empty_consistent u hints)|intro now; exact (rc_new_consistent now u hints)]. Qed.
Print Assumptions C07_empty_cache_consistent.

(* (b) + (c).  For EVERY universe [u] whose delegation points hold only NS records and whose NS
   records name hosts ([universe_ns_ok]), every plain question [q] of it with its delegation chain
   zroot > z1 > ... > zk = zk ([warm_question]: below), every SimpleCache [c] CONSISTENT with u -- in
   particular one left by earlier resolutions -- root hints, candidate order, port as for
   C07_correct_chain, fuel >= k + 2:  the recursive resolver (only-v4, fault-free universe oracle
   through the wire codec, a fresh transport state) returns the authoritative answer and leaves a
   consistent cache:
     - either straight from the cache, without any exchange, cache unchanged: the RRset cached for
       (name, type), non-empty, with EXACTLY the data of the authoritative RRset -- each record of
       one has a record of the other with the same owner, type and data; the TTLs are the cache's (the
       server's, at the fixed virtual instant) and so is the order; no SOA;
     - or over the network: EXACTLY auth_answer (records as the owning zone lists them, or no records
       and that zone's SOA), nothing having been cached for (name, type); the log is one UDP exchange
       about q per zone of a non-empty SUFFIX [used] of the chain, in order, each with a server whose
       closest zone for the name is that zone: candidate_nameservers started at the deepest zone of
       the chain whose NS set is cached (at the root hints if none).

   warm_question u hints q zroot [z1..zk] zk  (all decidable on the universe, the hints, the question):
     the name is well formed; the type is a record type proper other than NS and CNAME;
     zroot's apex is the root; hints_for (as for C07_correct_chain);
     wchain: for each i, [wlink z(i-1) zi]: z(i-1) is a zone of u whose delegation point on the way to
       the name is zi's apex, strictly deeper; the name owns nothing in z(i-1)'s glue or data (F11);
       every nameserver host of the cut has an A record with TTL > 0 in z(i-1)'s glue or data; and
       [ns_hosts_ok zi]: every host that ANY NS record of the universe owned by zi's apex names has a
       well-formed name, and every A record the universe (any zone's cuts, glue or data) or the
       hints hold for it is the address of a server whose closest zone for the name is zi;
     answering_zone u zk q (as for C07_correct_chain);
     the name owns no glue in any zone, its records in any zone's data are records of zk, and zk's
       records of the asked name and type have TTL > 0;
     the name is not a nameserver host (no NS record of the universe names it);
     no CNAME record of the universe is owned by the name or a name above it;
     every NS record of the universe owned by the name or a name above it is owned by the root or by
       the apex of one of z1..zk. *)
Theorem C07_correct_warm :
  forall (sort_names : list dname -> list dname) (port : N) (u : universe) (hints : list rr) (hz : zone)
         (q : question) (zroot : uzone) (rest : list uzone) (zk : uzone) (c : scache) (fuel : nat),
  (forall l, Permutation (sort_names l) l) ->
  universe_ns_ok u ->
  zone_build root_domain None (hint_ops hints) = Ok hz ->
  warm_question u hints q zroot rest zk -> plain_question u q ->
  cache_consistent u hints scache sc_get c -> (length rest + 2 <= fuel)%nat ->
  exists rrs c' ts',
    resolve scache sc_get sc_insert_all sort_names (ModeRecursive OnlyV4) port (zones_insert [] hz)
            (universe_oracle u []) fuel q (c, tstate_init)
    = (Ok (NonAuthoritative rrs (aa_soa (auth_answer u q))), (c', ts'))
    /\ cache_consistent u hints scache sc_get c'
    /\ ((ts_log ts' = [] /\ c' = c /\ rrs = sc_get c (q_name q) (q_type q) /\ rrs <> []
         /\ same_data rrs (aa_rrs (auth_answer u q)))
        \/ (rrs = aa_rrs (auth_answer u q) /\ sc_get c (q_name q) (q_type q) = []
            /\ exists pre used, zroot :: rest = pre ++ used /\ used <> []
               /\ Forall2 (fun z e => exists a, query_to port q a e /\ serves_owner u (inl a) z q) used (ts_log ts'))).
Proof.
  intros sort_names port u hints hz q zroot rest zk c fuel Hs Hu Hb Hw Hq Hc Hf.
  exact (warm_correct scache sc_get sc_insert_all sc_cache_laws sort_names Hs port u Hu hints hz Hb q zroot rest zk c fuel Hw Hq Hc Hf).
Qed.
Print Assumptions C07_correct_warm.

(* the same for the real cache model (Cache/CacheModel.v under its invariant) at any fixed instant *)
Theorem C07_correct_warm_real_cache :
  forall (now : N) (sort_names : list dname -> list dname) (port : N) (u : universe) (hints : list rr) (hz : zone)
         (q : question) (zroot : uzone) (rest : list uzone) (zk : uzone) (c : rcache) (fuel : nat),
  (forall l, Permutation (sort_names l) l) ->
  universe_ns_ok u ->
  zone_build root_domain None (hint_ops hints) = Ok hz ->
  warm_question u hints q zroot rest zk -> plain_question u q ->
  cache_consistent u hints rcache (rc_get now) c -> (length rest + 2 <= fuel)%nat ->
  exists rrs c' ts',
    resolve rcache (rc_get now) (rc_insert_all now) sort_names (ModeRecursive OnlyV4) port (zones_insert [] hz)
            (universe_oracle u []) fuel q (c, tstate_init)
    = (Ok (NonAuthoritative rrs (aa_soa (auth_answer u q))), (c', ts'))
    /\ cache_consistent u hints rcache (rc_get now) c'
    /\ ((ts_log ts' = [] /\ c' = c /\ rrs = rc_get now c (q_name q) (q_type q) /\ rrs <> []
         /\ same_data rrs (aa_rrs (auth_answer u q)))
        \/ (rrs = aa_rrs (auth_answer u q) /\ rc_get now c (q_name q) (q_type q) = []
            /\ exists pre used, zroot :: rest = pre ++ used /\ used <> []
               /\ Forall2 (fun z e => exists a, query_to port q a e /\ serves_owner u (inl a) z q) used (ts_log ts'))).
Proof.
  intros now sort_names port u hints hz q zroot rest zk c fuel Hs Hu Hb Hw Hq Hc Hf.
  exact (warm_correct rcache (rc_get now) (rc_insert_all now) (rc_cache_laws now) sort_names Hs port u Hu hints hz Hb q zroot rest zk c fuel Hw Hq Hc Hf).
Qed.
Print Assumptions C07_correct_warm_real_cache.

(* the four laws of the abstract cache the warm induction uses, about ONE insert_all into ANY cache,
   at record types proper: what is read at (n, t) is owned by n, of type t, class IN; what is read
   after an insert_all was read before or was given to it with a positive TTL (same owner, type,
   data); what was read before can be read after (same data); what is given with a positive TTL can
   be read.  SimpleCache meets them, and so does the real cache model at any fixed instant. *)
Theorem C07_warm_cache_laws :
  cache_laws scache sc_get sc_insert_all /\ forall now, cache_laws rcache (rc_get now) (rc_insert_all now).
Proof. split; [exact sc_cache_laws|exact rc_cache_laws]. Qed.
Print Assumptions C07_warm_cache_laws.

(* the hypotheses are met by a worked universe (RecursiveWarm.v): the depth-3 chain
   . -> com. -> example.com. -> sub.example.com. of C07_example_depth3 with two cross-zone aliases
   added (alias.example.com. CNAME www.sub.example.com.; ext.com. CNAME alias.example.com.), a
   consistent universe.  [c4_cache1] is the SimpleCache left by resolving www.sub.example.com. A from
   the empty cache: it is consistent; from it MX is denied after ONE exchange (with 10.0.0.4, the
   server of sub.example.com., whose NS set and glue are cached) and A is answered from the cache
   with no exchange (last conjunct: the same runs evaluated by vm_compute) *)
Example C07_example_warm :
  (cache_consistent c4_universe c3_hints scache sc_get c4_cache1
   /\ warm_outcome scache sc_get 53 c4_universe c3_hints c3_q_mx c4_root [c4_com; c4_ex; c4_sub] c4_cache1
        (resolve scache sc_get sc_insert_all sort_names_ord (ModeRecursive OnlyV4) 53 (zones_insert [] c3_hz)
                 (universe_oracle c4_universe []) 5%nat c3_q_mx (c4_cache1, tstate_init))
   /\ warm_outcome scache sc_get 53 c4_universe c3_hints c3_q c4_root [c4_com; c4_ex; c4_sub] c4_cache1
        (resolve scache sc_get sc_insert_all sort_names_ord (ModeRecursive OnlyV4) 53 (zones_insert [] c3_hz)
                 (universe_oracle c4_universe []) 5%nat c3_q (c4_cache1, tstate_init)))
  /\ (let r2 := resolve scache sc_get sc_insert_all sort_names_ord (ModeRecursive OnlyV4) 53 (zones_insert [] c3_hz)
                        (universe_oracle c4_universe []) 5%nat c3_q_mx (c4_cache1, tstate_init) in
      let r3 := resolve scache sc_get sc_insert_all sort_names_ord (ModeRecursive OnlyV4) 53 (zones_insert [] c3_hz)
                        (universe_oracle c4_universe []) 5%nat c3_q (c4_cache1, tstate_init) in
      fst r2 = Ok (NonAuthoritative [] (Some (uz_soa c4_sub)))
      /\ map x_addr (ts_log (snd (snd r2))) = [(inl c3_ip3, 53)]
      /\ fst r3 = Ok (NonAuthoritative [c3_rr c3_n_www RT_A 300 (RD_A 3221225985)] None)
      /\ ts_log (snd (snd r3)) = []
      /\ consistentb c4_universe = true).
Proof. exact (conj warm_example_depth3 warm_example_depth3_eval). Qed.
Print Assumptions C07_example_warm.


(* [resolve_seq] (Resolver/RecursiveSequence.v): the questions of a list resolved one after the other,
   each with a fresh transport state, the cache handed on.  For EVERY universe as above, every list
   [qs] of plain questions of it (each with its own chain, of length + 2 <= fuel: [seq_question] =
   warm_question + plain_question), every cache consistent with the universe at the start -- the
   empty cache is -- EVERY question of the sequence returns its authoritative answer
   ([answer_is_auth]: Ok (NonAuthoritative rrs soa) with soa = auth_answer's SOA exactly and rrs
   holding exactly the data of auth_answer's records -- identical to them when resolved over the
   network, the cached RRset when an earlier question has cached it), and the cache at the end is
   consistent.  Stated for SimpleCache started empty and for the real cache model started from
   Cache::new at any fixed instant. *)
Theorem C07_sequence :
  forall (sort_names : list dname -> list dname) (port : N) (u : universe) (hints : list rr) (hz : zone)
         (fuel : nat) (qs : list question),
  (forall l, Permutation (sort_names l) l) ->
  universe_ns_ok u ->
  zone_build root_domain None (hint_ops hints) = Ok hz ->
  Forall (fun q => exists zroot rest zk,
            warm_question u hints q zroot rest zk /\ plain_question u q /\ (length rest + 2 <= fuel)%nat) qs ->
  (Forall2 (fun q out => exists rrs, fst out = Ok (NonAuthoritative rrs (aa_soa (auth_answer u q)))
                                     /\ same_data rrs (aa_rrs (auth_answer u q)))
           qs (fst (resolve_seq scache sc_get sc_insert_all sort_names port (zones_insert [] hz) (universe_oracle u []) fuel qs sc_empty))
   /\ cache_consistent u hints scache sc_get
        (snd (resolve_seq scache sc_get sc_insert_all sort_names port (zones_insert [] hz) (universe_oracle u []) fuel qs sc_empty)))
  /\ forall now,
     (Forall2 (fun q out => exists rrs, fst out = Ok (NonAuthoritative rrs (aa_soa (auth_answer u q)))
                                        /\ same_data rrs (aa_rrs (auth_answer u q)))
              qs (fst (resolve_seq rcache (rc_get now) (rc_insert_all now) sort_names port (zones_insert [] hz) (universe_oracle u []) fuel qs rc_new))
      /\ cache_consistent u hints rcache (rc_get now)
           (snd (resolve_seq rcache (rc_get now) (rc_insert_all now) sort_names port (zones_insert [] hz) (universe_oracle u []) fuel qs rc_new))).
Proof.
  intros sort_names port u hints hz fuel qs Hs Hu Hb Hqs. split.
  - exact (sequence_correct scache sc_get sc_insert_all sc_cache_laws sort_names Hs port u Hu hints hz Hb fuel qs sc_empty
             Hqs (sc_empty_consistent u hints)).
  - intro now.
    exact (sequence_correct rcache (rc_get now) (rc_insert_all now) (rc_cache_laws now) sort_names Hs port u Hu hints hz Hb fuel qs rc_new
             Hqs (rc_new_consistent now u hints)).
Qed.
Print Assumptions C07_sequence.

(* the same from ANY consistent cache, with each question's outcome relative to the cache it starts
   in (warm_outcome: from the cache, or over the network from the deepest cached zone of its chain) *)
Theorem C07_sequence_outcomes :
  forall (sort_names : list dname -> list dname) (port : N) (u : universe) (hints : list rr) (hz : zone)
         (fuel : nat) (qs : list question) (c : scache),
  (forall l, Permutation (sort_names l) l) ->
  universe_ns_ok u ->
  zone_build root_domain None (hint_ops hints) = Ok hz ->
  Forall (seq_question u hints fuel) qs -> cache_consistent u hints scache sc_get c ->
  seq_outcomes scache sc_get sc_insert_all sort_names port u hints hz fuel qs c
  /\ cache_consistent u hints scache sc_get
       (snd (resolve_seq scache sc_get sc_insert_all sort_names port (zones_insert [] hz) (universe_oracle u []) fuel qs c)).
Proof.
  intros sort_names port u hints hz fuel qs c Hs Hu Hb Hqs Hc.
  exact (sequence_outcomes scache sc_get sc_insert_all sc_cache_laws sort_names Hs port u Hu hints hz Hb fuel qs c Hqs Hc).
Qed.
Print Assumptions C07_sequence_outcomes.

(* satisfiable: on the worked universe the sequence www.sub.example.com. A, MX, A from the empty
   SimpleCache; evaluated by vm_compute the three logs are 10.0.0.1..4, then 10.0.0.4 alone, then
   nothing *)
Example C07_example_sequence :
  (Forall2 (fun q out => answer_is_auth c4_universe q (fst out)) c4_seq
           (fst (resolve_seq scache sc_get sc_insert_all sort_names_ord 53 (zones_insert [] c3_hz)
                             (universe_oracle c4_universe []) 5%nat c4_seq sc_empty))
   /\ cache_consistent c4_universe c3_hints scache sc_get
        (snd (resolve_seq scache sc_get sc_insert_all sort_names_ord 53 (zones_insert [] c3_hz)
                          (universe_oracle c4_universe []) 5%nat c4_seq sc_empty)))
  /\ (map fst (fst (resolve_seq scache sc_get sc_insert_all sort_names_ord 53 (zones_insert [] c3_hz)
                                (universe_oracle c4_universe []) 5%nat c4_seq sc_empty))
      = [Ok (NonAuthoritative [c3_rr c3_n_www RT_A 300 (RD_A 3221225985)] None);
         Ok (NonAuthoritative [] (Some (uz_soa c4_sub)));
         Ok (NonAuthoritative [c3_rr c3_n_www RT_A 300 (RD_A 3221225985)] None)]
      /\ map (fun out => map x_addr (snd out))
             (fst (resolve_seq scache sc_get sc_insert_all sort_names_ord 53 (zones_insert [] c3_hz)
                               (universe_oracle c4_universe []) 5%nat c4_seq sc_empty))
         = [[(inl c3_ip0, 53); (inl c3_ip1, 53); (inl c3_ip2, 53); (inl c3_ip3, 53)]; [(inl c3_ip3, 53)]; []]).
Proof. exact (conj sequence_example sequence_example_eval). Qed.
Print Assumptions C07_example_sequence.

From RV Require Import Resolver.RecursiveAlias.

(* For EVERY universe [u] as above, every question (n, t, cl) -- t a record type proper other than
   NS and CNAME -- whose authoritative answer is a chain of k >= 0 aliases
       n = n0 -CNAME-> n1 -CNAME-> ... -CNAME-> nk = f
   followed by the final RRset at f or NODATA / NXDOMAIN there ([alias_path u hints t cl fuel0 n cs f],
   cs = the k CNAME records in order; k = 0 is the plain question of C07_correct_warm), every cache
   consistent with u (the empty one, or one left by earlier questions), fuel >= fuel0:

     auth_answer u (n, t)  =  cs ++ (records of auth_answer u (f, t)),  with the SOA of auth_answer u (f, t);
     resolve returns  Ok (NonAuthoritative (xs ++ fr) that SOA)  where xs are the chain's records IN
     ORDER -- each with the owner, type and data of the corresponding record of cs (its TTL is the
     server's, or the cache's when the link was cached) -- and fr has exactly the data of the final
     RRset (identical to it when it came over the network; none for NODATA / NXDOMAIN);
     the cache at the end is consistent again.

   The resolver gets there by: the alias followed inside resolve_local as far as the cache holds the
   chain; otherwise the walk down the delegation chain of the name to a server of the zone owning it,
   whose reply holds the chain as far as that server's zones go (Universe.serve; several links when
   consecutive names lie in its zones) and the final RRset if it has it -- the reply filter keeps
   exactly those (RecursiveAlias.validate_alias) -- then, when the reply ended inside the chain
   (NRCname), resolve_combined_recursive: the nested resolve_recursive_notimeout on the next name
   with the alias question on the stack, on the cache warmed so far (induction on the chain with the
   warm-cache theorem generalised to a non-empty question stack).

   alias_path u hints t cl fuel0 n cs f  (decidable on the universe, the hints and the question):
     for the final name f:  warm_question and plain_question of (f, t, cl)  (as for C07_correct_warm);
     for each alias name ni with its record ci -> n(i+1):
       walk_question (ni, t, cl) zroot rest zk: the name's own delegation chain zroot > .. > zk with
         the hypotheses of C07_correct_warm that concern the walk (glue-complete links, nameserver
         hosts leading to the right servers, no alias strictly above the name, NS owners on the way
         are the chain's apexes, the name is not a nameserver host);
       alias_at ni zk ci n(i+1): zk owns ni (longest apex, no cut on the way) and holds ci there; ci is
         the ONLY record of the universe (cuts, glue, data of any zone) owned by ni; TTL > 0; known class;
       plain_question (ni, t, cl): well formed; request and the servers' replies fit 512 octets;
     fuel0 = the sum over the names of (length of its delegation chain + 2).
   Further hypotheses: the names n0..nk are pairwise distinct (no cycle); k + 1 < 32 (RECURSION_LIMIT);
   [servers_ok]: every server of the universe that has a zone enclosing a name of the chain with no
   delegation point of that zone on the way has, as that zone, the zone of the universe that owns the
   name (true of every tree of zones whose servers hold whole zones). *)
Theorem C07_correct_alias :
  forall (sort_names : list dname -> list dname) (port : N) (u : universe) (hints : list rr) (hz : zone)
         (t cl : N) (fuel0 : nat) (n : dname) (cs : list rr) (f : dname) (c : scache) (fuel : nat),
  (forall l, Permutation (sort_names l) l) ->
  universe_ns_ok u ->
  zone_build root_domain None (hint_ops hints) = Ok hz ->
  concrete t -> t <> RT_CNAME -> t <> RT_NS ->
  alias_path u hints t cl fuel0 n cs f -> NoDup (n :: ctargets cs) -> servers_ok u (n :: ctargets cs) ->
  (length cs + 1 < 32)%nat ->
  cache_consistent u hints scache sc_get c -> (fuel0 <= fuel)%nat ->
  aa_rrs (auth_answer u (mkq n t cl)) = cs ++ aa_rrs (auth_answer u (mkq f t cl))
  /\ aa_soa (auth_answer u (mkq n t cl)) = aa_soa (auth_answer u (mkq f t cl))
  /\ exists xs fr c' ts',
       resolve scache sc_get sc_insert_all sort_names (ModeRecursive OnlyV4) port (zones_insert [] hz)
               (universe_oracle u []) fuel (mkq n t cl) (c, tstate_init)
       = (Ok (NonAuthoritative (xs ++ fr) (aa_soa (auth_answer u (mkq n t cl)))), (c', ts'))
       /\ Forall2 (fun x r => rr_name x = rr_name r /\ rr_type x = rr_type r /\ rr_data x = rr_data r) xs cs
       /\ same_data fr (aa_rrs (auth_answer u (mkq f t cl)))
       /\ cache_consistent u hints scache sc_get c'.
Proof.
  intros sort_names port u hints hz t cl fuel0 n cs f c fuel Hs Hu Hb Hc Hcn Hns Hp Hnd Hsrv Hlen HC Hf.
  exact (alias_correct scache sc_get sc_insert_all sc_cache_laws sort_names Hs port u Hu hints hz Hb
           t cl fuel0 n cs f c fuel Hc Hcn Hns Hp Hnd Hsrv Hlen HC Hf).
Qed.
Print Assumptions C07_correct_alias.

(* the same for the real cache model at any fixed instant *)
Theorem C07_correct_alias_real_cache :
  forall (now : N) (sort_names : list dname -> list dname) (port : N) (u : universe) (hints : list rr) (hz : zone)
         (t cl : N) (fuel0 : nat) (n : dname) (cs : list rr) (f : dname) (c : rcache) (fuel : nat),
  (forall l, Permutation (sort_names l) l) ->
  universe_ns_ok u ->
  zone_build root_domain None (hint_ops hints) = Ok hz ->
  concrete t -> t <> RT_CNAME -> t <> RT_NS ->
  alias_path u hints t cl fuel0 n cs f -> NoDup (n :: ctargets cs) -> servers_ok u (n :: ctargets cs) ->
  (length cs + 1 < 32)%nat ->
  cache_consistent u hints rcache (rc_get now) c -> (fuel0 <= fuel)%nat ->
  alias_outcome rcache (rc_get now) u hints t cl n cs f c
    (resolve rcache (rc_get now) (rc_insert_all now) sort_names (ModeRecursive OnlyV4) port (zones_insert [] hz)
             (universe_oracle u []) fuel (mkq n t cl) (c, tstate_init)).
Proof.
  intros now sort_names port u hints hz t cl fuel0 n cs f c fuel Hs Hu Hb.
  exact (alias_correct rcache (rc_get now) (rc_insert_all now) (rc_cache_laws now) sort_names Hs port u Hu hints hz Hb
           t cl fuel0 n cs f c fuel).
Qed.
Print Assumptions C07_correct_alias_real_cache.

(* the reply filter on an alias answer, for EVERY question and reply: a non-empty run of CNAME records
   from the question name (known classes, pairwise distinct names) followed by records of the asked
   type owned by the chain's end (or by nothing) is kept exactly, in order: NRAnswer (chain ++ finals)
   when there are final records, NRCname chain end otherwise *)
Theorem C07_filter_accepts_alias_answer :
  forall q cs fin f aa rcode au ad mc,
  concrete (q_type q) -> q_type q <> RT_CNAME -> cs <> [] ->
  cchain (q_name q) cs f -> NoDup (q_name q :: ctargets cs) ->
  Forall (fun r => rr_is_unknown r = false) (cs ++ fin) ->
  Forall (fun r => rr_name r = f /\ rr_type r = q_type q) fin ->
  validate_nameserver_response q (msg q aa rcode (cs ++ fin) au ad) mc
  = Ok (Some (if is_nil fin then NRCname cs f else NRAnswer (cs ++ fin) None)).
Proof.
  intros q cs fin f aa rcode au ad mc H1 H2 H3 H4 H5 H6 H7.
  exact (validate_alias q H1 H2 cs fin f H3 H4 H5 H6 H7 aa rcode au ad mc).
Qed.
Print Assumptions C07_filter_accepts_alias_answer.

(* sequences mixing alias and plain questions on one cache started empty: every question returns
   its authoritative answer (chain part in order, then exactly the data of the final RRset; the SOA
   exactly), and the cache at the end is consistent *)
Theorem C07_alias_sequence :
  forall (sort_names : list dname -> list dname) (port : N) (u : universe) (hints : list rr) (hz : zone)
         (fuel : nat) (qs : list question),
  (forall l, Permutation (sort_names l) l) ->
  universe_ns_ok u ->
  zone_build root_domain None (hint_ops hints) = Ok hz ->
  Forall (alias_question u hints fuel) qs ->
  Forall2 (fun q out => answer_is_auth_chain u q (fst out)) qs
          (fst (resolve_seq scache sc_get sc_insert_all sort_names port (zones_insert [] hz) (universe_oracle u []) fuel qs sc_empty))
  /\ cache_consistent u hints scache sc_get
       (snd (resolve_seq scache sc_get sc_insert_all sort_names port (zones_insert [] hz) (universe_oracle u []) fuel qs sc_empty)).
Proof.
  intros sort_names port u hints hz fuel qs Hs Hu Hb Hqs.
  exact (alias_sequence_correct scache sc_get sc_insert_all sc_cache_laws sort_names Hs port u Hu hints hz Hb fuel qs sc_empty
           Hqs (sc_empty_consistent u hints)).
Qed.
Print Assumptions C07_alias_sequence.

(* the hypotheses are met by the worked universe: ext.com. A, whose answer is
   ext.com. CNAME alias.example.com. (held by com.), alias.example.com. CNAME www.sub.example.com. (held
   by example.com.), www.sub.example.com. A (held by sub.example.com.): from the empty cache and from
   the cache left by www.sub.example.com. A; evaluated by vm_compute from the empty cache: the three
   records in that order after six exchanges (10.0.0.1, .2 for ext.com.; .2, .3 for
   alias.example.com.; .3, .4 for www.sub.example.com.), equal to auth_answer; asked again, the same
   answer from the cache with no exchange *)
Example C07_example_alias :
  (alias_outcome scache sc_get c4_universe c3_hints RT_A RC_IN c4_n_ext [c4_cn_ext; c4_cn_alias] c3_n_www sc_empty
     (resolve scache sc_get sc_insert_all sort_names_ord (ModeRecursive OnlyV4) 53 (zones_insert [] c3_hz)
              (universe_oracle c4_universe []) 12%nat c4_q_ext (sc_empty, tstate_init))
   /\ alias_outcome scache sc_get c4_universe c3_hints RT_A RC_IN c4_n_ext [c4_cn_ext; c4_cn_alias] c3_n_www c4_cache1
        (resolve scache sc_get sc_insert_all sort_names_ord (ModeRecursive OnlyV4) 53 (zones_insert [] c3_hz)
                 (universe_oracle c4_universe []) 12%nat c4_q_ext (c4_cache1, tstate_init)))
  /\ (let r := resolve scache sc_get sc_insert_all sort_names_ord (ModeRecursive OnlyV4) 53 (zones_insert [] c3_hz)
                       (universe_oracle c4_universe []) 12%nat c4_q_ext (sc_empty, tstate_init) in
      let r' := resolve scache sc_get sc_insert_all sort_names_ord (ModeRecursive OnlyV4) 53 (zones_insert [] c3_hz)
                        (universe_oracle c4_universe []) 12%nat c4_q_ext (fst (snd r), tstate_init) in
      fst r = Ok (NonAuthoritative [c4_cn_ext; c4_cn_alias; c3_rr c3_n_www RT_A 300 (RD_A 3221225985)] None)
      /\ map x_addr (ts_log (snd (snd r)))
         = [(inl c3_ip0, 53); (inl c3_ip1, 53); (inl c3_ip1, 53); (inl c3_ip2, 53); (inl c3_ip2, 53); (inl c3_ip3, 53)]
      /\ aa_rrs (auth_answer c4_universe c4_q_ext) = [c4_cn_ext; c4_cn_alias; c3_rr c3_n_www RT_A 300 (RD_A 3221225985)]
      /\ fst r' = fst r /\ ts_log (snd (snd r')) = []).
Proof. exact (conj alias_example alias_example_eval). Qed.
Print Assumptions C07_example_alias.

From RV Require Import Resolver.RecursiveModes.

(* C07_correct_warm / C07_correct_chain for EVERY protocol mode [mode] (only-v4, prefer-v4, prefer-v6,
   only-v6).  resolve_hostname_to_ip asks for the record types of [rtypes_of_mode mode] in order; the
   first type for which the fast pass finds an address of the nameserver host -- a root hint or a
   cached RRset -- wins (C18_hostname_loop_order).  Accordingly:

     hint_okm                     root hints are NS records of the root, A records or AAAA records;
     mode_usable mode t           t is one of the types of the mode;
     consistentm u hints mode G   cache_consistent with the closed clause for the mode: every host named
                                  by a cached NS record has a well-formed name and, for SOME type of the
                                  mode, a hint or a non-empty cached RRset (here G = nobody: no host is
                                  excused; for only-v4 this is cache_consistent: C07_consistentm_only_v4);
     warm_questionm u hints mode false G q zroot [z1..zk] zk
        warm_question with, for each link z(i-1) > zi:  every nameserver host of the cut has glue OF A
        FAMILY THE MODE CAN USE (an A or AAAA record of a type of the mode, TTL > 0, in z(i-1)'s glue or
        data);  [hosts_okm zi]: every host that any NS record of the universe owned by zi's apex names has
        a well-formed name, owns no CNAME in the universe, and EVERY address record -- A or AAAA, in the
        universe or in the hints -- for it holds an address of its type that is the address of a server
        whose closest zone for the question name is zi (whichever family is found first is used);
        the same for the root zone, whose hint nameservers are nameservers the universe lists for the
        root and have a hint of a family the mode can use;  the question name is not a nameserver host.

   Then, from any cache consistent for the mode, with fuel >= k + 2, [resolve] returns the
   authoritative answer and leaves a consistent cache: from the cache (the cached RRset, same data), or
   over the network: exactly auth_answer, the log one UDP exchange about q per zone of a non-empty
   suffix [used] of the chain, each with a server (v4 or v6 address: [query_toi]) whose closest zone
   for the name is that zone; the suffix is the whole chain, or begins at a zone whose NS set was cached. *)
Theorem C07_correct_modes :
  forall (sort_names : list dname -> list dname) (port : N) (u : universe) (hints : list rr) (hz : zone)
         (mode : protocol_mode) (q : question) (zroot : uzone) (rest : list uzone) (zk : uzone) (c : scache) (fuel : nat),
  (forall l, Permutation (sort_names l) l) ->
  universe_ns_ok u ->
  zone_build root_domain None (hint_ops hints) = Ok hz ->
  warm_questionm u hints mode false (fun _ => False) q zroot rest zk -> plain_question u q ->
  consistentm u hints mode (fun _ => False) scache sc_get c -> (length rest + 2 <= fuel)%nat ->
  exists rrs c' ts',
    resolve scache sc_get sc_insert_all sort_names (ModeRecursive mode) port (zones_insert [] hz)
            (universe_oracle u []) fuel q (c, tstate_init)
    = (Ok (NonAuthoritative rrs (aa_soa (auth_answer u q))), (c', ts'))
    /\ consistentm u hints mode (fun _ => False) scache sc_get c'
    /\ ((ts_log ts' = [] /\ c' = c /\ rrs = sc_get c (q_name q) (q_type q) /\ rrs <> []
         /\ same_data rrs (aa_rrs (auth_answer u q)))
        \/ (rrs = aa_rrs (auth_answer u q) /\ sc_get c (q_name q) (q_type q) = []
            /\ exists pre used, zroot :: rest = pre ++ used /\ used <> []
                 /\ (pre = [] \/ exists zi used', used = zi :: used' /\ sc_get c (uz_apex zi) RT_NS <> [])
                 /\ Forall2 (fun z e => exists a, query_toi port q a e /\ serves_owner u a z q) used (ts_log ts'))).
Proof.
  intros sort_names port u hints hz mode q zroot rest zk c fuel Hs Hu Hb Hw Hq Hc Hf.
  exact (outcomem_strict _ _ _ _ _ _ _ _ _ _ _ _
           (modes_correct scache sc_get sc_insert_all sc_cache_laws sort_names Hs port u Hu hints hz Hb mode false q zroot rest zk c fuel Hw Hq Hc Hf)).
Qed.
Print Assumptions C07_correct_modes.

(* the same for the real cache model (Cache/CacheModel.v under its invariant) at any fixed instant *)
Theorem C07_correct_modes_real_cache :
  forall (now : N) (sort_names : list dname -> list dname) (port : N) (u : universe) (hints : list rr) (hz : zone)
         (mode : protocol_mode) (q : question) (zroot : uzone) (rest : list uzone) (zk : uzone) (c : rcache) (fuel : nat),
  (forall l, Permutation (sort_names l) l) ->
  universe_ns_ok u ->
  zone_build root_domain None (hint_ops hints) = Ok hz ->
  warm_questionm u hints mode false (fun _ => False) q zroot rest zk -> plain_question u q ->
  consistentm u hints mode (fun _ => False) rcache (rc_get now) c -> (length rest + 2 <= fuel)%nat ->
  exists rrs c' ts',
    resolve rcache (rc_get now) (rc_insert_all now) sort_names (ModeRecursive mode) port (zones_insert [] hz)
            (universe_oracle u []) fuel q (c, tstate_init)
    = (Ok (NonAuthoritative rrs (aa_soa (auth_answer u q))), (c', ts'))
    /\ consistentm u hints mode (fun _ => False) rcache (rc_get now) c'
    /\ ((ts_log ts' = [] /\ c' = c /\ rrs = rc_get now c (q_name q) (q_type q) /\ rrs <> []
         /\ same_data rrs (aa_rrs (auth_answer u q)))
        \/ (rrs = aa_rrs (auth_answer u q) /\ rc_get now c (q_name q) (q_type q) = []
            /\ exists pre used, zroot :: rest = pre ++ used /\ used <> []
                 /\ (pre = [] \/ exists zi used', used = zi :: used' /\ rc_get now c (uz_apex zi) RT_NS <> [])
                 /\ Forall2 (fun z e => exists a, query_toi port q a e /\ serves_owner u a z q) used (ts_log ts'))).
Proof.
  intros now sort_names port u hints hz mode q zroot rest zk c fuel Hs Hu Hb Hw Hq Hc Hf.
  exact (outcomem_strict _ _ _ _ _ _ _ _ _ _ _ _
           (modes_correct rcache (rc_get now) (rc_insert_all now) (rc_cache_laws now) sort_names Hs port u Hu hints hz Hb mode false q zroot rest zk c fuel Hw Hq Hc Hf)).
Qed.
Print Assumptions C07_correct_modes_real_cache.

(* C07_correct_chain for every mode: from the EMPTY cache (SimpleCache; Cache::new at any instant) the
   log is one exchange per zone of the WHOLE chain, root server first *)
Theorem C07_correct_chain_modes :
  forall (sort_names : list dname -> list dname) (port : N) (u : universe) (hints : list rr) (hz : zone)
         (mode : protocol_mode) (q : question) (zroot : uzone) (rest : list uzone) (zk : uzone) (fuel : nat),
  (forall l, Permutation (sort_names l) l) ->
  universe_ns_ok u ->
  zone_build root_domain None (hint_ops hints) = Ok hz ->
  warm_questionm u hints mode false (fun _ => False) q zroot rest zk -> plain_question u q ->
  (length rest + 2 <= fuel)%nat ->
  (exists c' ts',
     resolve scache sc_get sc_insert_all sort_names (ModeRecursive mode) port (zones_insert [] hz)
             (universe_oracle u []) fuel q (sc_empty, tstate_init)
     = (Ok (NonAuthoritative (aa_rrs (auth_answer u q)) (aa_soa (auth_answer u q))), (c', ts'))
     /\ Forall2 (fun z e => exists a, query_toi port q a e /\ serves_owner u a z q) (zroot :: rest) (ts_log ts')
     /\ consistentm u hints mode (fun _ => False) scache sc_get c')
  /\ forall now, exists c' ts',
     resolve rcache (rc_get now) (rc_insert_all now) sort_names (ModeRecursive mode) port (zones_insert [] hz)
             (universe_oracle u []) fuel q (rc_new, tstate_init)
     = (Ok (NonAuthoritative (aa_rrs (auth_answer u q)) (aa_soa (auth_answer u q))), (c', ts'))
     /\ Forall2 (fun z e => exists a, query_toi port q a e /\ serves_owner u a z q) (zroot :: rest) (ts_log ts')
     /\ consistentm u hints mode (fun _ => False) rcache (rc_get now) c'.
Proof.
  intros sort_names port u hints hz mode q zroot rest zk fuel Hs Hu Hb Hw Hq Hf. split.
  - exact (modes_chain_abstract scache sc_get sc_insert_all sc_cache_laws sort_names Hs port u Hu hints hz Hb mode q zroot rest zk
             sc_empty fuel sc_empty_get Hw Hq Hf).
  - intro now.
    exact (modes_chain_abstract rcache (rc_get now) (rc_insert_all now) (rc_cache_laws now) sort_names Hs port u Hu hints hz Hb mode
             q zroot rest zk rc_new fuel (rc_empty_get now) Hw Hq Hf).
Qed.
Print Assumptions C07_correct_chain_modes.

(* the consistency notion: the empty caches are consistent for every mode; for only-v4 it is
   cache_consistent of C07_correct_warm *)
Theorem C07_consistentm_only_v4 : forall u hints,
  (forall mode, consistentm u hints mode (fun _ => False) scache sc_get sc_empty
                /\ forall now, consistentm u hints mode (fun _ => False) rcache (rc_get now) rc_new)
  /\ (forall (c : scache), consistentm u hints OnlyV4 (fun _ => False) scache sc_get c <-> cache_consistent u hints scache sc_get c)
  /\ (forall now (c : rcache), consistentm u hints OnlyV4 (fun _ => False) rcache (rc_get now) c
                               <-> cache_consistent u hints rcache (rc_get now) c).
Proof.
  intros u hints. split; [|split].
  - intro mode. split; [apply emptym_consistent; exact sc_empty_get|intro now; apply emptym_consistent; exact (rc_empty_get now)].
  - intro c. apply consistentm_v4.
  - intros now c. apply consistentm_v4.
Qed.
Print Assumptions C07_consistentm_only_v4.

(* the hypotheses are met by a worked universe (RecursiveModes.v): the depth-3 chain
   with v6 in it -- the root server a. at 10.0.0.1 and fd00::1 (hints: both), com. served by ns.com. at
   fd00::2 ONLY (a v6-only nameserver: AAAA glue), example.com. and sub.example.com. served at a v4 and a
   v6 address each (A and AAAA glue); consistent.  For EVERY mode that can use v6 (prefer-v4, prefer-v6,
   only-v6: exactly the modes other than only-v4) www.sub.example.com. A from the empty cache has the
   outcome of the theorem, the cache left is consistent for the mode, and MX asked from it too.
   Evaluated by vm_compute: prefer-v4 asks 10.0.0.1, fd00::2 (com. has no v4 address), 10.0.0.3,
   10.0.0.4; prefer-v6 and only-v6 ask fd00::1..4; MX from the cache of the prefer-v6 run is denied by
   fd00::4 alone. *)
Example C07_example_modes :
  (forall mode, mode_usable mode RT_AAAA ->
     outcomem scache sc_get 53 m3_universe m3_hints mode false c3_q m3_root [m3_com; m3_ex; m3_sub] m3_sub sc_empty
       (resolve scache sc_get sc_insert_all sort_names_ord (ModeRecursive mode) 53 (zones_insert [] m3_hz)
                (universe_oracle m3_universe []) 5%nat c3_q (sc_empty, tstate_init))
     /\ (let c1 := fst (snd (resolve scache sc_get sc_insert_all sort_names_ord (ModeRecursive mode) 53 (zones_insert [] m3_hz)
                                     (universe_oracle m3_universe []) 5%nat c3_q (sc_empty, tstate_init))) in
         consistentm m3_universe m3_hints mode (fun _ => False) scache sc_get c1
         /\ outcomem scache sc_get 53 m3_universe m3_hints mode false c3_q_mx m3_root [m3_com; m3_ex; m3_sub] m3_sub c1
              (resolve scache sc_get sc_insert_all sort_names_ord (ModeRecursive mode) 53 (zones_insert [] m3_hz)
                       (universe_oracle m3_universe []) 5%nat c3_q_mx (c1, tstate_init))))
  /\ (let run mode q c := resolve scache sc_get sc_insert_all sort_names_ord (ModeRecursive mode) 53 (zones_insert [] m3_hz)
                                  (universe_oracle m3_universe []) 5%nat q (c, tstate_init) in
      let ans := Ok (NonAuthoritative [c3_rr c3_n_www RT_A 300 (RD_A 3221225985)] None) in
      let r4 := run PreferV4 c3_q sc_empty in
      let r6 := run PreferV6 c3_q sc_empty in
      let o6 := run OnlyV6 c3_q sc_empty in
      let w6 := run PreferV6 c3_q_mx (fst (snd r6)) in
      fst r4 = ans /\ map x_addr (ts_log (snd (snd r4))) = [(inl c3_ip0, 53); (inr (m3_v6 2), 53); (inl c3_ip2, 53); (inl c3_ip3, 53)]
      /\ fst r6 = ans /\ map x_addr (ts_log (snd (snd r6))) = [(inr (m3_v6 1), 53); (inr (m3_v6 2), 53); (inr (m3_v6 3), 53); (inr (m3_v6 4), 53)]
      /\ fst o6 = ans /\ map x_addr (ts_log (snd (snd o6))) = map x_addr (ts_log (snd (snd r6)))
      /\ fst w6 = Ok (NonAuthoritative [] (Some (uz_soa m3_sub))) /\ map x_addr (ts_log (snd (snd w6))) = [(inr (m3_v6 4), 53)]
      /\ consistentb m3_universe = true
      /\ (forall mode, mode_usable mode RT_AAAA <-> mode <> OnlyV4)).
Proof. exact (conj modes_example modes_example_eval). Qed.
Print Assumptions C07_example_modes.

From RV Require Import Resolver.RecursiveGlueless.

(* C07_correct_modes for delegation chains in which some cuts have nameserver hosts WITHOUT usable
   glue ("out-of-bailiwick nameserver names").  At such a cut every candidate is skipped by the fast
   pass (unless the cache happens to hold its address) and moved to next_candidate_hostnames; the slow
   pass pops the first of them, h, and resolve_hostname_to_ip calls resolve_recursive_notimeout on
   (h, A) (or AAAA, by the mode: the types of the mode in order until one returns records) with the
   question under way on the stack.  That nested resolution is the same theorem for the question about
   h -- a walk down h's own delegation chain from the root hints or the warm cache, whose cuts may
   again be glueless --; its first address record is the address of a server of the child zone; the
   query proceeds there.  The nested resolutions warm the cache, which stays consistent.

   The glueless hosts are given by a PLAN: [planned h] says h is one; [plan h] = (the zones of h's
   delegation chain below the root, the zone owning h); [hrank h] is a rank.  [plan_ok h] (decidable on
   the universe, the hints, the plan; [serve_fits] inside plain_question aside) asks, for every planned h:
     - for every record type t of the mode, the question (h, t) has the walk hypotheses of
       C07_correct_modes along [plan h] (links with usable glue OR planned hosts), the last zone owns h
       plainly (answering_zone), requests and replies fit 512 octets;
     - the zone owning h holds an address record of h of SOME type of the mode; its records of h are
       of class IN; the universe has no CNAME at h;
     - WELL-FOUNDEDNESS: every nameserver host -- with glue or without -- of every zone on h's chain
       has a rank strictly below h's: the resolution of h never needs h, nor a name whose resolution
       is under way (the resolver would meet DuplicateQuestion and end in DeadEnd);
     - hrank h < 30: the stack of questions under way is limited to 32 (RECURSION_LIMIT).
   In [warm_questionm .. planned ..] and [consistentm .. planned ..] a host of a cut (of a cached NS
   set) must have usable glue (be ready) OR be planned.

   Then, from any cache consistent in that sense, for all sufficient fuel (the model's fuel bounds the
   nesting of calls; more fuel never changes a finished computation: C07_fuel_monotone), [resolve]
   returns the authoritative answer and leaves a consistent cache: from the cache (same data), or over
   the network: exactly auth_answer; the log ([glog]) is the exchanges about q, in order one per zone
   of [used] -- a subsequence of the chain ending with the owning zone zk -- each with a server whose
   closest zone for the name is that zone, INTERLEAVED with the exchanges of the nested resolutions,
   which are all about nameserver host names. *)
Theorem C07_correct_glueless :
  forall (sort_names : list dname -> list dname) (port : N) (u : universe) (hints : list rr) (hz : zone)
         (mode : protocol_mode) (zroot : uzone)
         (planned : dname -> Prop) (plan : dname -> list uzone * uzone) (hrank : dname -> nat)
         (q : question) (rest : list uzone) (zk : uzone) (c : scache),
  (forall l, Permutation (sort_names l) l) ->
  universe_ns_ok u ->
  zone_build root_domain None (hint_ops hints) = Ok hz ->
  (forall h, planned h -> plan_ok u hints mode false zroot planned plan hrank h) ->
  warm_questionm u hints mode false planned q zroot rest zk -> plain_question u q ->
  consistentm u hints mode planned scache sc_get c ->
  exists F, forall fuel, (F <= fuel)%nat ->
    exists rrs c' ts',
      resolve scache sc_get sc_insert_all sort_names (ModeRecursive mode) port (zones_insert [] hz)
              (universe_oracle u []) fuel q (c, tstate_init)
      = (Ok (NonAuthoritative rrs (aa_soa (auth_answer u q))), (c', ts'))
      /\ consistentm u hints mode planned scache sc_get c'
      /\ ((ts_log ts' = [] /\ c' = c /\ rrs = sc_get c (q_name q) (q_type q) /\ rrs <> []
           /\ same_data rrs (aa_rrs (auth_answer u q)))
          \/ (rrs = aa_rrs (auth_answer u q) /\ sc_get c (q_name q) (q_type q) = []
              /\ exists used, subseq used (zroot :: rest) /\ (exists used0, used = used0 ++ [zk])
                   /\ glog u port q used (ts_log ts'))).
Proof.
  intros sort_names port u hints hz mode zroot planned plan hrank q rest zk c Hs Hu Hb Hp Hw Hq Hc.
  exact (glueless_correct scache sc_get sc_insert_all sc_cache_laws sort_names Hs port u Hu hints hz Hb
           mode false zroot planned plan hrank Hp q rest zk c Hw Hq Hc).
Qed.
Print Assumptions C07_correct_glueless.

(* the same for the real cache model at any fixed instant *)
Theorem C07_correct_glueless_real_cache :
  forall (now : N) (sort_names : list dname -> list dname) (port : N) (u : universe) (hints : list rr) (hz : zone)
         (mode : protocol_mode) (zroot : uzone)
         (planned : dname -> Prop) (plan : dname -> list uzone * uzone) (hrank : dname -> nat)
         (q : question) (rest : list uzone) (zk : uzone) (c : rcache),
  (forall l, Permutation (sort_names l) l) ->
  universe_ns_ok u ->
  zone_build root_domain None (hint_ops hints) = Ok hz ->
  (forall h, planned h -> plan_ok u hints mode false zroot planned plan hrank h) ->
  warm_questionm u hints mode false planned q zroot rest zk -> plain_question u q ->
  consistentm u hints mode planned rcache (rc_get now) c ->
  exists F, forall fuel, (F <= fuel)%nat ->
    exists rrs c' ts',
      resolve rcache (rc_get now) (rc_insert_all now) sort_names (ModeRecursive mode) port (zones_insert [] hz)
              (universe_oracle u []) fuel q (c, tstate_init)
      = (Ok (NonAuthoritative rrs (aa_soa (auth_answer u q))), (c', ts'))
      /\ consistentm u hints mode planned rcache (rc_get now) c'
      /\ ((ts_log ts' = [] /\ c' = c /\ rrs = rc_get now c (q_name q) (q_type q) /\ rrs <> []
           /\ same_data rrs (aa_rrs (auth_answer u q)))
          \/ (rrs = aa_rrs (auth_answer u q) /\ rc_get now c (q_name q) (q_type q) = []
              /\ exists used, subseq used (zroot :: rest) /\ (exists used0, used = used0 ++ [zk])
                   /\ glog u port q used (ts_log ts'))).
Proof.
  intros now sort_names port u hints hz mode zroot planned plan hrank q rest zk c Hs Hu Hb Hp Hw Hq Hc.
  exact (glueless_correct rcache (rc_get now) (rc_insert_all now) (rc_cache_laws now) sort_names Hs port u Hu hints hz Hb
           mode false zroot planned plan hrank Hp q rest zk c Hw Hq Hc).
Qed.
Print Assumptions C07_correct_glueless_real_cache.

(* the model's fuel: a computation of resolve_recursive_notimeout (of the candidate loop) that
   finished with a value finishes with the same value and state on any larger fuel -- for every cache,
   oracle, mode, stack and question *)
Theorem C07_fuel_monotone :
  forall (cache : Type) (cache_get : cache -> dname -> N -> list rr) (cache_insert_all : cache -> list rr -> cache)
         (sort_names : list dname -> list dname) (zs : zones) (o : oracle) (pmode : protocol_mode) (port : N)
         (f f' : nat) (stack : list question) (q : question) (st : rstate cache) (v : rres) (st' : rstate cache),
  (f <= f')%nat ->
  resolve_recursive_notimeout cache cache_get cache_insert_all sort_names zs o pmode port f stack q st = (Val v, st') ->
  resolve_recursive_notimeout cache cache_get cache_insert_all sort_names zs o pmode port f' stack q st = (Val v, st').
Proof. exact rrn_fuel_mono. Qed.
Print Assumptions C07_fuel_monotone.

(* the hypotheses are met by a worked universe (RecursiveGlueless.v): the depth-3 chain
   . -> com. -> example.com. -> sub.example.com. extended by hosted.com., delegated from com. to
   ns.hoster.net. WITHOUT glue, and by the branch . -> net. -> hoster.net. (glue-complete: ns.net.,
   ns1.hoster.net.) whose zone hoster.net. holds ns.hoster.net. A 10.0.0.8, the server of hosted.com.;
   consistent.  Plan: ns.hoster.net. is the one planned host, chain [net.; hoster.net.], rank 1, every
   other name rank 0.  www.hosted.com. A from the empty cache, only-v4: the theorem's outcome for all
   sufficient fuel; evaluated by vm_compute with fuel 20: the root and com. are asked about
   www.hosted.com.; the nested resolution asks the root, net. (10.0.0.6) and hoster.net. (10.0.0.7)
   about ns.hoster.net. A; then 10.0.0.8 answers www.hosted.com.; asked again: from the cache. *)
Example C07_example_glueless :
  (exists F, forall fuel, (F <= fuel)%nat ->
     outcomeg scache sc_get 53 g_universe c3_hints OnlyV4 g_root g_planned g_q [g_com; g_hosted] g_hosted sc_empty
       (resolve scache sc_get sc_insert_all sort_names_ord (ModeRecursive OnlyV4) 53 (zones_insert [] c3_hz)
                (universe_oracle g_universe []) fuel g_q (sc_empty, tstate_init)))
  /\ (forall h, g_planned h -> plan_ok g_universe c3_hints OnlyV4 false g_root g_planned g_plan g_rank h)
  /\ (let r := resolve scache sc_get sc_insert_all sort_names_ord (ModeRecursive OnlyV4) 53 (zones_insert [] c3_hz)
                       (universe_oracle g_universe []) 20%nat g_q (sc_empty, tstate_init) in
      let r' := resolve scache sc_get sc_insert_all sort_names_ord (ModeRecursive OnlyV4) 53 (zones_insert [] c3_hz)
                        (universe_oracle g_universe []) 20%nat g_q (fst (snd r), tstate_init) in
      fst r = Ok (NonAuthoritative [c3_rr g_n_www_hosted RT_A 300 (RD_A 3221225991)] None)
      /\ map (fun e => (x_addr e, x_question e)) (ts_log (snd (snd r)))
         = [((inl c3_ip0, 53), g_q); ((inl c3_ip1, 53), g_q);
            ((inl c3_ip0, 53), g_qh); ((inl g_ip5, 53), g_qh); ((inl g_ip6, 53), g_qh);
            ((inl g_ip7, 53), g_q)]
      /\ fst r' = fst r /\ ts_log (snd (snd r')) = []
      /\ consistentb g_universe = true).
Proof. exact (conj glueless_example (conj g_plan_ok glueless_example_eval)). Qed.
Print Assumptions C07_example_glueless.

From RV Require Import Resolver.RecursiveMultiZone.

(* With [multi = true] the address clause of [warm_questionm] is WEAKENED ([lands]): every address
   record of a nameserver host of the zone zi of the chain leads to a server whose closest zone for
   the question name is zi OR A ZONE OF THE CHAIN BELOW zi (Universe.serve answers from the closest
   zone the server holds).  The hops in between are skipped.  The result is unchanged -- the
   authoritative answer, a consistent cache --; the log is one exchange about q per zone of [used],
   a SUBSEQUENCE of the chain that ends with the owning zone zk (at most as long as the chain:
   C07_multizone_log_shorter), each with a server whose closest zone for the name is that zone. *)
Theorem C07_correct_multizone :
  forall (sort_names : list dname -> list dname) (port : N) (u : universe) (hints : list rr) (hz : zone)
         (mode : protocol_mode) (q : question) (zroot : uzone) (rest : list uzone) (zk : uzone) (c : scache) (fuel : nat),
  (forall l, Permutation (sort_names l) l) ->
  universe_ns_ok u ->
  zone_build root_domain None (hint_ops hints) = Ok hz ->
  warm_questionm u hints mode true (fun _ => False) q zroot rest zk -> plain_question u q ->
  consistentm u hints mode (fun _ => False) scache sc_get c -> (length rest + 2 <= fuel)%nat ->
  exists rrs c' ts',
    resolve scache sc_get sc_insert_all sort_names (ModeRecursive mode) port (zones_insert [] hz)
            (universe_oracle u []) fuel q (c, tstate_init)
    = (Ok (NonAuthoritative rrs (aa_soa (auth_answer u q))), (c', ts'))
    /\ consistentm u hints mode (fun _ => False) scache sc_get c'
    /\ ((ts_log ts' = [] /\ c' = c /\ rrs = sc_get c (q_name q) (q_type q) /\ rrs <> []
         /\ same_data rrs (aa_rrs (auth_answer u q)))
        \/ (rrs = aa_rrs (auth_answer u q) /\ sc_get c (q_name q) (q_type q) = []
            /\ exists used, subseq used (zroot :: rest) /\ (exists used0, used = used0 ++ [zk])
                 /\ Forall2 (fun z e => exists a, query_toi port q a e /\ serves_owner u a z q) used (ts_log ts'))).
Proof.
  intros sort_names port u hints hz mode q zroot rest zk c fuel Hs Hu Hb Hw Hq Hc Hf.
  exact (outcomem_multi _ _ _ _ _ _ _ _ _ _ _ _
           (modes_correct scache sc_get sc_insert_all sc_cache_laws sort_names Hs port u Hu hints hz Hb mode true q zroot rest zk c fuel Hw Hq Hc Hf)).
Qed.
Print Assumptions C07_correct_multizone.

(* the same for the real cache model at any fixed instant *)
Theorem C07_correct_multizone_real_cache :
  forall (now : N) (sort_names : list dname -> list dname) (port : N) (u : universe) (hints : list rr) (hz : zone)
         (mode : protocol_mode) (q : question) (zroot : uzone) (rest : list uzone) (zk : uzone) (c : rcache) (fuel : nat),
  (forall l, Permutation (sort_names l) l) ->
  universe_ns_ok u ->
  zone_build root_domain None (hint_ops hints) = Ok hz ->
  warm_questionm u hints mode true (fun _ => False) q zroot rest zk -> plain_question u q ->
  consistentm u hints mode (fun _ => False) rcache (rc_get now) c -> (length rest + 2 <= fuel)%nat ->
  exists rrs c' ts',
    resolve rcache (rc_get now) (rc_insert_all now) sort_names (ModeRecursive mode) port (zones_insert [] hz)
            (universe_oracle u []) fuel q (c, tstate_init)
    = (Ok (NonAuthoritative rrs (aa_soa (auth_answer u q))), (c', ts'))
    /\ consistentm u hints mode (fun _ => False) rcache (rc_get now) c'
    /\ ((ts_log ts' = [] /\ c' = c /\ rrs = rc_get now c (q_name q) (q_type q) /\ rrs <> []
         /\ same_data rrs (aa_rrs (auth_answer u q)))
        \/ (rrs = aa_rrs (auth_answer u q) /\ rc_get now c (q_name q) (q_type q) = []
            /\ exists used, subseq used (zroot :: rest) /\ (exists used0, used = used0 ++ [zk])
                 /\ Forall2 (fun z e => exists a, query_toi port q a e /\ serves_owner u a z q) used (ts_log ts'))).
Proof.
  intros now sort_names port u hints hz mode q zroot rest zk c fuel Hs Hu Hb Hw Hq Hc Hf.
  exact (outcomem_multi _ _ _ _ _ _ _ _ _ _ _ _
           (modes_correct rcache (rc_get now) (rc_insert_all now) (rc_cache_laws now) sort_names Hs port u Hu hints hz Hb mode true q zroot rest zk c fuel Hw Hq Hc Hf)).
Qed.
Print Assumptions C07_correct_multizone_real_cache.

(* ... and with glueless cuts as well: C07_correct_glueless under the weakened address clause, in the
   question's chain and in the chains of the planned hosts *)
Theorem C07_correct_glueless_multizone :
  forall (sort_names : list dname -> list dname) (port : N) (u : universe) (hints : list rr) (hz : zone)
         (mode : protocol_mode) (zroot : uzone)
         (planned : dname -> Prop) (plan : dname -> list uzone * uzone) (hrank : dname -> nat)
         (q : question) (rest : list uzone) (zk : uzone),
  (forall l, Permutation (sort_names l) l) ->
  universe_ns_ok u ->
  zone_build root_domain None (hint_ops hints) = Ok hz ->
  (forall h, planned h -> plan_ok u hints mode true zroot planned plan hrank h) ->
  warm_questionm u hints mode true planned q zroot rest zk -> plain_question u q ->
  (forall (c : scache), consistentm u hints mode planned scache sc_get c ->
     exists F, forall fuel, (F <= fuel)%nat ->
       outcomeg scache sc_get port u hints mode zroot planned q rest zk c
         (resolve scache sc_get sc_insert_all sort_names (ModeRecursive mode) port (zones_insert [] hz)
                  (universe_oracle u []) fuel q (c, tstate_init)))
  /\ (forall now (c : rcache), consistentm u hints mode planned rcache (rc_get now) c ->
     exists F, forall fuel, (F <= fuel)%nat ->
       outcomeg rcache (rc_get now) port u hints mode zroot planned q rest zk c
         (resolve rcache (rc_get now) (rc_insert_all now) sort_names (ModeRecursive mode) port (zones_insert [] hz)
                  (universe_oracle u []) fuel q (c, tstate_init))).
Proof.
  intros sort_names port u hints hz mode zroot planned plan hrank q rest zk Hs Hu Hb Hp Hw Hq. split.
  - intros c Hc. exact (glueless_correct scache sc_get sc_insert_all sc_cache_laws sort_names Hs port u Hu hints hz Hb
           mode true zroot planned plan hrank Hp q rest zk c Hw Hq Hc).
  - intros now c Hc. exact (glueless_correct rcache (rc_get now) (rc_insert_all now) (rc_cache_laws now) sort_names Hs port u Hu hints hz Hb
           mode true zroot planned plan hrank Hp q rest zk c Hw Hq Hc).
Qed.
Print Assumptions C07_correct_glueless_multizone.

(* the weakened hypotheses follow from the strict ones of C07_correct_modes / C07_correct_glueless (so
   the theorems above hold for those universes too, with the log stated as a subsequence) *)
Theorem C07_multizone_weakens :
  forall u hints mode (G : dname -> Prop) q zroot rest zk,
  warm_questionm u hints mode false G q zroot rest zk -> warm_questionm u hints mode true G q zroot rest zk.
Proof. exact warm_questionm_weaken. Qed.
Print Assumptions C07_multizone_weakens.

(* the log gets shorter: a subsequence of the chain is at most as long as the chain, and the log
   has one exchange per zone of it *)
Theorem C07_multizone_log_shorter :
  forall u port q (chain used : list uzone) es,
  subseq used chain -> Forall2 (fun z e => exists a, query_toi port q a e /\ serves_owner u a z q) used es ->
  (length es <= length chain)%nat.
Proof.
  intros u port q chain used es Hs Hl. rewrite (chain_logm_length u port q used es Hl). exact (subseq_length used chain Hs).
Qed.
Print Assumptions C07_multizone_log_shorter.

(* the hypotheses are met by a worked universe (RecursiveMultiZone.v): the depth-3 chain
   in which the server 10.0.0.2 of com. ALSO holds example.com. (example.com. is served by 10.0.0.2 and
   10.0.0.3); consistent.  The strict address clause fails (10.0.0.2's closest zone for
   www.sub.example.com. is example.com., not com.), the weakened one holds.  Evaluated by vm_compute:
   three exchanges instead of four -- 10.0.0.1, then 10.0.0.2, asked as a server of com., gives
   example.com.'s referral to sub.example.com., then 10.0.0.4 --, the same answer; the NS set of
   example.com. is never cached, that of sub.example.com. is. *)
Example C07_example_multizone :
  (outcomem scache sc_get 53 z3_universe c3_hints OnlyV4 true c3_q c3_root [c3_com; c3_ex; c3_sub] c3_sub sc_empty
     (resolve scache sc_get sc_insert_all sort_names_ord (ModeRecursive OnlyV4) 53 (zones_insert [] c3_hz)
              (universe_oracle z3_universe []) 5%nat c3_q (sc_empty, tstate_init))
   /\ ~ serves_owner z3_universe (inl c3_ip1) c3_com c3_q)
  /\ (let r := resolve scache sc_get sc_insert_all sort_names_ord (ModeRecursive OnlyV4) 53 (zones_insert [] c3_hz)
                       (universe_oracle z3_universe []) 5%nat c3_q (sc_empty, tstate_init) in
      fst r = Ok (NonAuthoritative [c3_rr c3_n_www RT_A 300 (RD_A 3221225985)] None)
      /\ map x_addr (ts_log (snd (snd r))) = [(inl c3_ip0, 53); (inl c3_ip1, 53); (inl c3_ip3, 53)]
      /\ sc_get (fst (snd r)) c3_n_ex RT_NS = [] /\ sc_get (fst (snd r)) c3_n_sub RT_NS <> []
      /\ consistentb z3_universe = true).
Proof. exact (conj multizone_example multizone_example_eval). Qed.
Print Assumptions C07_example_multizone.

(* C07_correct_partial -- what is proved of C07_correct (the statement at the head of this file),
   and what is not.
   PROVED for every universe, with no hypothesis on it: the two kinds of hop (C07_referral_hop_partial: a
   referral is followed to exactly the delegated zone's hosts; C07_last_hop_partial: at the owning
   zone's server the result is exactly auth_answer); every referral followed is strictly deeper and
   their number is bounded by the labels of the question name (C07_referral_progress); the reply
   filter is complete on [serve]'s reply shapes (the three C07_filter_accepts theorems); [serve] agrees with
   [auth_answer] at the owning zone (C07_serve_is_auth_answer); the fault-free universe oracle
   delivers what [serve] says when it fits a datagram (C07_universe_oracle_delivers); termination
   (C08_recursive_terminates) and provenance (C07_answer_provenance).
   PROVED end to end (model of the resolver against Universe.serve through the wire codec, fault-free
   universe oracle, root hints as the only local zone, SimpleCache and the real cache model):
     any depth, any cache consistent with the universe, sequences of questions, alias chains crossing
     zones (only-v4, glue-complete: C07_correct_chain, C07_correct_warm, C07_sequence, C07_correct_alias), and for plain
     questions (type other than NS / CNAME / ANY, name not a nameserver host, no alias at the name):
     ALL FOUR PROTOCOL MODES with A and AAAA glue and hints (C07_correct_modes, _chain_modes),
     GLUELESS cuts resolved by the slow pass with nested resolutions under a rank on nameserver host
     names (C07_correct_glueless), SERVERS HOLDING SEVERAL ZONES of the chain (C07_correct_multizone,
     C07_correct_glueless_multizone), each from any consistent cache, ending in a consistent cache.
   NOT PROVED of "every consistent universe, every question, every mode" (covered by the
   differential stream of vlib/p_c07.py only):
     (1) alias chains and sequences of questions are proved for only-v4 glue-complete chains only:
         C07_correct_alias / C07_sequence restated over [consistentm] / [warm_questionm] (the nested
         induction of RecursiveAlias.v over the walk lemmas of RecursiveModes.v; a sequence theorem over glog);
     (2) the glue shortcut F11 on the way of a host question: a planned host that ALSO has glue in a
         referral met on its own chain (the typical ns.hoster.net. serving hoster.net. itself) -- wlinkm
         asks that the question name owns no glue or data in the parent;
     (3) a planned host all of whose address types are absent (the candidate is dropped and the next
         one tried), and candidates that fail (faults: dropped, truncated, wrong-id replies; DeadEnd on
         the first candidate without a usable reply);
     (4) from a WARM cache: questions for NS and questions about a nameserver host asked by the
         client (cache completeness is not claimed at nameserver hosts);
     (5) the per-question hypotheses (warm_questionm, plan_ok) derived from one decidable
         well-formedness predicate on universes (consistentb + tree shape + the rank), instead of being
         stated question by question;
     (6) for glueless chains the fuel bound is existential (exists F, forall fuel >= F) and, without
         [multi], the log is stated as a subsequence rather than a suffix of the chain. *)
