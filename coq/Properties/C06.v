(* Properties/C06.v -- C06: upstream replies are filtered: only records relevant to
   the question are used.

   Model: Resolver/ValidateModel.v (validate_nameserver_response, follow_cnames,
   get_better_ns_names, get_nxdomain_nodata_soa, response_matches_request) and
   Resolver/GateModel.v (query_nameserver).  Specification: Resolver/ValidateSpec.v
   ([allowed], [vchain_ok], [gate_ok]).  Proofs: Resolver/ValidateProofs.v.

   The last sentence of the property text -- "only validated records reach the
   cache or the answer" -- is a statement about resolve_recursive: the theorems
   C06_only_validated_* at the end of this file (lemmas: Resolver/RecursiveProofs.v);
   that every RR of the RESULT is local data or such a record is
   C08_answer_provenance_recursive. *)
From RV Require Import Base.Prelude Name.NameModel Name.NameSpec Wire.WireTypes
     Resolver.LocalModel Resolver.LocalSpec Resolver.ValidateModel Resolver.GateModel
     Resolver.ValidateSpec Resolver.ValidateProofs.

(* the CNAME-following loop terminates: the fuel the model gives it (two more than
   the number of distinct CNAME owners) is never exhausted -- each step adds a new
   target to [seen], all of them targets of the map (pigeonhole) *)
Theorem C06_follow_terminates rrs target qtype :
  follow_cnames rrs target qtype <> OutOfFuel /\ exists o, follow_cnames rrs target qtype = Ok o.
Proof. split; [exact (follow_terminates rrs target qtype) | exact (follow_total rrs target qtype)]. Qed.

(* likewise the second loop over the same map (the `while let` in
   validate_nameserver_response that collects the CNAME records of the path): the
   model's fuel is never what ends it -- more fuel gives the same list *)
Theorem C06_path_fuel_suffices answers qname qt f m k :
  follow_cnames answers qname qt = Ok (Some (f, m)) ->
  path_cnames (S (length m) + k) answers m f qname = path_cnames (S (length m)) answers m f qname.
Proof. exact (path_fuel_suffices answers qname qt f m k). Qed.

(* the filter is total: no panic, no error, no fuel exhaustion, for every reply *)
Theorem C06_never_panics q resp mc :
  (exists o, validate_nameserver_response q resp mc = Ok o) /\
  (forall rrs target rtype, exists o, get_ip rrs target rtype = Ok o).
Proof. split; [exact (never_panics q resp mc) | exact get_ip_total]. Qed.

(* coverage note, as a theorem: inside the answer branch the arms "every RR is
   unknown -> None" and "no RRs for the query -> None" (the tracing::warn!("expected
   RRs") line) can never be taken -- whenever follow_cnames finds a name, the
   branch produces an Answer or a CNAME result.  No generator can hit those arms. *)
Theorem C06_answer_branch_live q resp mc f m :
  follow_cnames (m_answers resp) (q_name q) (q_type q) = Ok (Some (f, m)) ->
  exists r, validate_nameserver_response q resp mc = Ok (Some r).
Proof. exact (validate_answer_live q resp mc f m). Qed.

(* every record the filter lets through is allowed *)
Theorem C06_filter_sound q resp mc r :
  validate_nameserver_response q resp mc = Ok (Some r) ->
  Forall (allowed q mc resp) (result_rrs r) /\
  match r with
  | NRAnswer rrs None => Forall (allowed_answer q resp) rrs
  | NRAnswer rrs (Some s) => rrs = [] /\ allowed_soa q mc resp s
  | NRCname rrs _ => Forall (allowed_answer q resp) rrs
  | NRDelegation rrs _ => Forall (fun x => allowed_ns q mc resp x \/ allowed_glue q mc resp x) rrs
  end.
Proof. intro H. split; [exact (filter_sound _ _ _ _ H) | exact (filter_sound_strong _ _ _ _ H)]. Qed.

(* an accepted answer is the CNAME chain from the question name, in order, then
   records at the final name *)
Theorem C06_filter_chain_ok q resp mc r :
  validate_nameserver_response q resp mc = Ok (Some r) ->
  match r with
  | NRAnswer rrs None =>
    exists cn fin last, rrs = cn ++ fin /\ fin <> [] /\ vchain_ok (q_name q) (q_type q) cn fin last
  | NRAnswer rrs (Some _) => rrs = []
  | NRCname rrs c => rrs <> [] /\ vchain_ok (q_name q) (q_type q) rrs [] c
  | NRDelegation _ _ => True
  end.
Proof. exact (filter_chain_ok q resp mc r). Qed.

(* each referral is strictly closer to the question name (C07 uses this) *)
Theorem C06_delegation_progress q resp mc rrs d :
  validate_nameserver_response q resp mc = Ok (Some (NRDelegation rrs d)) ->
  mc < ns_match_count d /\ is_subdomain_of (q_name q) (ns_name d) = true /\
  ancestor_or_self (ns_name d) (q_name q).
Proof. exact (delegation_progress q resp mc rrs d). Qed.

Theorem C06_delegation_hostnames_named q resp mc rrs d :
  validate_nameserver_response q resp mc = Ok (Some (NRDelegation rrs d)) ->
  (forall h, In h (ns_hostnames d) -> exists r, allowed_ns q mc resp r /\ ns_rr r h) /\
  (Forall (fun r => wf_name (rr_name r)) (m_answers resp ++ m_authority resp) ->
   forall h, In h (ns_hostnames d) -> exists r, In r rrs /\ ns_rr r h /\ rr_name r = ns_name d).
Proof.
  intro H. split; [exact (delegation_hostnames_named_weak _ _ _ _ _ H)|].
  intro Hwf. exact (delegation_hostnames_named _ _ _ _ _ Hwf H).
Qed.

(* "Guaranteed to be non-empty" (util/types.rs, Nameservers::hostnames) *)
Theorem C06_delegation_hostnames_nonempty q resp mc rrs d :
  validate_nameserver_response q resp mc = Ok (Some (NRDelegation rrs d)) -> ns_hostnames d <> [].
Proof. exact (delegation_hostnames_nonempty q resp mc rrs d). Qed.

(* a reply is used iff id, QR, opcode and question match, TC is clear and the rcode
   is NoError or NameError *)
Theorem C06_header_gate request response :
  response_matches_request request response = true <-> gate_ok request response.
Proof. exact (header_gate request response). Qed.

(* whatever the peer sends over UDP and TCP, query_nameserver returns only a reply
   that passed the gate against its own request *)
Theorem C06_gate_sound id q rd t r :
  query_nameserver id q rd t = Ok (Some r) ->
  gate_ok (request_of id q rd) r /\
  h_id (m_header r) = id /\ h_opcode (m_header r) = OPCODE_Standard /\ m_questions r = [q].
Proof. exact (gate_sound id q rd t r). Qed.

Theorem C06_soa_sound q resp mc r :
  get_nxdomain_nodata_soa q resp mc = Some r -> allowed_soa q mc resp r.
Proof. exact (soa_sound q resp mc r). Qed.

(* for a concrete asked type the chain predicate is the one of C10 *)
Theorem C06_vchain_chain_ok qname qt cn fin last :
  qt <> QT_Wildcard -> vchain_ok qname qt cn fin last -> chain_ok qname qt (cn ++ fin).
Proof. exact (vchain_chain_ok qname qt cn fin last). Qed.

Definition nm (ls : list label) : dname :=
  {| labels := ls ++ [[]]; nlen := fold_right (fun l a => 1 + llen l + a) 1 ls |}.
Definition www := nm [[119;119;119]; [101;120]; [99;111;109]].        (* www.ex.com. *)
Definition zone := nm [[101;120]; [99;111;109]].                        (* ex.com. *)
Definition target := nm [[116]; [110;101;116]].                         (* t.net. *)
Definition other := nm [[111]; [111;114;103]].                          (* o.org. *)
Definition xname := nm [[120]; [111;114;103]].                          (* x.org. *)
Definition foreign := nm [[102]; [101;120]].                            (* f.ex. *)
Definition ns1 := nm [[110;115;49]; [101;120]; [99;111;109]].           (* ns1.ex.com. *)
Definition mk (n : dname) (t : N) (d : rdata) : rr :=
  {| rr_name := n; rr_type := t; rr_class := RC_IN; rr_ttl := 300; rr_data := d |}.
Definition qa : question := {| q_name := www; q_type := RT_A; q_class := RC_IN |}.
Definition reply (rcode : N) (an au ad : list rr) : message :=
  {| m_header := {| h_id := 4660; h_qr := true; h_opcode := OPCODE_Standard; h_aa := false; h_tc := false;
                    h_rd := false; h_ra := true; h_rcode := rcode |};
     m_questions := [qa]; m_answers := an; m_authority := au; m_additional := ad |}.

(* an answer out of chain order comes back in chain order (as in /repo 4fb31f1) *)
Example C06_ex_reordered :
  validate_nameserver_response qa
    (reply RCODE_NoError [mk target RT_A (RD_A 16909060); mk www RT_CNAME (RD_Name target)] [] []) 2
  = Ok (Some (NRAnswer [mk www RT_CNAME (RD_Name target); mk target RT_A (RD_A 16909060)] None)).
Proof. vm_compute. reflexivity. Qed.

(* an off-path CNAME is not accepted *)
Example C06_ex_off_path :
  validate_nameserver_response qa
    (reply RCODE_NoError [mk www RT_CNAME (RD_Name target); mk other RT_CNAME (RD_Name xname);
                          mk target RT_A (RD_A 16909060)] [] []) 2
  = Ok (Some (NRAnswer [mk www RT_CNAME (RD_Name target); mk target RT_A (RD_A 16909060)] None)).
Proof. vm_compute. reflexivity. Qed.

(* a delegation keeps only NS records owned by the delegated name (as in /repo eed2feb) *)
Example C06_ex_foreign_ns :
  validate_nameserver_response qa
    (reply RCODE_NoError [] [mk zone RT_NS (RD_Name ns1); mk foreign RT_NS (RD_Name ns1)]
           [mk ns1 RT_A (RD_A 167772161)]) 2
  = Ok (Some (NRDelegation [mk zone RT_NS (RD_Name ns1); mk ns1 RT_A (RD_A 167772161)]
                           {| ns_hostnames := [ns1]; ns_name := zone |})).
Proof. vm_compute. reflexivity. Qed.

(* a question for the CNAME record itself is answered by that record, not by a CNAME result to be
   chased (as in /repo cbd301d) *)
Example C06_ex_cname_question :
  validate_nameserver_response {| q_name := www; q_type := RT_CNAME; q_class := RC_IN |}
    (reply RCODE_NoError [mk www RT_CNAME (RD_Name target); mk target RT_CNAME (RD_Name other)] [] []) 2
  = Ok (Some (NRAnswer [mk www RT_CNAME (RD_Name target)] None)).
Proof. vm_compute. reflexivity. Qed.

(* a CNAME loop is no answer *)
Example C06_ex_loop :
  validate_nameserver_response qa
    (reply RCODE_NoError [mk www RT_CNAME (RD_Name target); mk target RT_CNAME (RD_Name www)] [] []) 2
  = Ok None.
Proof. vm_compute. reflexivity. Qed.

(* NXDOMAIN with its SOA *)
Example C06_ex_nxdomain :
  validate_nameserver_response qa
    (reply RCODE_NameError [] [mk zone RT_SOA (RD_SOA ns1 ns1 1 2 3 4 5)] []) 3
  = Ok (Some (NRAnswer [] (Some (mk zone RT_SOA (RD_SOA ns1 ns1 1 2 3 4 5))))).
Proof. vm_compute. reflexivity. Qed.

(* the names used are well formed, so the hypothesis of C06_delegation_hostnames_named can be met *)
Example C06_ex_wf : Forall (fun r => wf_name (rr_name r)) [mk zone RT_NS (RD_Name ns1); mk foreign RT_NS (RD_Name ns1)].
Proof.
  repeat constructor; cbn [mk rr_name].
  - exists [[101;120]; [99;111;109]]. split; [reflexivity|]. split; [|vm_compute; discriminate].
    repeat constructor; try discriminate; vm_compute; try discriminate; repeat constructor; try discriminate; reflexivity.
  - exists [[102]; [101;120]]. split; [reflexivity|]. split; [|vm_compute; discriminate].
    repeat constructor; try discriminate; vm_compute; try discriminate; repeat constructor; try discriminate; reflexivity.
Qed.

(* the gate: a matching reply passes, a reply with another id does not *)
Example C06_ex_gate :
  response_matches_request (from_question 4660 qa) (reply RCODE_NoError [mk www RT_A (RD_A 1)] [] []) = true /\
  response_matches_request (from_question 4661 qa) (reply RCODE_NoError [mk www RT_A (RD_A 1)] [] []) = false /\
  response_matches_request (from_question 4660 qa) (reply RCODE_ServerFailure [] [] []) = false.
Proof. vm_compute. auto. Qed.

Print Assumptions C06_follow_terminates.
Print Assumptions C06_path_fuel_suffices.
Print Assumptions C06_never_panics.
Print Assumptions C06_answer_branch_live.
Print Assumptions C06_filter_sound.
Print Assumptions C06_filter_chain_ok.
Print Assumptions C06_delegation_progress.
Print Assumptions C06_delegation_hostnames_named.
Print Assumptions C06_delegation_hostnames_nonempty.
Print Assumptions C06_header_gate.
Print Assumptions C06_gate_sound.
Print Assumptions C06_soa_sound.
Print Assumptions C06_vchain_chain_ok.

From RV Require Import Zone.ZoneModel Resolver.TransportModel Resolver.RecursiveModel Resolver.RecursiveProofs.

(* only_validated_is_cached.  In the recursive model the cache is changed by nothing but
   `insert_all` of a PREFIX ([firstn i]) of the records ([nr_rrs]: the RRs of the Answer / CNAME /
   Delegation variant) of a result of validate_nameserver_response: all of them, unless
   cut_at_local_authority cuts the answer before the first record whose owner an authoritative local
   zone owns -- then the records before it.  Said without instrumenting the model: the cache is an
   arbitrary type, and EVERY property of caches that such inserts preserve is preserved by a whole
   resolution -- for every oracle, zone set, mode and fuel.  (Instantiating the cache with one that
   records the arguments of insert_all gives the literal statement.)  With C06_filter_sound every
   record so inserted is [allowed]; that every record of the RESULT is local data or such a record
   is C08_answer_provenance_recursive. *)
Theorem C06_only_validated_is_cached :
  forall (cache : Type) (cache_get : cache -> dname -> N -> list rr) (cache_insert_all : cache -> list rr -> cache)
         (sort_names : list dname -> list dname) (zs : zones) (o : oracle) (pmode : protocol_mode) (port : N)
         (P : cache -> Prop),
  (forall c q resp mc nr i, P c -> validate_nameserver_response q resp mc = Ok (Some nr) ->
                            P (cache_insert_all c (firstn i (nr_rrs nr)))) ->
  forall fuel q st, P (fst st) ->
  P (fst (snd (resolve_recursive cache cache_get cache_insert_all sort_names zs o pmode port fuel q st))).
Proof. intros until P. intros HP fuel q st H. unfold resolve_recursive. rewrite finish_snd. apply rrn_only_validated_cached; assumption. Qed.
Print Assumptions C06_only_validated_is_cached.

(* the literal reading, on a cache that remembers what was inserted: every argument of insert_all
   during a resolution is a prefix of [nr_rrs] of a validated reply (so every record inserted is
   a record of a validated reply: C06_only_validated_records_cached below) *)
Theorem C06_only_validated_is_cached_recorded :
  forall (cache : Type) (cache_get : cache -> dname -> N -> list rr) (cache_insert_all : cache -> list rr -> cache)
         (sort_names : list dname -> list dname) (zs : zones) (o : oracle) (pmode : protocol_mode) (port : N)
         fuel q (c : cache) ts,
  let get' (c : cache * list (list rr)) := cache_get (fst c) in
  let ins' (c : cache * list (list rr)) rrs := (cache_insert_all (fst c) rrs, snd c ++ [rrs]) in
  Forall (fun rrs => exists q' resp mc nr i, validate_nameserver_response q' resp mc = Ok (Some nr) /\ rrs = firstn i (nr_rrs nr))
         (snd (fst (snd (resolve_recursive (cache * list (list rr)) get' ins' sort_names zs o pmode port fuel q ((c, []), ts))))).
Proof.
  intros cache cache_get cache_insert_all sort_names zs o pmode port fuel q c ts get' ins'.
  apply (C06_only_validated_is_cached (cache * list (list rr)) get' ins' sort_names zs o pmode port (fun c' => Forall _ (snd c'))).
  - intros c' q' resp mc nr i H Hv. subst ins'. cbn [snd]. apply Forall_app. split; [exact H|].
    constructor; [|constructor]. exists q', resp, mc, nr, i. auto.
  - constructor.
Qed.
Print Assumptions C06_only_validated_is_cached_recorded.

(* record by record: every RR given to insert_all during a resolution is one of the records of a
   result of validate_nameserver_response (hence [allowed], C06_filter_sound) *)
Theorem C06_only_validated_records_cached :
  forall (cache : Type) (cache_get : cache -> dname -> N -> list rr) (cache_insert_all : cache -> list rr -> cache)
         (sort_names : list dname -> list dname) (zs : zones) (o : oracle) (pmode : protocol_mode) (port : N)
         fuel q (c : cache) ts,
  let get' (c : cache * list (list rr)) := cache_get (fst c) in
  let ins' (c : cache * list (list rr)) rrs := (cache_insert_all (fst c) rrs, snd c ++ [rrs]) in
  forall rrs r,
    In rrs (snd (fst (snd (resolve_recursive (cache * list (list rr)) get' ins' sort_names zs o pmode port fuel q ((c, []), ts))))) ->
    In r rrs ->
    exists q' resp mc nr, validate_nameserver_response q' resp mc = Ok (Some nr) /\ In r (nr_rrs nr).
Proof.
  intros cache cache_get cache_insert_all sort_names zs o pmode port fuel q c ts get' ins' rrs r Hin Hr.
  pose proof (C06_only_validated_is_cached_recorded cache cache_get cache_insert_all sort_names zs o pmode port fuel q c ts) as H.
  cbv zeta in H. eapply Forall_forall in H; [|exact Hin].
  destruct H as (q' & resp & mc & nr & i & Hv & ->). exists q', resp, mc, nr. split; [exact Hv|].
  eapply firstn_incl, Hr.
Qed.
Print Assumptions C06_only_validated_records_cached.
