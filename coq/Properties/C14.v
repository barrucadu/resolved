(* Properties/C14.v -- property theorems for C14 (hosts files).

   Model: Hosts/HostsModel.v (parse_line, deserialise, serialise, merge, Hosts <-> Zone),
   Ip/IpModel.v (std's IpAddr::from_str / Display).  Specification: Hosts/HostsSpec.v
   (syntax tree of a hosts file, its rendering and its meaning). *)
From RV Require Import Base.Prelude Name.NameModel Name.NameSpec Wire.WireTypes Zone.ZoneModel
  Ip.IpModel Ip.IpProofs Hosts.HostsModel Hosts.HostsSpec Hosts.HostsProofs.
From Coq Require Import Permutation.

(* what Display prints for an IPv4 address reads back as that address ... *)
Theorem C14_ipv4_roundtrip : forall a, a < 4294967296 -> parse_v4 (show_v4 a) = Some a.
Proof. exact ipv4_roundtrip. Qed.
Print Assumptions C14_ipv4_roundtrip.

Theorem C14_ipv4_roundtrip_ip : forall a, a < 4294967296 -> parse_ip (show_v4 a) = Some (V4 a).
Proof. exact ipv4_roundtrip_ip. Qed.
Print Assumptions C14_ipv4_roundtrip_ip.

(* ... and consists of decimal digits and dots only *)
Theorem C14_ipv4_chars : forall a, Forall (fun c => is_digit c = true \/ c = 46) (show_v4 a).
Proof. exact show_v4_chars. Qed.
Print Assumptions C14_ipv4_chars.

(* what Display prints for an IPv6 address (eight u16 segments) -- the first longest run of
   two or more zero segments written "::", lower-case hex without leading zeros, the
   IPv4-mapped form ::ffff:a.b.c.d with a dotted quad -- reads back as that address ... *)
Theorem C14_ipv6_roundtrip : forall g, wf_v6 g -> parse_ip (show_v6 g) = Some (V6 g).
Proof. exact ipv6_roundtrip. Qed.
Print Assumptions C14_ipv6_roundtrip.

(* ... and consists of [0-9a-f], ':' and '.' only *)
Theorem C14_ipv6_chars : forall g, wf_v6 g -> Forall addrc (show_v6 g) /\ show_v6 g <> [].
Proof. exact show_v6_chars. Qed.
Print Assumptions C14_ipv6_chars.

(* Every file described by a syntax tree whose lines are valid -- blank lines, comments,
   lines with an interface suffix on the address, and mapping lines
       ws* address (ws+ name)* ws* [# comment]
   with arbitrary ASCII white space, a well-formed address if any name follows it (an
   address-only line is valid whatever its field is: the reader ignores "zzz ", "zzz #c" like
   "zzz" and "zzz#c"), and well-formed names -- reads as its meaning: each mapping line maps
   its address to every name after it (relative to the root, lower case), '#' anywhere starts
   a comment, blank / comment / address-only lines and lines with an interface suffix
   contribute nothing, a later line replaces an earlier one per (name, family).
   [agrees h d]: the maps of h, looked up at any name, give what the functions d give;
   [nodup_keys]: the maps have one entry per name. *)
Theorem C14_hosts_parse_denotes : forall f : file,
  Forall (fun le => valid_line (fst le)) f ->
  exists h, deserialise (render f) = Ok h /\ agrees h (denote f) /\ nodup_keys h.
Proof. exact hosts_parse_denotes. Qed.
Print Assumptions C14_hosts_parse_denotes.

(* the same when the last line has no terminator (e.g. the whole file is "1.2.3.4 foo#c") *)
Theorem C14_hosts_parse_denotes_open : forall (f : file) (last : line),
  Forall (fun le => valid_line (fst le)) f -> valid_line last ->
  exists h, deserialise (render_open f last) = Ok h /\ agrees h (denote (f ++ [(last, LF)])) /\ nodup_keys h.
Proof. exact hosts_parse_denotes_open. Qed.
Print Assumptions C14_hosts_parse_denotes_open.

(* one valid line, as parse_line sees it *)
Theorem C14_parse_valid_line : forall l, wf_shape l -> line_contrib l <> CBad ->
  parse_line (render_line l) = Ok (contrib_result (line_contrib l)).
Proof. exact parse_valid_line. Qed.
Print Assumptions C14_parse_valid_line.

(* a line that maps no names is ignored whatever its address field is (well-formed or not,
   white space / a comment after it or not): parse_line of hosts/deserialise.rs remembers a
   malformed address and reports it only when a name follows *)
Theorem C14_address_only_ignored : forall m, wf_mline m -> m_names m = [] ->
  parse_line (render_line (Map m)) = Ok None.
Proof. exact address_only_ignored. Qed.
Print Assumptions C14_address_only_ignored.

(* e.g. "zzz \n1.2.3.4 foo" reads as the one mapping foo -> 1.2.3.4 *)
Theorem C14_address_only_witness :
  deserialise [122;122;122;32;10; 49;46;50;46;51;46;52;32;102;111;111]
  = Ok {| h_v4 := [(ex_foo, 16909060)]; h_v6 := [] |}.
Proof. exact ex_bad_address_only_ignored. Qed.
Print Assumptions C14_address_only_witness.

(* the first line that maps at least one name but has a malformed address is an error,
   whatever the names are (the address error wins over a name error on the same line) ... *)
Theorem C14_hosts_errors_address : forall f m e rest p names,
  Forall (fun le => valid_line (fst le)) f -> wf_line (Map m) -> Forall (fun le => wf_line (fst le)) rest ->
  m_names m = p :: names -> parse_ip (m_addr m) = None ->
  deserialise (render (f ++ (Map m, e) :: rest)) = Err (CouldNotParseAddress (m_addr m)).
Proof. exact hosts_errors_address. Qed.
Print Assumptions C14_hosts_errors_address.

(* ... and so is the first line with a well-formed address and a malformed name *)
Theorem C14_hosts_errors_name : forall f m e rest a good ws bad more dn,
  Forall (fun le => valid_line (fst le)) f -> wf_line (Map m) -> Forall (fun le => wf_line (fst le)) rest ->
  m_names m = good ++ (ws, bad) :: more -> parse_ip (m_addr m) = Some a ->
  all_some (map (fun p => abs_name (snd p)) good) = Some dn -> abs_name bad = None ->
  deserialise (render (f ++ (Map m, e) :: rest)) = Err (CouldNotParseName bad).
Proof. exact hosts_errors_name. Qed.
Print Assumptions C14_hosts_errors_name.

(* for every text whatsoever the reader returns Ok or Err: no slice of parse_line is
   taken off a character boundary or out of range (C17's parse_hosts_total) *)
Theorem C14_parse_hosts_total : forall data : list N,
  deserialise data <> Panic /\ deserialise data <> OutOfFuel.
Proof. exact parse_hosts_total. Qed.
Print Assumptions C14_parse_hosts_total.

(* hosts data with unique keys, well-formed text-safe names (label octets ASCII other than
   white space, '#', '.'), IPv4 addresses below 2^32 and IPv6 addresses of eight u16 segments
   is written as text that reads back as the same mappings *)
Theorem C14_hosts_roundtrip : forall h, text_safe_wf h ->
  exists h', deserialise (serialise h) = Ok h'
             /\ (forall k, alookup dname_eqb k (h_v4 h') = alookup dname_eqb k (h_v4 h)
                           /\ alookup dname_eqb k (h_v6 h') = alookup dname_eqb k (h_v6 h))
             /\ nodup_keys h'.
Proof. exact hosts_roundtrip_wf. Qed.
Print Assumptions C14_hosts_roundtrip.

(* Zone::from(hosts): one A record per IPv4 mapping, one AAAA record per IPv6 mapping,
   TTL 5, nothing else; root apex, no SOA, no wildcard records.  [zone_pairs z] = all
   (owner, record) pairs of z.all_records() *)
Theorem C14_hosts_zone_exact : forall h, wf_hosts h ->
  exists z, hosts_to_zone h = Ok z
            /\ z_apex z = root_domain /\ z_soa z = None /\ zone_all_wildcard_records z = []
            /\ Permutation (zone_pairs z) (map rec_v4 (h_v4 h) ++ map rec_v6 (h_v6 h)).
Proof. exact hosts_zone_exact. Qed.
Print Assumptions C14_hosts_zone_exact.

(* TryFrom<Zone> and from_zone_lossy give back the same hosts data (the same entries; the
   order of a HashMap's entries is not observable) *)
Theorem C14_hosts_zone_back : forall h, wf_hosts h ->
  exists z h', hosts_to_zone h = Ok z
               /\ hosts_try_from z = Ok h' /\ from_zone_lossy z = Ok h'
               /\ Permutation (h_v4 h') (h_v4 h) /\ Permutation (h_v6 h') (h_v6 h).
Proof. exact hosts_zone_back. Qed.
Print Assumptions C14_hosts_zone_back.

(* ... and every mapped name resolves in that zone to exactly its address: a single A
   record (class IN, TTL 5) for an IPv4 mapping, a single AAAA record for an IPv6 mapping *)
Theorem C14_hosts_zone_resolves : forall h, wf_hosts h ->
  exists z, hosts_to_zone h = Ok z
            /\ (forall n a, In (n, a) (h_v4 h) -> zone_resolve z n RT_A = Some (Ok (ZAnswer [rr_v4 n a])))
            /\ (forall n a, In (n, a) (h_v6 h) -> zone_resolve z n RT_AAAA = Some (Ok (ZAnswer [rr_v6 n a]))).
Proof. exact hosts_zone_resolves. Qed.
Print Assumptions C14_hosts_zone_resolves.

(* the hypotheses are satisfiable *)
Example C14_example_hosts : wf_hosts ex_hosts /\ text_safe_wf ex_hosts.
Proof. split; [exact ex_hosts_wf|exact ex_hosts_text_safe_wf]. Qed.
Example C14_example_file : Forall (fun le => valid_line (fst le)) ex_file.
Proof. exact ex_file_valid. Qed.
