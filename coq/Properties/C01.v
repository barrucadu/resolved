(* Properties/C01.v -- property theorems for C01 (local zone and hosts data always win).
   First local::resolve_local and dns_resolver::resolve in authoritative-only mode (zones + cache;
   theorems with a network-mode sibling carry the suffix [_local]), then the recursive and the
   forwarding resolver, whose models call [resolve_local], then the cut of an upstream alias chain
   at a locally authoritative name.  The lemmas are in Resolver/LocalProofs.v, CutFacts.v,
   RecursiveProofs.v and ForwardingProofs.v; the server's rcode mapping is C09's.

   Reading guide.  [owned_by zs n z]: [z] is the zone Zones::get picks for [n] (the longest
   configured apex enclosing it), it has a SOA, and [n] is not at/beneath one of its delegation
   points.  [guards_pass stack q]: the question passes the two guards every call starts with
   (recursion limit, duplicate question); [guards_pass [] q] always holds.  What a single zone
   answers for a name ([zones_resolve] = Zones::get + Zone::resolve) is C02's subject; the
   theorems here say what resolve_local makes of it. *)
From RV Require Import Base.Prelude Name.NameModel Name.NameSpec Wire.WireTypes Zone.ZoneModel
     Resolver.LocalModel Resolver.LocalSpec Resolver.LocalProofs.

(* An owned name is answered by its zone alone: exactly the zone's RRs with the zone's SOA,
   marked authoritative; or a name error with the zone's SOA; or, when the zone holds an alias for
   the name, a reply that starts with the zone's CNAME RR and continues with the resolution of the
   target (deviation D2: the reply is authoritative iff the whole chain is).  Never a referral,
   never anything from the cache (the right-hand sides do not mention [cget] for the name). *)
Theorem C01_auth_zone_alone_local : forall zs cget f stack q z,
  owned_by zs (q_name q) z -> guards_pass stack q ->
  exists soa_rr, zone_soa_rr z = Some soa_rr /\
  exists r, zones_resolve zs (q_name q) (q_type q) = Some (z, r) /\
  match r with
  | Ok (ZAnswer rrs) => resolve_local zs cget (S f) stack q = Ok (LDone (Authoritative rrs soa_rr))
  | Ok ZNameError => resolve_local zs cget (S f) stack q = Ok (LDone (AuthoritativeNameError soa_rr))
  | Ok (ZCname c cr) =>
    resolve_local zs cget (S f) stack q =
    zcombine cr (subq q c) (resolve_local zs cget f (stack ++ [q]) (subq q c))
  | Ok (ZDelegation _) => False
  | Panic => resolve_local zs cget (S f) stack q = Panic
  | _ => False
  end.
Proof. exact auth_zone_alone. Qed.
Print Assumptions C01_auth_zone_alone_local.

Theorem C01_owned_never_referral : forall zs n z qt r,
  owned_by zs n z -> zones_resolve zs n qt = Some (z, r) -> forall ns, r <> Ok (ZDelegation ns).
Proof. exact owned_no_delegation. Qed.
Print Assumptions C01_owned_never_referral.

(* Nothing cached is ever used for a name whose most specific zone is authoritative: two cache
   states that agree on all other names give the same result for every question, stack and fuel.
   (Stronger than asked: the names where the caches may differ include those beneath delegation
   points of authoritative zones.) *)
Theorem C01_cache_noninterference_local : forall zs c1 c2,
  cache_agree_outside (in_auth_zone zs) c1 c2 ->
  forall f stack q, resolve_local zs c1 f stack q = resolve_local zs c2 f stack q.
Proof. exact cache_noninterference. Qed.
Print Assumptions C01_cache_noninterference_local.

Theorem C01_cache_noninterference_owned_local : forall zs c1 c2,
  cache_agree_outside (owned_auth zs) c1 c2 ->
  forall f stack q, resolve_local zs c1 f stack q = resolve_local zs c2 f stack q.
Proof. exact cache_noninterference_owned. Qed.
Print Assumptions C01_cache_noninterference_owned_local.

(* ... nor is a less specific zone: the zone consulted for a name is the one with the longest apex
   enclosing it, and the zone phase is that zone's own lookup *)
Theorem C01_longest_zone_only : forall zs n qt z r,
  wf_name n -> zones_resolve zs n qt = Some (z, r) ->
  (exists k, In (k, z) zs /\ is_suffix (labels k) (labels n) /\
     forall k' z', In (k', z') zs -> wf_name k' -> is_suffix (labels k') (labels n) ->
                   (length (labels k') <= length (labels k))%nat)
  /\ r = match zone_resolve z n qt with Some r' => r' | None => Panic end.
Proof. exact longest_zone_only. Qed.
Print Assumptions C01_longest_zone_only.

(* A non-authoritative zone (hosts file, blocklist) holding records of the asked name and type:
   exactly those records are the reply, whatever the cache holds. *)
Theorem C01_override_exact : forall zs cget f stack q z rrs,
  guards_pass stack q ->
  zones_resolve zs (q_name q) (q_type q) = Some (z, Ok (ZAnswer rrs)) ->
  z_soa z = None -> q_type q <> QT_Wildcard -> rrs <> [] ->
  resolve_local zs cget (S f) stack q = Ok (LDone (NonAuthoritative rrs None)).
Proof. exact override_exact. Qed.
Print Assumptions C01_override_exact.

(* For QTYPE * the zone's records come first, untouched, and cached records are merged in behind
   them by [prioritising_merge], which drops every RR whose (name, type) the zone has. *)
Theorem C01_override_any : forall zs cget f stack q z rrs l,
  guards_pass stack q ->
  zones_resolve zs (q_name q) (q_type q) = Some (z, Ok (ZAnswer rrs)) ->
  z_soa z = None -> q_type q = QT_Wildcard ->
  resolve_local zs cget (S f) stack q = Ok l ->
  exists from_cache,
    l = LPartial (prioritising_merge rrs from_cache) \/
    exists cq, l = LCname (prioritising_merge rrs from_cache) cq.
Proof. exact override_any. Qed.
Print Assumptions C01_override_any.

Theorem C01_prioritising_merge_spec : forall priority new,
  prioritising_merge_spec priority new (prioritising_merge priority new).
Proof. exact prioritising_merge_meets_spec. Qed.
Print Assumptions C01_prioritising_merge_spec.

(* A name error is reported only when the authoritative zone selected for the *question name*
   returned NameError, with that zone's SOA.  In particular not through an alias: a CNAME whose
   target does not exist yields [Authoritative [cname RR] soa] (see [zcombine]).  The server's
   rcode mapping on top of this is the server subsystem's. *)
Theorem C01_nxdomain_only_from_auth_zone_local : forall zs cget f stack q s,
  resolve_local zs cget f stack q = Ok (LDone (AuthoritativeNameError s)) ->
  exists z, zones_resolve zs (q_name q) (q_type q) = Some (z, Ok ZNameError) /\ zone_soa_rr z = Some s
            /\ in_auth_zone zs (q_name q).
Proof. exact nxdomain_only_from_auth_zone. Qed.
Print Assumptions C01_nxdomain_only_from_auth_zone_local.

Theorem C01_nxdomain_resolved_local : forall zs cget q s,
  resolve_authoritative_only zs cget q = Ok (AuthoritativeNameError s) ->
  exists z, zones_resolve zs (q_name q) (q_type q) = Some (z, Ok ZNameError) /\ zone_soa_rr z = Some s
            /\ in_auth_zone zs (q_name q).
Proof. exact nxdomain_resolved. Qed.
Print Assumptions C01_nxdomain_resolved_local.

(* Totality: with LOCAL_FUEL the model never runs out of fuel (each recursive call pushes one
   question and the stack is bounded by RECURSION_LIMIT = 32), and it panics only if the zone
   model does (Zones::resolve's unwrap, from_labels(..).unwrap() on an over-long wildcard name,
   the non-CNAME-under-CNAME panic! -- C02's subject). *)
Theorem C01_no_panic_no_fuel : forall zs cget q,
  resolve_local zs cget LOCAL_FUEL [] q <> OutOfFuel /\
  (resolve_local zs cget LOCAL_FUEL [] q = Panic -> zone_panics zs).
Proof. intros zs cget q. split; [apply no_fuel|apply resolve_local_panic]. Qed.
Print Assumptions C01_no_panic_no_fuel.

Theorem C01_authoritative_only_total : forall zs cget q,
  resolve_authoritative_only zs cget q <> OutOfFuel /\
  (resolve_authoritative_only zs cget q = Panic -> zone_panics zs).
Proof. exact authoritative_only_total. Qed.
Print Assumptions C01_authoritative_only_total.

(* the hypotheses are satisfiable: a worked configuration (LocalProofs.LocalExample) *)
Example C01_example_owned : owned_by LocalExample.ex_zones LocalExample.n_wec LocalExample.z_ec.
Proof. exact LocalExample.ex_owned. Qed.
Example C01_example_caches_differ_only_at_owned_name :
  cache_agree_outside (in_auth_zone LocalExample.ex_zones) LocalExample.ex_cget LocalExample.ex_cget'
  /\ LocalExample.ex_cget LocalExample.n_wec RT_A <> LocalExample.ex_cget' LocalExample.n_wec RT_A.
Proof. split; [exact LocalExample.ex_agree|exact LocalExample.ex_differ]. Qed.

(* the recursive and the forwarding resolver *)
From RV Require Import Resolver.TransportModel Resolver.RecursiveModel Resolver.ForwardingModel
     Resolver.RecursiveProofs Resolver.ForwardingProofs.

(* done_means_no_upstream: a question that local resolution answers ([LDone]: an authoritative
   zone's answer or name error, an override from a hosts file / non-authoritative zone, a complete
   answer from zones + cache) is returned as it is by both network modes, and NOTHING else happens:
   the state -- cache, clock, exchange log, exchange counter -- is unchanged.  Every oracle. *)
Theorem C01_done_means_no_upstream_recursive :
  forall (cache : Type) (cache_get : cache -> dname -> N -> list rr) (cache_insert_all : cache -> list rr -> cache)
         (sort_names : list dname -> list dname) (zs : zones) (o : oracle) (pmode : protocol_mode) (port : N) fuel q st r,
  resolve_local zs (cache_get (fst st)) LOCAL_FUEL [] q = Ok (LDone r) ->
  resolve_recursive cache cache_get cache_insert_all sort_names zs o pmode port (S fuel) q st = (Ok r, st).
Proof.
  intros until r. intro Hl. unfold resolve_recursive.
  rewrite (rrn_done_no_upstream _ _ _ _ _ _ _ _ fuel [] q st r); [reflexivity|reflexivity|reflexivity|exact Hl].
Qed.
Print Assumptions C01_done_means_no_upstream_recursive.

Theorem C01_done_means_no_upstream_forwarding :
  forall (cache : Type) (cache_get : cache -> dname -> N -> list rr) (cache_insert_all : cache -> list rr -> cache)
         (zs : zones) (o : oracle) (forwarder : addr) fuel q st r,
  resolve_local zs (cache_get (fst st)) LOCAL_FUEL [] q = Ok (LDone r) ->
  resolve_forwarding cache cache_get cache_insert_all zs o forwarder (S fuel) q st = (Ok r, st).
Proof.
  intros until r. intro Hl. unfold resolve_forwarding.
  rewrite (rfn_done_no_upstream _ _ _ _ _ _ fuel [] q st r); [reflexivity|reflexivity|reflexivity|exact Hl].
Qed.
Print Assumptions C01_done_means_no_upstream_forwarding.

(* log_names_not_owned: no question sent upstream during a resolution -- for the question
   itself, for an alias target, for the address of a nameserver host -- is about a name that an
   authoritative zone owns ([owned_auth], Resolver/LocalSpec.v).  An alias leaving the zone sends
   the resolver upstream for the TARGET; a name beneath a delegation point of an authoritative
   zone is not owned by definition.  Every oracle, cache, fuel.  (QTYPE * on an owned alias is
   answered by the zone with the CNAME record itself, and for every other type local resolution of
   an owned name is Done or an alias to follow: C01_owned_local_cases.) *)
Theorem C01_log_names_not_owned_recursive :
  forall (cache : Type) (cache_get : cache -> dname -> N -> list rr) (cache_insert_all : cache -> list rr -> cache)
         (sort_names : list dname -> list dname) (zs : zones) (o : oracle) (pmode : protocol_mode) (port : N) fuel q st,
  exists new,
    ts_rlog (snd (snd (resolve_recursive cache cache_get cache_insert_all sort_names zs o pmode port fuel q st)))
    = new ++ ts_rlog (snd st)
    /\ Forall (fun e => ~ owned_auth zs (q_name (x_question e))) new.
Proof.
  intros. unfold resolve_recursive. rewrite finish_snd. destruct (rrn_port_fixed cache cache_get cache_insert_all sort_names zs o pmode port fuel [] q st) as [new [E F]].
  exists new. split; [exact E|]. eapply Forall_impl; [|exact F]. intros e (_ & h & _). exact h.
Qed.
Print Assumptions C01_log_names_not_owned_recursive.

Theorem C01_log_names_not_owned_forwarding :
  forall (cache : Type) (cache_get : cache -> dname -> N -> list rr) (cache_insert_all : cache -> list rr -> cache)
         (zs : zones) (o : oracle) (forwarder : addr) fuel q st,
  exists new,
    ts_rlog (snd (snd (resolve_forwarding cache cache_get cache_insert_all zs o forwarder fuel q st)))
    = new ++ ts_rlog (snd st)
    /\ Forall (fun e => ~ owned_auth zs (q_name (x_question e))) new.
Proof. intros. unfold resolve_forwarding. rewrite finish_snd. apply rfn_log_names_not_owned. Qed.
Print Assumptions C01_log_names_not_owned_forwarding.

(* what local resolution makes of a question about an owned name (the fact behind log_names_not_owned) *)
Theorem C01_owned_local_cases : forall zs cget f stack q,
  owned_auth zs (q_name q) -> guards_pass stack q ->
  (exists r, resolve_local zs cget (S f) stack q = Ok (LDone r))
  \/ (exists rrs cq, resolve_local zs cget (S f) stack q = Ok (LCname rrs cq))
  \/ resolve_local zs cget (S f) stack q = Panic \/ resolve_local zs cget (S f) stack q = OutOfFuel.
Proof. exact owned_local_cases. Qed.
Print Assumptions C01_owned_local_cases.

(* nxdomain_only_from_auth_zone in the network modes: the resolvers return
   AuthoritativeNameError only when local resolution did (then C01_nxdomain_only_from_auth_zone_local
   applies: an authoritative zone returned NameError for the question name), and nothing was sent.
   Whatever an upstream server says comes back as NonAuthoritative -- a name error it reports is an
   empty answer with its SOA. *)
Theorem C01_nxdomain_only_from_auth_zone_recursive :
  forall (cache : Type) (cache_get : cache -> dname -> N -> list rr) (cache_insert_all : cache -> list rr -> cache)
         (sort_names : list dname -> list dname) (zs : zones) (o : oracle) (pmode : protocol_mode) (port : N) fuel q st s st',
  resolve_recursive cache cache_get cache_insert_all sort_names zs o pmode port fuel q st = (Ok (AuthoritativeNameError s), st') ->
  resolve_local zs (cache_get (fst st)) LOCAL_FUEL [] q = Ok (LDone (AuthoritativeNameError s)) /\ st' = st.
Proof. intros until st'. intro H. apply finish_ok in H. eapply rrn_nxdomain_only_local, H. Qed.
Print Assumptions C01_nxdomain_only_from_auth_zone_recursive.

Theorem C01_nxdomain_only_from_auth_zone_forwarding :
  forall (cache : Type) (cache_get : cache -> dname -> N -> list rr) (cache_insert_all : cache -> list rr -> cache)
         (zs : zones) (o : oracle) (forwarder : addr) fuel q st s st',
  resolve_forwarding cache cache_get cache_insert_all zs o forwarder fuel q st = (Ok (AuthoritativeNameError s), st') ->
  resolve_local zs (cache_get (fst st)) LOCAL_FUEL [] q = Ok (LDone (AuthoritativeNameError s)) /\ st' = st.
Proof. intros until st'. intro H. apply finish_ok in H. eapply rfn_nxdomain_only_local, H. Qed.
Print Assumptions C01_nxdomain_only_from_auth_zone_forwarding.

(* the hypothesis of done_means_no_upstream is met by the worked configuration LocalExample: the owned name
   w.e.c. is answered locally, so the network modes return that answer with an untouched state *)
Example C01_example_done_no_upstream : forall (o : oracle) pmode port fuel ts,
  exists r,
    resolve_recursive scache sc_get sc_insert_all sort_names_ord LocalExample.ex_zones o pmode port (S fuel)
                      (LocalExample.qa LocalExample.n_wec) (sc_empty, ts) = (Ok r, (sc_empty, ts)).
Proof.
  intros o pmode port fuel ts.
  destruct (resolve_local LocalExample.ex_zones (sc_get sc_empty) LOCAL_FUEL [] (LocalExample.qa LocalExample.n_wec)) as [[r| | |]| | |] eqn:E;
    try (vm_compute in E; discriminate).
  exists r. apply C01_done_means_no_upstream_recursive. exact E.
Qed.

(* an upstream alias chain that leads into a locally authoritative name is cut there
   (cut_at_local_authority, as in /repo b2bc3c2; lemmas: Resolver/CutFacts.v) *)
From RV Require Import Wire.WireModel Resolver.ValidateModel Resolver.Universe.

(* cut_at_local_authority, against the specification: it never panics, and
   - leaves the response as it is when it is a Delegation, or when every record of the Answer / CNAME
     response is owned by the question name or by a name no authoritative local zone encloses
     ([in_auth_zone]: the longest configured apex enclosing the name has a SOA);
   - otherwise makes it the CNAME response holding exactly the records BEFORE the first record [r]
     whose owner is another name inside an authoritative local zone, to be continued at that owner:
     the rest of the chain is resolved by the resolver itself -- for an owned name, by the zone
     (C01_auth_zone_alone_local), without asking upstream (C01_log_names_not_owned_recursive). *)
Theorem C01_cut_sound : forall zs q nr,
  exists nr', cut_at_local_authority zs q nr = Ok nr' /\
    ((nr' = nr /\ ((exists x y, nr = NRDelegation x y)
                   \/ forall r, In r (nr_rrs nr) -> rr_name r = q_name q \/ ~ in_auth_zone zs (rr_name r)))
     \/ (exists i r, (forall x y, nr <> NRDelegation x y) /\ nth_error (nr_rrs nr) i = Some r
           /\ rr_name r <> q_name q /\ in_auth_zone zs (rr_name r)
           /\ (forall x, In x (firstn i (nr_rrs nr)) -> rr_name x = q_name q \/ ~ in_auth_zone zs (rr_name x))
           /\ nr' = NRCname (firstn i (nr_rrs nr)) (rr_name r))).
Proof.
  intros zs q nr. destruct (cut_ok zs q nr) as (nr' & E & Hs). exists nr'. split; [exact E|].
  destruct Hs as [H|i r Hnd Hn Ho Hf].
  - left. split; [reflexivity|]. destruct H as [Hd|Hn]; [left; exact Hd|right].
    intros r Hr. apply owned_elsewhere_false_spec, Hn, Hr.
  - right. exists i, r. split; [exact Hnd|]. split; [exact Hn|].
    destruct (owned_elsewhere_true_spec _ _ _ Ho) as [H1 H2]. split; [exact H1|]. split; [exact H2|].
    split; [|reflexivity]. intros x Hx. apply owned_elsewhere_false_spec, Hf, Hx.
Qed.
Print Assumptions C01_cut_sound.

(* recursive mode, one upstream reply: resolve_with_nameserver_response caches and merges the
   response AFTER the cut -- so of an Answer / CNAME reply only records owned by the question name
   or by a name outside every authoritative local zone are cached or returned from that reply; the
   rest of its chain is the result of the nested resolution that starts at the first owner cut *)
Theorem C01_upstream_chain_cut_recursive :
  forall (cache : Type) (cache_insert_all : cache -> list rr -> cache) (zs : zones)
         (rec : list question -> question -> RM cache rres) stack combined nr q,
  exists nr', cut_at_local_authority zs q nr = Ok nr'
    /\ resolve_with_nameserver_response cache cache_insert_all zs rec stack combined nr q
       = resolve_with_response_match cache cache_insert_all rec stack combined nr' q
    /\ (exists i, nr_rrs nr' = firstn i (nr_rrs nr))
    /\ ((exists x y, nr' = NRDelegation x y)
        \/ forall r, In r (nr_rrs nr') -> rr_name r = q_name q \/ ~ in_auth_zone zs (rr_name r)).
Proof.
  intros cache cache_insert_all zs rec stack combined nr q.
  destruct (rwnr_cut cache cache_insert_all zs rec stack combined nr q) as (nr' & Hs & E & Er).
  exists nr'. split; [exact E|]. split; [exact Er|]. split; [exact (cut_shape_prefix _ _ _ _ Hs)|].
  destruct nr' as [rrs s|rrs c|rrs d]; [right|right|left; eauto]; intros r Hr;
    apply owned_elsewhere_false_spec; eapply (cut_sound zs q nr); try exact E; try exact Hr; discriminate.
Qed.
Print Assumptions C01_upstream_chain_cut_recursive.

(* ... and over a WHOLE recursive resolution, on a cache that remembers what was inserted: every
   argument of insert_all is a prefix of the records of a validated reply to some question q', and
   unless that reply is a referral (NS records and glue of a delegation; the cache is never read
   for a name inside an authoritative zone: C01_cache_noninterference_local) none of the records
   inserted is owned by another name inside an authoritative local zone *)
Theorem C01_upstream_cached_not_owned_recursive :
  forall (cache : Type) (cache_get : cache -> dname -> N -> list rr) (cache_insert_all : cache -> list rr -> cache)
         (sort_names : list dname -> list dname) (zs : zones) (o : oracle) (pmode : protocol_mode) (port : N)
         fuel q (c : cache) ts,
  let get' (c : cache * list (list rr)) := cache_get (fst c) in
  let ins' (c : cache * list (list rr)) rrs := (cache_insert_all (fst c) rrs, snd c ++ [rrs]) in
  Forall (fun rrs => exists q' resp mc nr i,
            validate_nameserver_response q' resp mc = Ok (Some nr) /\ rrs = firstn i (nr_rrs nr)
            /\ ((exists x y, nr = NRDelegation x y)
                \/ forall r, In r rrs -> rr_name r = q_name q' \/ ~ in_auth_zone zs (rr_name r)))
         (snd (fst (snd (resolve_recursive (cache * list (list rr)) get' ins' sort_names zs o pmode port fuel q ((c, []), ts))))).
Proof.
  intros cache cache_get cache_insert_all sort_names zs o pmode port fuel q c ts get' ins'.
  unfold resolve_recursive. rewrite finish_snd.
  apply (rrn_cached_cut (cache * list (list rr)) get' ins' sort_names zs o pmode port (fun c' => Forall _ (snd c'))).
  - intros c' q' resp mc nr i H Hv Hcut. subst ins'. cbn [snd]. apply Forall_app. split; [exact H|].
    constructor; [|constructor]. exists q', resp, mc, nr, i. split; [exact Hv|]. split; [reflexivity|].
    destruct Hcut as [Hd|Hn]; [left; exact Hd|right]. intros r Hr. apply owned_elsewhere_false_spec, Hn, Hr.
  - constructor.
Qed.
Print Assumptions C01_upstream_cached_not_owned_recursive.

(* forwarding mode, one reply of the forwarder: either no record of its answer section is owned by
   another name inside an authoritative local zone, and the whole section is cached and
   returned; or the records BEFORE the first such record [r] are cached and returned, followed by
   what the forwarding resolver itself makes of the question for [r]'s owner (question pushed on
   the stack; an error there is DeadEnd for that question) *)
Theorem C01_upstream_chain_cut_forwarding :
  forall (cache : Type) (cache_insert_all : cache -> list rr -> cache) (zs : zones) (o : oracle) (fa : addr)
         (rec : list question -> question -> RM cache rres) stack combined q st resp ts,
  query_nameserver o fa q true (snd st) = (Val (Some resp), ts) ->
  ((forall r, In r (m_answers resp) -> rr_name r = q_name q \/ ~ in_auth_zone zs (rr_name r))
   /\ forward_query cache cache_insert_all zs o fa rec stack combined q st
      = (Val (ROk (NonAuthoritative (prioritising_merge combined (m_answers resp)) (get_nxdomain_nodata_soa q resp 0))),
         (cache_insert_all (fst st) (m_answers resp), ts)))
  \/ (exists i r, nth_error (m_answers resp) i = Some r /\ rr_name r <> q_name q /\ in_auth_zone zs (rr_name r)
        /\ (forall x, In x (firstn i (m_answers resp)) -> rr_name x = q_name q \/ ~ in_auth_zone zs (rr_name x))
        /\ forward_query cache cache_insert_all zs o fa rec stack combined q st
           = fq_nested cache rec stack combined q (firstn i (m_answers resp)) (rr_name r)
                       (cache_insert_all (fst st) (firstn i (m_answers resp)), ts)).
Proof.
  intros cache cache_insert_all zs o fa rec stack combined q st resp ts Eq.
  destruct (fq_cases cache cache_insert_all zs o fa rec stack combined q st)
    as [(resp' & ts' & Eq' & Hn & E)|[(resp' & ts' & i & r & Eq' & Hn & Ho & Hp & E)|[(ts' & Eq' & E)|(w & ts' & Eq' & E)]]];
    rewrite Eq in Eq'; inversion Eq'; subst.
  - left. split; [|exact E]. intros r Hr. apply owned_elsewhere_false_spec, Hn, Hr.
  - right. exists i, r. split; [exact Hn|]. destruct (owned_elsewhere_true_spec _ _ _ Ho) as [H1 H2].
    split; [exact H1|]. split; [exact H2|]. split; [|exact E]. intros x Hx. apply owned_elsewhere_false_spec, Hp, Hx.
Qed.
Print Assumptions C01_upstream_chain_cut_forwarding.

(* ... and over a WHOLE forwarding resolution, on a cache that remembers what was inserted: every
   argument of insert_all is a prefix of the answer section of a reply the forwarder gave to some
   question q', holding no record owned by another name inside an authoritative local zone *)
Theorem C01_upstream_cached_not_owned_forwarding :
  forall (cache : Type) (cache_get : cache -> dname -> N -> list rr) (cache_insert_all : cache -> list rr -> cache)
         (zs : zones) (o : oracle) (fa : addr) fuel q (c : cache) ts,
  let get' (c : cache * list (list rr)) := cache_get (fst c) in
  let ins' (c : cache * list (list rr)) rrs := (cache_insert_all (fst c) rrs, snd c ++ [rrs]) in
  Forall (fun rrs => exists q' ts1 resp ts2 i,
            query_nameserver o fa q' true ts1 = (Val (Some resp), ts2) /\ rrs = firstn i (m_answers resp)
            /\ forall r, In r rrs -> rr_name r = q_name q' \/ ~ in_auth_zone zs (rr_name r))
         (snd (fst (snd (resolve_forwarding (cache * list (list rr)) get' ins' zs o fa fuel q ((c, []), ts))))).
Proof.
  intros cache cache_get cache_insert_all zs o fa fuel q c ts get' ins'.
  unfold resolve_forwarding. rewrite finish_snd.
  apply (rfn_cached_cut (cache * list (list rr)) get' ins' zs o fa (fun c' => Forall _ (snd c'))).
  - intros c' q' ts1 resp ts2 i H Eq Hn. subst ins'. cbn [snd]. apply Forall_app. split; [exact H|].
    constructor; [|constructor]. exists q', ts1, resp, ts2, i. split; [exact Eq|]. split; [reflexivity|].
    intros r Hr. apply owned_elsewhere_false_spec, Hn, Hr.
  - constructor.
Qed.
Print Assumptions C01_upstream_cached_not_owned_forwarding.

(* a witness, run on the models:
   local zones: the root hints (ns. at 10.0.0.1) and the AUTHORITATIVE zone ent.example.com. with
       a.ent.example.com. A 10.2.2.1
   upstream (10.0.0.1, also taken as the forwarder) answers portal.example.com. A with
       portal.example.com. CNAME a.ent.example.com.   a.ent.example.com. A 192.0.4.9
   Neither mode returns upstream's 192.0.4.9 for the owned name: the reply is cut after the CNAME,
   only the CNAME is cached, and the answer ends in the zone's 10.2.2.1 (with the zone's SOA, which
   the nested authoritative result carries), after ONE upstream exchange. *)
Definition c01_nm (ls : list label) : dname :=
  {| labels := ls ++ [[]]; nlen := fold_right (fun l acc => 1 + llen l + acc) 1 ls |}.
Definition c01_l_example : label := [101; 120; 97; 109; 112; 108; 101].
Definition c01_l_com : label := [99; 111; 109].
Definition c01_l_ent : label := [101; 110; 116].
Definition c01_root := c01_nm [].
Definition c01_ns := c01_nm [[110; 115]].                                               (* ns. *)
Definition c01_ent := c01_nm [c01_l_ent; c01_l_example; c01_l_com].                     (* ent.example.com. *)
Definition c01_a_ent := c01_nm [[97]; c01_l_ent; c01_l_example; c01_l_com].             (* a.ent.example.com. *)
Definition c01_portal := c01_nm [[112; 111; 114; 116; 97; 108]; c01_l_example; c01_l_com].  (* portal.example.com. *)
Definition c01_rr (n : dname) (t : N) (d : rdata) : rr :=
  {| rr_name := n; rr_type := t; rr_class := RC_IN; rr_ttl := 300; rr_data := d |}.
Definition c01_ip : N := 167772161.                                                     (* 10.0.0.1 *)
Definition c01_local_ip : N := 167903745.                                               (* 10.2.2.1 *)
Definition c01_upstream_ip : N := 3221226505.                                           (* 192.0.4.9 *)
Definition c01_soa : soa :=
  {| soa_mname := c01_ns; soa_rname := c01_ns; soa_serial := 1; soa_refresh := 60; soa_retry := 60;
     soa_expire := 60; soa_minimum := 300 |}.
Definition c01_zones : zones :=
  match (let* z1 := zone_insert false (zone_new c01_root None) c01_root RT_NS (RD_Name c01_ns) 3600 in
         let* z2 := zone_insert false z1 c01_ns RT_A (RD_A c01_ip) 3600 in
         let* e := zone_insert false (zone_new c01_ent (Some c01_soa)) c01_a_ent RT_A (RD_A c01_local_ip) 300 in
         Ok (zones_insert (zones_insert [] z2) e)) with
  | Ok zs => zs
  | _ => []
  end.
Definition c01_q (n : dname) : question := {| q_name := n; q_type := RT_A; q_class := RC_IN |}.
Definition c01_msg (q : question) (an : list rr) : list byte :=
  match encode (reply_message q {| sr_answers := an; sr_authority := []; sr_additional := []; sr_aa := true;
                                   sr_rcode := RCODE_NoError |}) with
  | Ok bs => bs
  | _ => []
  end.
Definition c01_upstream_answer : list rr :=
  [c01_rr c01_portal RT_CNAME (RD_Name c01_a_ent); c01_rr c01_a_ent RT_A (RD_A c01_upstream_ip)].
Definition c01_table : table :=
  [ ((inl c01_ip, c01_q c01_portal), c01_msg (c01_q c01_portal) c01_upstream_answer) ].
Definition c01_run (mode : resolver_mode) :=
  resolve_simple mode 53 c01_zones (table_oracle c01_table []) 200%nat (c01_q c01_portal) (sc_empty, tstate_init).
Definition c01_result : resolved :=
  NonAuthoritative [c01_rr c01_portal RT_CNAME (RD_Name c01_a_ent); c01_rr c01_a_ent RT_A (RD_A c01_local_ip)]
                   (Some (soa_to_rr c01_soa c01_ent)).

Example C01_upstream_chain_cut_witness_recursive :
  fst (c01_run (ModeRecursive OnlyV4)) = Ok c01_result
  /\ sc_get (fst (snd (c01_run (ModeRecursive OnlyV4)))) c01_a_ent RT_A = []          (* upstream's A record is not cached *)
  /\ sc_get (fst (snd (c01_run (ModeRecursive OnlyV4)))) c01_portal RT_CNAME
     = [c01_rr c01_portal RT_CNAME (RD_Name c01_a_ent)]
  /\ length (ts_rlog (snd (snd (c01_run (ModeRecursive OnlyV4))))) = 1%nat
  /\ in_auth_zone c01_zones c01_a_ent.
Proof.
  repeat split; try (vm_compute; reflexivity).
  eexists. split; [vm_compute; reflexivity|]. cbn. discriminate.
Qed.
Print Assumptions C01_upstream_chain_cut_witness_recursive.

Example C01_upstream_chain_cut_witness_forwarding :
  fst (c01_run (ModeForwarding (inl c01_ip, 53))) = Ok c01_result
  /\ sc_get (fst (snd (c01_run (ModeForwarding (inl c01_ip, 53))))) c01_a_ent RT_A = []
  /\ sc_get (fst (snd (c01_run (ModeForwarding (inl c01_ip, 53))))) c01_portal RT_CNAME
     = [c01_rr c01_portal RT_CNAME (RD_Name c01_a_ent)]
  /\ length (ts_rlog (snd (snd (c01_run (ModeForwarding (inl c01_ip, 53)))))) = 1%nat.
Proof. repeat split; vm_compute; reflexivity. Qed.
Print Assumptions C01_upstream_chain_cut_witness_forwarding.
