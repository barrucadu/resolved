(* Properties/C19.v -- reload swaps the whole configuration or none of it.

   The model (Config/ConfigModel.v): the server's configuration is ONE value, [state = zones], the
   content of zones_lock.  A SIGUSR1 ([EvReload f], f = the file system as it is when the files are
   read) runs [load] -- C12's model of load_zone_configuration -- into a fresh value and assigns it
   only if it is [Some]; a query ([EvQuery q]) reads the state once and computes its whole reply
   from that value ([query], the model of resolve_and_build_response in authoritative-only mode).

   In [run] a reload and a query are single steps.  The C19_concurrent_ theorems remove that:
   Config/ConfigConcurrent.v puts reload_task and the request handlers around a reader-writer lock (Base/Locks.v) -- the handler holds the read guard over
   arbitrarily many reads of the configuration, with steps of other tasks in between; the reload
   loads without the lock and takes the write lock only to store a complete value -- and the
   statements hold for EVERY schedule.  That main.rs has critical sections of this shape is read
   from the source on every run (Base/TablesOk.zones_lock_sections_ok).
   What stays outside and is observed by the C19 stream against the real binary (vlib/p_c19.py,
   replies before / during / after every SIGUSR1, overlapping reloads): that tokio's RwLock
   provides the exclusion the model assumes, signal delivery, and that the server keeps answering
   (liveness). *)
From RV Require Import Base.Prelude Wire.WireTypes Config.ConfigModel Config.ConfigProofs.

(* If every file loads the state becomes exactly the freshly loaded configuration; if any file or
   directory is unreadable or invalid ([load] = None, characterised by C12_load_none_iff_some_file_bad)
   the previous configuration stays fully in force. *)
Theorem C19_reload_all_or_nothing : forall a st f,
  (forall z, load a f = Some z -> reload a st f = z) /\
  (load a f = None -> reload a st f = st).
Proof. intros a st f. split; [intro z; apply reload_success|apply reload_failure]. Qed.
Print Assumptions C19_reload_all_or_nothing.

(* After a successful reload nothing of the old state survives: the new state is a function of the
   files alone (removed records are gone, added ones present, because the state IS [load a f]). *)
Theorem C19_reload_forgets_old : forall a st st' f,
  load a f <> None -> reload a st f = reload a st' f.
Proof. exact reload_forgets. Qed.
Print Assumptions C19_reload_forgets_old.

(* Any interleaving of queries and reloads: every query is answered, in order, and each reply is the
   reply [query s q] of exactly one state s of the history; every state of the history is the
   initial configuration or the result of ONE successful load -- never a mixture of two. *)
Theorem C19_query_sees_one_config : forall a st evs,
  Forall2 (fun q r => exists s, In s (states a st evs) /\ r = query s q) (queries evs) (run a st evs) /\
  (forall s, In s (states a st evs) -> s = st \/ exists f, In (EvReload f) evs /\ load a f = Some s).
Proof. intros a st evs. split; [apply run_one_state|intros s; apply states_origin]. Qed.
Print Assumptions C19_query_sees_one_config.

(* the hypotheses are satisfiable: a loadable and an unloadable file system for the same arguments *)
Example C19_example : forall st,
  reload ex_args st ex_fs_bad = st /\ load ex_args ex_fs <> None /\ reload ex_args st ex_fs = reload ex_args [] ex_fs.
Proof. exact ex_reload. Qed.

(* Reload over TEXT: C19 composed with C12 / C11 / C14 (Config/ConfigText.v). *)
From RV Require Import Config.ConfigText.
From RV Require Hosts.HostsModel ZoneFile.ZoneFileModel.

(* One iteration of reload_task over the files as TEXT ([reload_text ip a st t] = reload after
   zone_from_file / hosts_from_file = read_to_string + Zone::deserialise / Hosts::deserialise on every
   file).  "Nothing" is characterised on the texts themselves: the previous state stays -- all of it --
   exactly when a directory cannot be listed, a file of the effective sequence cannot be read, or a
   parser returns an error on a file's text (one bad file among many good ones keeps everything);
   otherwise the state becomes the freshly loaded configuration, whatever it was before.  No premise:
   the parsers are total and the names they produce well formed. *)
Theorem C19_reload_text_all_or_nothing : forall ip a st t,
  let bad :=
    (exists d, In d (a_zone_dirs a ++ a_hosts_dirs a) /\ alookup leqb d (tfs_dirs t) = None) \/
    (exists r, In r (tzone_seq a t) /\
               (tfs_read t r = None \/ exists s e, tfs_read t r = Some s /\ ZoneFileModel.deserialise ip s = Err e)) \/
    (exists r, In r (thosts_seq a t) /\
               (tfs_read t r = None \/ exists s e, tfs_read t r = Some s /\ HostsModel.deserialise s = Err e)) in
  (bad -> load_text ip a t = None /\ reload_text ip a st t = st)
  /\ (~ bad -> exists z, load_text ip a t = Some z /\ reload_text ip a st t = z /\ forall st', reload_text ip a st' t = z).
Proof. exact reload_text_all_or_nothing. Qed.
Print Assumptions C19_reload_text_all_or_nothing.

(* any interleaving of queries and SIGUSR1s over text file systems: every reply is computed from ONE
   state of the history, and every state is the initial one or the COMPLETE load of one text file
   system none of whose files was bad *)
Theorem C19_text_query_sees_one_config : forall ip a st evs,
  Forall2 (fun q r => exists s, In s (states_text ip a st evs) /\ r = query s q)
          (flat_map (fun e => match e with TEvQuery q => [q] | TEvReload _ => [] end) evs) (run_text ip a st evs)
  /\ (forall s, In s (states_text ip a st evs) ->
        s = st \/ exists t, In (TEvReload t) evs /\ load_text ip a t = Some s /\ ~ text_config_bad ip a t).
Proof. exact run_text_one_config. Qed.
Print Assumptions C19_text_query_sees_one_config.

(* the hypotheses are satisfiable: a loadable and an unloadable text file system for the same arguments *)
Example C19_text_example : forall st,
  reload_text ZfInstance.zf_codec ex_targs st ex_tfs_bad = st
  /\ load_text_zf ex_targs ex_tfs <> None
  /\ reload_text ZfInstance.zf_codec ex_targs st ex_tfs = reload_text ZfInstance.zf_codec ex_targs [] ex_tfs.
Proof.
  intro st. split; [apply reload_failure; exact (proj1 ex_text_bad)|].
  assert (H : load_text_zf ex_targs ex_tfs <> None) by (vm_compute; discriminate).
  split; [exact H|]. apply reload_forgets. exact H.
Qed.

From RV Require Base.Locks Config.ConfigConcurrent.

(* [ConfigConcurrent.crun a F st0 cevs]: the server after the schedule [cevs] -- any list of: time
   passes; SIGUSR1 handled with the files as in f (the load happens outside the lock; only a
   successful load goes on to the write lock); handler t receives question q (and goes for the read
   lock); a task tries to acquire; a task takes its next step (the reload stores its value; a handler
   reads the configuration once more); a task releases.  [F seen q] is what a handler computes from
   the values it read; the only assumption is that on reads that all gave the same configuration it
   is [query] of that configuration.

   Every reply went to a question that was asked, and -- if the handler looked at the configuration
   at all -- is [query v q] for ONE configuration v, which is the initial one or the complete result
   [load a f] of one delivered SIGUSR1: entirely old or entirely new, never a mixture, wherever the
   reload falls between the handler's reads. *)
Theorem C19_concurrent_query_sees_one_config : forall a F,
  (forall s seen q, seen <> [] -> Forall (eq s) seen -> F seen q = query s q) ->
  forall st0 cevs t q seen o,
  In (Locks.RRet state state question (option (res unit answer)) t q seen o)
     (Locks.rets _ _ _ _ (ConfigConcurrent.crun a F st0 cevs)) ->
    (exists t', t = Datatypes.S t' /\ In (ConfigConcurrent.CQuery t' q) cevs) /\
    (seen <> [] ->
       exists v, o = Some (query v q) /\ In v (Locks.hist _ _ _ _ (ConfigConcurrent.crun a F st0 cevs)) /\
                 (v = st0 \/ exists f, In (ConfigConcurrent.CSignal f) cevs /\ load a f = Some v)) /\
    (seen = [] -> o = Some (F [] q)).
Proof. exact ConfigConcurrent.concurrent_query_sees_one_config. Qed.
Print Assumptions C19_concurrent_query_sees_one_config.

(* every configuration the server is ever in, under every schedule: the initial one or the complete
   result of one successful load *)
Theorem C19_concurrent_states_origin : forall a F st0 cevs v,
  In v (Locks.hist _ _ _ _ (ConfigConcurrent.crun a F st0 cevs)) ->
  v = st0 \/ exists f, In (ConfigConcurrent.CSignal f) cevs /\ load a f = Some v.
Proof. exact ConfigConcurrent.concurrent_states_origin. Qed.
Print Assumptions C19_concurrent_states_origin.

(* a SIGUSR1 whose load fails is, for the whole system, as if it had not been delivered *)
Theorem C19_concurrent_failed_reload_is_noop : forall a F st0 cevs1 f cevs2,
  load a f = None ->
  ConfigConcurrent.crun a F st0 (cevs1 ++ ConfigConcurrent.CSignal f :: cevs2) = ConfigConcurrent.crun a F st0 (cevs1 ++ cevs2).
Proof. exact ConfigConcurrent.concurrent_failed_reload_is_noop. Qed.
Print Assumptions C19_concurrent_failed_reload_is_noop.

(* the write lock excludes readers: while the reload task is inside its write section no handler is
   inside a read section (and vice versa) *)
Theorem C19_concurrent_writer_excludes_readers : forall a F st0 cevs t1 t2,
  let s := ConfigConcurrent.crun a F st0 cevs in
  Locks.holds_w _ _ _ _ (Locks.pcs _ _ _ _ s t1) -> ~ Locks.holds_r _ _ _ _ (Locks.pcs _ _ _ _ s t2).
Proof.
  intros a F st0 cevs t1 t2 s H1.
  exact (proj2 (Locks.mutual_exclusion _ _ _ _ _ _ st0 (flat_map (ConfigConcurrent.to_ev a) cevs) t1 t2 H1)).
Qed.
Print Assumptions C19_concurrent_writer_excludes_readers.

(* the model discriminates: a handler that took the read lock twice for one query could see two
   configurations; inside one section it cannot *)
Example C19_two_sections_can_differ :
  let s := Locks.run_sched nat nat unit (list nat) (fun _ _ z => (z, [])) (fun seen _ => seen)
             (Locks.init_sys nat nat unit (list nat) 0%nat)
             [Locks.CallR _ _ 1%nat tt; Locks.Acq _ _ 1%nat; Locks.Step _ _ 1%nat; Locks.Rel _ _ 1%nat;
              Locks.CallW _ _ 0%nat 7%nat; Locks.Acq _ _ 0%nat; Locks.Step _ _ 0%nat; Locks.Rel _ _ 0%nat;
              Locks.CallR _ _ 1%nat tt; Locks.Acq _ _ 1%nat; Locks.Step _ _ 1%nat; Locks.Rel _ _ 1%nat] in
  map (fun r => match r with Locks.RRet _ _ _ _ _ _ seen _ => seen | Locks.WRet _ _ _ _ _ => [] end) (Locks.rets _ _ _ _ s)
  = [[7%nat]; []; [0%nat]].
Proof. exact ConfigConcurrent.two_sections_can_differ. Qed.
