(* Properties/C09.v -- property theorems for C09 (the server answers every message, correctly
   framed); statements, each closed by `exact` or a few lines from Server/ServerProofs.v and
   Server/ServerLocal.v.

   [ao] is ListenArgs.authoritative_only, [resolve] the resolver of the running server
   (abstract: any function), [resolve_returns] says that it returns (a panic inside the
   resolver kills the task handling that message).  Replies are the messages
   handle_raw_message returns.  Every such reply reaches the wire
   (C09_udp_served_or_silence, C09_tcp_served: no premise about `to_octets`): when it cannot
   be serialised the listeners send its SERVFAIL stand-in (unserialisable_fallback, as in /repo
   35946be), which always can (C09_fallback_encodes);
   C09_unserialisable_reply_servfail_witness shows a configuration with such a reply answered
   that way.  C09_udp_512_tc_exact /
   C09_tcp_prefix_exact / C09_framing_never_panics describe the framing of whatever was
   serialised.  "Does not crash and keeps serving" is observed on the real binary by the
   check, not proved here. *)
From RV Require Import Base.Prelude Base.Cursor Name.NameModel Wire.WireTypes Wire.WireModel
     Wire.WireDecodeProofs Zone.ZoneModel Resolver.LocalModel
     Server.ServerModel Server.ServerSpec Server.ServerProofs.

(* no reply iff the input is too short to hold an ID or decodes to a message flagged as a
   response; otherwise exactly one reply (the function returns one message), QR set, same ID *)
Theorem C09_reply_or_silence :
  forall (ao : bool) (resolve : bool -> question -> res rerror resolved),
    (forall r q, resolve r q <> Panic /\ resolve r q <> OutOfFuel) ->
    forall bs, bytes_ok bs ->
      (silent_input bs /\ handle_raw_message ao resolve bs = Ok None)
      \/ (~ silent_input bs
          /\ exists r, handle_raw_message ao resolve bs = Ok (Some r)
                       /\ h_qr (m_header r) = true
                       /\ wire_id bs = Some (h_id (m_header r))).
Proof. exact reply_or_silence. Qed.
Print Assumptions C09_reply_or_silence.

(* the same at the level of datagrams, with NO premise that the reply can be serialised: a
   datagram (as cut by the 512-octet receive buffer) that is not silent input gets exactly one
   datagram back; it is the framing of the serialisation of the reply [r] handle_raw_message
   built -- QR set, same ID -- or, when `to_octets` refuses [r] (an RDATA or a section count
   above 65535), of its SERVFAIL stand-in: same id / QR / opcode / TC / RD / RA / questions, AA
   clear, RCODE SERVFAIL, no records ([sent_for], [servfail_of] in ServerSpec.v) *)
Theorem C09_udp_served_or_silence :
  forall (ao : bool) (resolve : bool -> question -> res rerror resolved),
    (forall r q, resolve r q <> Panic /\ resolve r q <> OutOfFuel) ->
    forall datagram, bytes_ok datagram ->
      let bs := firstn (N.to_nat 512) datagram in
      (silent_input bs /\ serve_udp ao resolve datagram = Ok None)
      \/ (~ silent_input bs
          /\ exists r sent wire out,
               handle_raw_message ao resolve bs = Ok (Some r)
               /\ h_qr (m_header r) = true /\ wire_id bs = Some (h_id (m_header r))
               /\ sent_for r sent /\ encode sent = Ok wire /\ send_udp_bytes_to wire = Ok out
               /\ serve_udp ao resolve datagram = Ok (Some out)).
Proof. exact udp_served_or_silence. Qed.
Print Assumptions C09_udp_served_or_silence.

(* ... and for one TCP connection: whenever a reply message is determined (by
   C09_tcp_short_read / C09_reply_or_silence) something is written, the reply or its stand-in;
   otherwise nothing is *)
Theorem C09_tcp_served :
  forall (ao : bool) (resolve : bool -> question -> res rerror resolved),
    (forall r q, resolve r q <> Panic /\ resolve r q <> OutOfFuel) ->
    forall stream e, bytes_ok stream ->
      (tcp_reply_message ao resolve stream e = Ok None -> serve_tcp ao resolve stream e = Ok None)
      /\ (forall r, tcp_reply_message ao resolve stream e = Ok (Some r) ->
            exists sent wire out,
              sent_for r sent /\ encode sent = Ok wire /\ send_tcp_bytes wire = Ok out
              /\ serve_tcp ao resolve stream e = Ok (Some out)).
Proof. exact tcp_served. Qed.
Print Assumptions C09_tcp_served.

(* why the stand-in can always be sent: it has no records, and the id, opcode and questions of a
   reply come out of a decoded message or are those of a FORMERR reply ([fallback_ok]: 16-bit
   id, 4-bit opcode, well-formed questions, fewer than 65536 of them) *)
Theorem C09_fallback_encodes :
  (forall bs m, bytes_ok bs -> decode bs = Ok m -> fallback_ok m)
  /\ (forall ao resolve, (forall r q, resolve r q <> Panic /\ resolve r q <> OutOfFuel) ->
        forall bs r, bytes_ok bs -> handle_raw_message ao resolve bs = Ok (Some r) -> fallback_ok r)
  /\ (forall r, fallback_ok r ->
        servfail_of r (unserialisable_fallback r)
        /\ exists wire, encode (unserialisable_fallback r) = Ok wire
                        /\ bytes_ok wire /\ decode wire = Ok (unserialisable_fallback r)).
Proof.
  split; [exact decoded_fallback_ok|]. split; [intros ao resolve _; apply handle_fallback_ok|].
  intros r H. split; [apply fallback_shape|].
  destruct (fallback_encodes r H) as (wire & E). exists wire. split; [exact E|].
  exact (fallback_roundtrip r wire H E).
Qed.
Print Assumptions C09_fallback_encodes.

Theorem C09_reply_echo :
  forall ao resolve, (forall r q, resolve r q <> Panic /\ resolve r q <> OutOfFuel) ->
    forall bs m r, query_of bs m -> handle_raw_message ao resolve bs = Ok (Some r) ->
      h_opcode (m_header r) = h_opcode (m_header m)
      /\ h_rd (m_header r) = h_rd (m_header m)
      /\ m_questions r = m_questions m.
Proof. exact reply_echo. Qed.
Print Assumptions C09_reply_echo.

Theorem C09_formerr_on_garbage :
  forall ao resolve bs e, decode bs = Err e -> 2 <= llen bs ->
    exists r, handle_raw_message ao resolve bs = Ok (Some r)
              /\ h_rcode (m_header r) = RCODE_FormatError
              /\ h_qr (m_header r) = true
              /\ wire_id bs = Some (h_id (m_header r))
              /\ m_questions r = [] /\ m_answers r = [] /\ m_authority r = [] /\ m_additional r = [].
Proof. exact formerr_on_garbage. Qed.
Print Assumptions C09_formerr_on_garbage.

Theorem C09_notimp_on_opcode :
  forall ao resolve bs m, query_of bs m -> h_opcode (m_header m) <> OPCODE_Standard ->
    exists r, handle_raw_message ao resolve bs = Ok (Some r)
              /\ h_rcode (m_header r) = RCODE_NotImplemented
              /\ m_answers r = [] /\ m_authority r = [] /\ m_additional r = [].
Proof. exact notimp_on_opcode. Qed.
Print Assumptions C09_notimp_on_opcode.

(* REFUSED exactly for several questions or an unknown type or class (standard queries) *)
Theorem C09_refused_rules :
  forall ao resolve, (forall r q, resolve r q <> Panic /\ resolve r q <> OutOfFuel) ->
    forall bs m r, query_of bs m -> h_opcode (m_header m) = OPCODE_Standard ->
      handle_raw_message ao resolve bs = Ok (Some r) ->
      (h_rcode (m_header r) = RCODE_Refused <-> must_refuse m)
      /\ (must_refuse m -> m_answers r = [] /\ m_authority r = [] /\ h_aa (m_header r) = false).
Proof. exact refused_rules. Qed.
Print Assumptions C09_refused_rules.

(* RA on replies to standard queries: set exactly when recursion is offered *)
Theorem C09_ra_iff_recursion :
  forall ao resolve, (forall r q, resolve r q <> Panic /\ resolve r q <> OutOfFuel) ->
    forall bs m r, query_of bs m -> h_opcode (m_header m) = OPCODE_Standard ->
      handle_raw_message ao resolve bs = Ok (Some r) ->
      h_ra (m_header r) = negb ao.
Proof. exact ra_iff_recursion. Qed.
Print Assumptions C09_ra_iff_recursion.

(* answers, authority, AA, RCODE are the table spec_outcome of the resolver's result; the
   resolver is asked to recurse iff RD is set and recursion is offered *)
Theorem C09_sections_are_resolver_output :
  forall ao resolve, (forall r q, resolve r q <> Panic /\ resolve r q <> OutOfFuel) ->
    forall bs m q r, query_of bs m -> h_opcode (m_header m) = OPCODE_Standard ->
      m_questions m = [q] -> ~ must_refuse m ->
      handle_raw_message ao resolve bs = Ok (Some r) ->
      outcome_of r = spec_outcome (resolve (h_rd (m_header m) && negb ao) q).
Proof. exact sections_are_resolver_output. Qed.
Print Assumptions C09_sections_are_resolver_output.

Theorem C09_udp_512_tc_exact :
  forall bs, bytes_ok bs -> 12 <= llen bs ->
    exists out, send_udp_bytes_to bs = Ok out /\ udp_framed bs out.
Proof. exact udp_512_tc_exact. Qed.
Print Assumptions C09_udp_512_tc_exact.

Theorem C09_tcp_prefix_exact :
  forall bs, bytes_ok bs -> 12 <= llen bs ->
    exists out, send_tcp_bytes bs = Ok out /\ tcp_framed bs out.
Proof. exact tcp_prefix_exact. Qed.
Print Assumptions C09_tcp_prefix_exact.

(* every serialised message has at least 12 octets, so the panic!() sites of util/net.rs are
   unreachable from the listen loops and every such reply is framed as specified *)
Theorem C09_framing_never_panics :
  forall m bs, encode m = Ok bs -> bytes_ok bs ->
    (exists out, send_udp_bytes_to bs = Ok out /\ udp_framed bs out)
    /\ (exists out, send_tcp_bytes bs = Ok out /\ tcp_framed bs out).
Proof. exact framing_never_panics. Qed.
Print Assumptions C09_framing_never_panics.

Theorem C09_tcp_short_read :
  forall ao resolve,
    (forall hi lo rest, llen rest < hi * 256 + lo ->
       tcp_reply_message ao resolve (hi :: lo :: rest) EndEof
       = Ok (option_map make_format_error_response (wire_id rest))
       /\ tcp_reply_message ao resolve (hi :: lo :: rest) EndIoError
          = Ok (option_map make_format_error_response (wire_id rest))
       /\ tcp_reply_message ao resolve (hi :: lo :: rest) EndOpen = Ok None)
    /\ (forall stream e, llen stream < 2 -> tcp_reply_message ao resolve stream e = Ok None)
    /\ (forall hi lo rest e, hi * 256 + lo <= llen rest ->
          tcp_reply_message ao resolve (hi :: lo :: rest) e
          = handle_raw_message ao resolve (firstn (N.to_nat (hi * 256 + lo)) rest)).
Proof. exact tcp_short_read. Qed.
Print Assumptions C09_tcp_short_read.

(* the answer section holds only records on the question's CNAME chain -- for every question
   outside the known class (F12), in authoritative-only mode, given the chain property of the
   local resolver (C10) as a premise *)
Theorem C09_answers_on_chain_unless_referral :
  forall (zs : zones) (cget : dname -> N -> list rr),
    (forall q l, resolve_local zs cget LOCAL_FUEL [] q = Ok l ->
                 (forall a b c, l <> LDelegation a b c) -> answers_on_chain q (lresult_rrs l)) ->
    (forall q, resolve_authoritative_only zs cget q <> Panic /\ resolve_authoritative_only zs cget q <> OutOfFuel) ->
    forall bs m q r,
      query_of bs m -> h_opcode (m_header m) = OPCODE_Standard ->
      m_questions m = [q] -> ~ must_refuse m ->
      ~ Known_referral zs q ->
      handle_raw_message true (fun _ => resolve_authoritative_only zs cget) bs = Ok (Some r) ->
      answers_on_chain q (m_answers r).
Proof. exact answers_on_chain_unless_referral. Qed.
Print Assumptions C09_answers_on_chain_unless_referral.

Theorem C09_known_referral_witness :
  exists zs cget bs m q r,
    query_of bs m /\ h_opcode (m_header m) = OPCODE_Standard /\ m_questions m = [q] /\ ~ must_refuse m
    /\ Known_referral zs q
    /\ handle_raw_message true (fun _ => resolve_authoritative_only zs cget) bs = Ok (Some r)
    /\ h_aa (m_header r) = true
    /\ ~ answers_on_chain q (m_answers r).
Proof. exact known_referral_witness. Qed.
Print Assumptions C09_known_referral_witness.

(* example.com with big.example.com TXT of 65536 octets; query `big.example.com TXT`, id 7: the reply cannot be
   serialised and both listeners answer with SERVFAIL -- id 7, QR set, the question echoed, no
   records; over UDP the serialisation itself, over TCP behind its length prefix *)
Theorem C09_unserialisable_reply_servfail_witness :
  exists zs cget bs q r e f wire,
    handle_raw_message true (fun _ => resolve_authoritative_only zs cget) bs = Ok (Some r)
    /\ encode r = Err e
    /\ servfail_of r f /\ encode f = Ok wire /\ decode wire = Ok f
    /\ wire_id bs = Some 7 /\ h_id (m_header f) = 7 /\ h_qr (m_header f) = true
    /\ h_rcode (m_header f) = RCODE_ServerFailure /\ h_aa (m_header f) = false
    /\ m_questions f = [q] /\ m_answers f = [] /\ m_authority f = [] /\ m_additional f = []
    /\ serve_udp true (fun _ => resolve_authoritative_only zs cget) bs = Ok (Some wire)
    /\ serve_tcp true (fun _ => resolve_authoritative_only zs cget) (u16_bytes (llen bs) ++ bs) EndEof
       = Ok (Some (u16_bytes (llen wire) ++ wire)).
Proof. exact unserialisable_reply_servfail_witness. Qed.
Print Assumptions C09_unserialisable_reply_servfail_witness.

(* the server composed with the local resolver in authoritative-only mode (ties C09 to C01 / C02;
   lemmas: Server/ServerLocal.v) *)
From RV Require Import Resolver.LocalSpec Resolver.LocalProofs Server.ServerLocal.

(* With `--authoritative-only` the resolver is only ever asked with is_recursive = false (RD && RA,
   RA = false): two resolvers that agree there give the same reply to EVERY input, whatever they
   would do when asked to recurse -- so ServerModel's dead-upstream recursive instance is the local
   resolver here; the reply is a function of the zones and the cache READ function, and not even
   of that for names inside authoritative zones (C01_cache_noninterference_local lifted to
   replies); and RA = 0 on every reply to a standard query. *)
Theorem C09_authoritative_only_never_recurses :
  (forall (resolve resolve' : bool -> question -> res rerror resolved) bs,
     (forall q, resolve false q = resolve' false q) ->
     handle_raw_message true resolve bs = handle_raw_message true resolve' bs)
  /\ (forall zs cget bs,
        handle_raw_message true (resolve_dead_upstream zs cget) bs
        = handle_raw_message true (fun _ => resolve_authoritative_only zs cget) bs)
  /\ (forall zs c1 c2 bs, cache_agree_outside (in_auth_zone zs) c1 c2 ->
        handle_raw_message true (fun _ => resolve_authoritative_only zs c1) bs
        = handle_raw_message true (fun _ => resolve_authoritative_only zs c2) bs)
  /\ (forall zs cget bs m r, query_of bs m -> h_opcode (m_header m) = OPCODE_Standard ->
        handle_raw_message true (fun _ => resolve_authoritative_only zs cget) bs = Ok (Some r) ->
        h_ra (m_header r) = false).
Proof.
  split; [exact ao_never_recurses|]. split; [exact ao_dead_upstream_is_local|].
  split; [exact ao_reply_cache_noninterference|exact ao_ra_clear].
Qed.
Print Assumptions C09_authoritative_only_never_recurses.

(* A standard query with one question of known type and class about a name an authoritative zone
   OWNS ([owned_by], Resolver/LocalSpec.v: the zone Zones::get selects, it has a SOA, the name is not
   at/beneath one of its delegation points) is answered -- no premise that the resolver returns --
   from that zone alone (C01_auth_zone_alone_local):
   the zone has an Answer: AA = 1, NOERROR, the answer section is EXACTLY the zone's records for
   that name and type (what they are is C02's subject), the authority section the zone's SOA;
   the zone says NameError: AA = 1, RCODE 3, empty answer, the zone's SOA.
   Whatever the cache holds; RA = 0, the id and the question echoed, no additional records. *)
Theorem C09_owned_name_reply : forall zs cget bs m q z,
  query_of bs m -> h_opcode (m_header m) = OPCODE_Standard -> m_questions m = [q] -> ~ must_refuse m ->
  owned_by zs (q_name q) z ->
  (forall rrs, zones_resolve zs (q_name q) (q_type q) = Some (z, Ok (ZAnswer rrs)) ->
     exists r soa_rr,
       handle_raw_message true (fun _ => resolve_authoritative_only zs cget) bs = Ok (Some r)
       /\ zone_soa_rr z = Some soa_rr
       /\ h_aa (m_header r) = true /\ h_rcode (m_header r) = RCODE_NoError
       /\ m_answers r = rrs /\ m_authority r = [soa_rr] /\ m_additional r = []
       /\ h_ra (m_header r) = false /\ h_id (m_header r) = h_id (m_header m) /\ m_questions r = [q])
  /\ (zones_resolve zs (q_name q) (q_type q) = Some (z, Ok ZNameError) ->
     exists r soa_rr,
       handle_raw_message true (fun _ => resolve_authoritative_only zs cget) bs = Ok (Some r)
       /\ zone_soa_rr z = Some soa_rr
       /\ h_aa (m_header r) = true /\ h_rcode (m_header r) = RCODE_NameError
       /\ m_answers r = [] /\ m_authority r = [soa_rr] /\ m_additional r = []
       /\ h_ra (m_header r) = false /\ h_id (m_header r) = h_id (m_header m) /\ m_questions r = [q]).
Proof.
  intros zs cget bs m q z Hq Ho Hqs Hnr Hown.
  split; [intros rrs Hz|intro Hz];
    destruct (owned_resolved zs cget q z _ Hown Hz) as (s & Hs & Hres);
    rewrite (handle_one _ _ bs m q Hq Ho Hqs Hnr), Hres;
    eexists; exists s; (split; [reflexivity|]); cbn; auto 12.
Qed.
Print Assumptions C09_owned_name_reply.

(* RCODE 3 leaves the server only on the word of an authoritative zone: for EVERY input (any
   octets) answered with RCODE 3, the input is a standard query with exactly one question and the
   zone selected for the question NAME has a SOA and returned NameError for that name and type
   (C01_nxdomain_only_from_auth_zone_local); the reply has AA = 1, no answers and that zone's SOA.
   Never through an alias (a CNAME to a missing target is NOERROR), never from the cache. *)
Theorem C09_nxdomain_only_from_auth_zone : forall zs cget bs r,
  handle_raw_message true (fun _ => resolve_authoritative_only zs cget) bs = Ok (Some r) ->
  h_rcode (m_header r) = RCODE_NameError ->
  exists m q z s,
    query_of bs m /\ h_opcode (m_header m) = OPCODE_Standard /\ m_questions m = [q]
    /\ zones_resolve zs (q_name q) (q_type q) = Some (z, Ok ZNameError) /\ zone_soa_rr z = Some s
    /\ in_auth_zone zs (q_name q)
    /\ h_aa (m_header r) = true /\ m_answers r = [] /\ m_authority r = [s].
Proof. exact nxdomain_reply_only_from_auth_zone. Qed.
Print Assumptions C09_nxdomain_only_from_auth_zone.

(* the hypotheses are satisfiable, evaluated on the worked configuration of Resolver/LocalProofs.v
   (zone e.c. with w.e.c. A 1; the cache holds w.e.c. A 9): the query "w.e.c. A" meets the
   premises of C09_owned_name_reply and is answered AA / NOERROR with the zone's record and SOA;
   "n.e.c. A" is answered AA / NXDOMAIN with the SOA *)
Example C09_owned_name_example :
  (query_of (SLExample.bytes_for LocalExample.n_wec) (SLExample.query_for LocalExample.n_wec)
   /\ h_opcode (m_header (SLExample.query_for LocalExample.n_wec)) = OPCODE_Standard
   /\ m_questions (SLExample.query_for LocalExample.n_wec) = [LocalExample.qa LocalExample.n_wec]
   /\ ~ must_refuse (SLExample.query_for LocalExample.n_wec))
  /\ owned_by LocalExample.ex_zones LocalExample.n_wec LocalExample.z_ec
  /\ option_map (fun o => option_map (fun r => (outcome_of r, h_ra (m_header r), h_id (m_header r))) o)
       (match handle_raw_message true (fun _ => resolve_authoritative_only LocalExample.ex_zones LocalExample.ex_cget)
                (SLExample.bytes_for LocalExample.n_wec) with Ok o => Some o | _ => None end)
     = Some (Some (([{| rr_name := LocalExample.n_wec; rr_type := RT_A; rr_class := RC_IN; rr_ttl := 300; rr_data := RD_A 1 |}],
                    [LocalExample.soa_rr], true, RCODE_NoError), false, 7))
  /\ option_map (fun o => option_map outcome_of o)
       (match handle_raw_message true (fun _ => resolve_authoritative_only LocalExample.ex_zones LocalExample.ex_cget)
                (SLExample.bytes_for SLExample.n_nec) with Ok o => Some o | _ => None end)
     = Some (Some ([], [LocalExample.soa_rr], true, RCODE_NameError)).
Proof.
  split; [exact SLExample.ex_query_ok|]. split; [exact LocalExample.ex_owned|].
  split; [exact SLExample.ex_owned_answer|exact SLExample.ex_owned_nxdomain].
Qed.
