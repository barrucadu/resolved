(* Properties/C12.v -- configuration files compose by union, with the last SOA winning.

   Model: Config/ConfigModel.v ([load] = load_zone_configuration over a file system given as data;
   a file is what Zone::deserialise / Hosts::deserialise make of it), Zone/ZoneModel.v (Zone::merge,
   Zones::insert_merge).  Specification: Zone/ZoneFlat.v (a zone as two flat record lists, merge =
   union with duplicate suppression, lookup = RFC 1034 4.3.2).

   C12_zone_is_chain_of_files_partial is stated for ANY structural invariant of record trees under the
   explicit premise that Zone::merge preserves it and refines the flat merge; C12_zone_is_chain_of_files
   is its instance for "unique child labels" ([wf_tree]), where the premise is a theorem
   (Zone/ZoneMergeProofs.v). *)
From Coq Require Import Permutation Sorting.Sorted.
From RV Require Import Base.Prelude Name.NameModel Name.NameSpec Wire.WireTypes Zone.ZoneModel Zone.ZoneFlat
     Zone.ZoneProofs Zone.ZoneMergeProofs Config.ConfigModel Config.ConfigProofs Config.ConfigMerge.

(* None iff some directory cannot be listed or some file of the effective sequence cannot be read or
   parsed in its role.  ([config_hosts_wf]: the names in the hosts files are well-formed DomainName
   values -- C16 -- which excludes the from_labels unwrap inside Zone::insert.) *)
Theorem C12_load_none_iff_some_file_bad : forall a f, config_hosts_wf a f ->
  (load a f = None <->
   (exists d, In d (a_zone_dirs a ++ a_hosts_dirs a) /\ alookup leqb d (fs_dirs f) = None) \/
   (exists r, In r (fst (zone_file_seq a f)) /\ read_zone (fs_read f r) = None) \/
   (exists r, In r (fst (hosts_file_seq a f)) /\ read_hosts (fs_read f r) = None)).
Proof. exact load_none_iff. Qed.
Print Assumptions C12_load_none_iff_some_file_bad.

(* load_zone_configuration never panics (hosts names well formed, [config_hosts_wf]) *)
Theorem C12_load_total : forall a f, config_hosts_wf a f -> exists o, load_res a f = Ok o.
Proof. exact load_total. Qed.
Print Assumptions C12_load_total.

(* The files are applied in this order: the -z (-a) files in argument order, then for every -Z (-A)
   directory in argument order its non-directory entries in byte-wise sorted order of their names
   ([dir_chunk]: a permutation of the listing's file names that is sorted; for distinct names there
   is exactly one such arrangement, [C12_sorted_unique]). *)
Theorem C12_dir_sorted_order : forall a f,
  (exists chunks, Forall2 (dir_chunk f) (a_zone_dirs a) chunks /\
                  fst (zone_file_seq a f) = map RFile (a_zone_files a) ++ concat chunks) /\
  (exists chunks, Forall2 (dir_chunk f) (a_hosts_dirs a) chunks /\
                  fst (hosts_file_seq a f) = map RFile (a_hosts_files a) ++ concat chunks).
Proof. exact dir_sorted_order. Qed.
Print Assumptions C12_dir_sorted_order.

Theorem C12_sorted_unique : forall l l', StronglySorted ble l -> StronglySorted ble l' -> Permutation l l' -> NoDup l -> l = l'.
Proof. intros l l' H1 H2 H3 _. exact (sorted_perm_unique bytes_leb bytes_leb_antisym l l' H1 H2 H3). Qed.
Print Assumptions C12_sorted_unique.

(* Hosts files: per name and address family the entry of the LAST file (in application order)
   defining it is the one in force.  ([hosts_unique]: a Hosts value has one entry per name and family;
   it holds of everything the parser builds, [C12_hosts_unique_parser].) *)
Theorem C12_hosts_last_wins : forall a f n,
  Forall hosts_unique (readable_hosts f (fst (hosts_file_seq a f))) ->
  alookup dname_eqb n (h_v4 (loaded_hosts a f)) =
    last_defined (fun h => alookup dname_eqb n (h_v4 h)) (readable_hosts f (fst (hosts_file_seq a f))) /\
  alookup dname_eqb n (h_v6 (loaded_hosts a f)) =
    last_defined (fun h => alookup dname_eqb n (h_v6 h)) (readable_hosts f (fst (hosts_file_seq a f))).
Proof. exact loaded_hosts_last_wins. Qed.
Print Assumptions C12_hosts_last_wins.

Theorem C12_hosts_unique_parser : forall es, hosts_unique (hosts_of_entries es).
Proof. exact hosts_of_entries_unique. Qed.
Print Assumptions C12_hosts_unique_parser.

(* The merged hosts become a zone with the root apex and no SOA whose records are exactly one A
   (AAAA) record with TTL HOSTS_TTL per v4 (v6) entry, owned by the entry's name, and no wildcard
   records; the conversion never panics. *)
Theorem C12_hosts_in_root_zone : forall h, hosts_wf h ->
  exists hz, hosts_to_zone h = Ok hz /\ z_apex hz = root_domain /\ z_soa hz = None /\
    zrepr hz (hosts_flat h) /\ f_wild (hosts_flat h) = [] /\
    forall p r, In (p, r) (f_norm (hosts_flat h)) <->
      (exists n a, In (n, a) (h_v4 h) /\ labels n = p ++ [[]] /\ r = rec_v4 a) \/
      (exists n a, In (n, a) (h_v6 h) /\ labels n = p ++ [[]] /\ r = rec_v6 a).
Proof.
  intros h H. destruct (hosts_to_zone_spec h H) as (hz & A & B & C & D). destruct (hosts_flat_records h) as [E F].
  exists hz. auto 10.
Qed.
Print Assumptions C12_hosts_in_root_zone.

(* ... and in a loaded configuration the zone of every apex k is the chain of Zone::merge over the
   inputs with apex k in application order, where the inputs are the readable zone files followed by
   that hosts zone (root apex, no SOA) LAST.  In particular the root zone always exists, and its SOA
   -- like that of every zone -- is the SOA of the last input supplying one: the root zone is
   non-authoritative unless a root zone FILE has a SOA. *)
Theorem C12_load_by_apex : forall a f zs, config_hosts_wf a f -> load a f = Some zs ->
  exists hz, hosts_to_zone (loaded_hosts a f) = Ok hz /\ z_apex hz = root_domain /\ z_soa hz = None /\
    forall k, alookup dname_eqb k zs = fold_left merge_step (for_apex k (zone_inputs a f hz)) None.
Proof. exact load_by_apex. Qed.
Print Assumptions C12_load_by_apex.

Theorem C12_chain_soa_is_last : forall l acc, Forall (fun z => z_apex z = z_apex acc) l ->
  exists m, fold_left merge_step l (Some acc) = Some m /\ z_apex m = z_apex acc /\
            z_soa m = match last_defined z_soa l with Some s => Some s | None => z_soa acc end.
Proof. exact merge_chain_soa. Qed.
Print Assumptions C12_chain_soa_is_last.

(* The union of 1..k files of one apex, on flat zones: an ordinary record is in the zone
   iff some file defines it -- except that an apex SOA record is there only if no later file supplies
   a SOA; a wildcard record is in the zone iff some file defines it; nothing is there twice. *)
Theorem C12_merge_union : forall l z, flat_chain l = Some z ->
  (forall x, In x (f_norm z) <-> exists pre fa post, l = pre ++ fa :: post /\ In x (f_norm (fst fa)) /\ survives x post) /\
  (forall x, In x (f_wild z) <-> exists fa, In fa l /\ In x (f_wild (fst fa))) /\
  (Forall (fun fa => NoDup (f_norm (fst fa)) /\ NoDup (f_wild (fst fa))) l -> NoDup (f_norm z) /\ NoDup (f_wild z)).
Proof. exact merge_union. Qed.
Print Assumptions C12_merge_union.

(* ... and its SOA: exactly one SOA record at the apex, that of the last file
   supplying one (none if no file does) *)
Theorem C12_merge_one_soa : forall l z, Forall soa_ok l -> flat_chain l = Some z ->
  forall r, (In ([], r) (f_norm z) /\ zr_type r = RT_SOA) <-> exists so, last_defined snd l = Some so /\ r = soa_zrec so.
Proof. exact chain_one_soa. Qed.
Print Assumptions C12_merge_one_soa.

(* the side conditions of the two theorems above hold for files given by their insertions (what the
   zone-file parser produces: the SOA apart, no other SOA-typed record) and for the hosts zone *)
Theorem C12_file_side_conditions : forall apex s ops,
  (Forall (fun o => op_type o <> RT_SOA) ops -> soa_ok (flat_of_ops apex s ops, s)) /\
  NoDup (f_norm (flat_of_ops apex s ops)) /\ NoDup (f_wild (flat_of_ops apex s ops)).
Proof. intros apex s ops. split; [apply flat_of_ops_soa_ok|apply flat_of_ops_nodup]. Qed.
Print Assumptions C12_file_side_conditions.

Theorem C12_hosts_side_conditions : forall h, soa_ok (hosts_flat h, None).
Proof. exact hosts_flat_soa_ok. Qed.
Print Assumptions C12_hosts_side_conditions.

(* For ANY invariant [zone_wf] of record trees, under the explicit premise that Zone::merge preserves
   [zone_wf] and refines fz_merge on zones that represent flat zones: the record tree of every loaded
   zone holds exactly the records of the flat chain of its files, whose content C12_merge_union /
   C12_merge_one_soa describe.  The premise without an invariant would be too strong: [zrepr] only
   constrains what lookups see, so a tree with a shadowed duplicate child label represents a flat zone
   although merging it brings the shadowed subtree to light.  The correspondence stream checks the
   composed statement on every case (oracle of vlib/p_c12.py: dump = union, one SOA, answers from
   the union). *)
Theorem C12_zone_is_chain_of_files_partial : forall zone_wf : zone -> Prop,
  (forall a b fa fb m, zone_wf a -> zone_wf b -> zrepr a fa -> zrepr b fb -> zone_merge a b = Some m ->
                       zone_wf m /\ zrepr m (fz_merge fa fb (zone_is_authoritative b))) ->
  forall a f zs (flat_of : zone -> fzone), config_hosts_wf a f -> load a f = Some zs ->
  exists hz, hosts_to_zone (loaded_hosts a f) = Ok hz /\ z_apex hz = root_domain /\ z_soa hz = None /\
    forall k, Forall (fun z => zone_wf z /\ zrepr z (flat_of z)) (for_apex k (zone_inputs a f hz)) ->
      match alookup dname_eqb k zs, flat_chain (map (ffile_of flat_of) (for_apex k (zone_inputs a f hz))) with
      | Some m, Some fm => z_apex m = k /\ zrepr m fm
      | None, None => for_apex k (zone_inputs a f hz) = []
      | _, _ => False
      end.
Proof. exact load_zone_repr. Qed.
Print Assumptions C12_zone_is_chain_of_files_partial.

(* The premise above is discharged with Zone/ZoneMergeProofs.v: the invariant is "unique child
   labels" ([wf_tree]); zones built by insertion -- i.e. every zone a zone file or a hosts file
   yields -- satisfy it ([zone_build_wf_tree]). *)
Theorem C12_zone_is_chain_of_files :
  forall a f zs (flat_of : zone -> fzone), config_hosts_wf a f -> load a f = Some zs ->
  exists hz, hosts_to_zone (loaded_hosts a f) = Ok hz /\ z_apex hz = root_domain /\ z_soa hz = None /\
    forall k, Forall (fun z => wf_tree (z_records z) /\ zrepr z (flat_of z)) (for_apex k (zone_inputs a f hz)) ->
      match alookup dname_eqb k zs, flat_chain (map (ffile_of flat_of) (for_apex k (zone_inputs a f hz))) with
      | Some m, Some fm => z_apex m = k /\ zrepr m fm
      | None, None => for_apex k (zone_inputs a f hz) = []
      | _, _ => False
      end.
Proof. exact load_zone_repr_closed. Qed.
Print Assumptions C12_zone_is_chain_of_files.

Theorem C12_built_zones_are_wf : forall apex s ops z, zone_build apex s ops = Ok z -> wf_tree (z_records z).
Proof. exact zone_build_wf_tree. Qed.
Print Assumptions C12_built_zones_are_wf.

(* with the flat specification of C02: a zone that represents a flat zone fz answers every question
   under its apex as RFC 1034 4.3.2 / RFC 4592 do on fz (up to the order of type groups in an ANY
   answer), under deviation D1 (no_occlusion) -- with fz the flat chain of the files: from the union *)
Theorem C12_answers_from_union : forall z fz name qt p,
  zrepr z fz -> no_occlusion fz -> recs_ok fz -> wf_name name ->
  rel_path (labels (z_apex z)) name = Some p ->
  exists r, zone_resolve z name qt = Some (Ok r) /\
            zres_equiv r (flat_resolve (labels (z_apex z)) fz name p qt).
Proof. exact zone_answers_from_flat. Qed.
Print Assumptions C12_answers_from_union.

(* the hypotheses are satisfiable: a directory whose sorted order ("10" < "9") differs from its
   listing order, two SOAs for one apex, two hosts files overriding each other *)
Example C12_example :
  zone_file_seq ex_args ex_fs = ([RDirFile [122] [49; 48]; RDirFile [122] [57]], false) /\
  config_hosts_wf ex_args ex_fs /\
  option_map (fun zs => option_map (fun z => option_map soa_serial (z_soa z)) (alookup dname_eqb ex_apex zs)) (load ex_args ex_fs)
    = Some (Some (Some 1)) /\
  load ex_args ex_fs_bad = None.
Proof.
  split; [exact ex_sorted_order|]. split; [exact ex_hosts_wf|]. split; [vm_compute; reflexivity|apply ex_bad_is_none].
Qed.

(* Configuration loaded from TEXT: C12 composed with C11 / C17 and C14 (lemmas: Config/ConfigText.v).
   Above, a configuration file is what the parsers make of it.  Here the file system holds TEXT
   ([tfs]: a file is a list of Unicode scalar values, [None] = read_to_string fails), [parse_file]
   is zone_from_file / hosts_from_file of fs.rs -- read_to_string, then Zone::deserialise (the model
   of ZoneFile/ZoneFileModel.v, for any address codec [ip]; [zf_codec] is std's, Ip/IpModel.v) resp.
   Hosts::deserialise (Hosts/HostsModel.v) -- and [load_text ip a t] = [load a (fs_of_text ip t)].
   [tzone_seq a t] / [thosts_seq a t] are the effective file sequences (C12_dir_sorted_order); they do
   not depend on the parsers.  [tfs_read t r] is the text behind a path. *)
From RV Require Import Config.ConfigText.
From RV Require Hosts.HostsModel Hosts.HostsSpec ZoneFile.ZoneFileModel ZoneFile.ZoneRtLines ZoneFile.ZoneParseDenotes
     ZoneFile.ZfInstance ZoneFile.ZoneRtCodec.

(* the premise [config_hosts_wf] of the theorems above is no assumption for configurations read from
   text: every name Hosts::deserialise returns is a well-formed DomainName (an ASCII field read
   relative to the root: C16_join) *)
Theorem C12_text_hosts_names_wf :
  (forall data h, HostsModel.deserialise data = Ok h ->
     Forall wf_name (map fst (HostsModel.h_v4 h)) /\ Forall wf_name (map fst (HostsModel.h_v6 h)))
  /\ (forall ip a t, config_hosts_wf a (fs_of_text ip t)).
Proof. split; [exact HostsNames.deserialise_names_wf|exact text_config_hosts_wf]. Qed.
Print Assumptions C12_text_hosts_names_wf.

(* load_zone_configuration over texts never panics: each parser returns Ok or Err on EVERY text
   (C17_parse_zone_total, C14_parse_hosts_total -- so the catch-all "unparsable" branch of parse_file
   only ever stands for Err), and the loader returns on whatever they produce *)
Theorem C12_load_text_total : forall ip a t,
  (forall s, (exists z, ZoneFileModel.deserialise ip s = Ok z) \/ (exists e, ZoneFileModel.deserialise ip s = Err e))
  /\ (forall s, (exists h, HostsModel.deserialise s = Ok h) \/ (exists e, HostsModel.deserialise s = Err e))
  /\ exists o, load_res a (fs_of_text ip t) = Ok o.
Proof. exact load_text_total. Qed.
Print Assumptions C12_load_text_total.

(* None iff a -Z / -A directory cannot be listed, or a file of the effective sequence cannot be
   read, or its parser returns an error on its text; no premise *)
Theorem C12_load_text_none_iff : forall ip a t,
  load_text ip a t = None <->
  (exists d, In d (a_zone_dirs a ++ a_hosts_dirs a) /\ alookup leqb d (tfs_dirs t) = None) \/
  (exists r, In r (tzone_seq a t) /\
             (tfs_read t r = None \/ exists s e, tfs_read t r = Some s /\ ZoneFileModel.deserialise ip s = Err e)) \/
  (exists r, In r (thosts_seq a t) /\
             (tfs_read t r = None \/ exists s e, tfs_read t r = Some s /\ HostsModel.deserialise s = Err e)).
Proof. exact load_text_none_iff. Qed.
Print Assumptions C12_load_text_none_iff.

(* The composition.  Every zone file of the effective sequence is a rendering -- in ANY layout of the
   layout family -- of an abstract zone file in the scope of C11_parse_denotes that denotes
   (apex, SOA, insertions) ([zone_described]; [zdens] lists the denotations in application order);
   every hosts file is the rendering of a hosts syntax tree with valid lines, the scope of
   C14_hosts_parse_denotes ([hosts_described]; [hfiles]); every directory can be listed; the address
   codec is round-trip ([codec_rt]: proved for std's, C12_load_text_denotes_zf).  Then:
   - the configuration loads;
   - [hfl], the hosts' share, is a flat zone without wildcard records holding exactly one A (AAAA)
     record with TTL HOSTS_TTL per name that the LAST hosts file (in application order) defining it
     for that family maps to an address ([merged_v4] / [merged_v6] of the files' DENOTATIONS);
   - for every apex k the loaded zone represents (the relation of C02 / C12_answers_from_union) the
     flat chain of the inputs with apex k: the flat zones [flat_of_ops apex so ops] of the zone files'
     DENOTATIONS in application order, then, for the root, [hfl] (no SOA) LAST; an apex without input
     has no zone;
   - the inputs meet the side conditions of C12_merge_union / C12_merge_one_soa, which therefore say
     what that chain holds: the union, duplicates removed, the SOA of the last file supplying one
     (C12_load_text_records spells it out). *)
Theorem C12_load_text_denotes : forall ip, ZoneRtLines.codec_rt ip -> forall a t zdens hfiles,
  (forall d, In d (a_zone_dirs a ++ a_hosts_dirs a) -> alookup leqb d (tfs_dirs t) <> None) ->
  Forall2 (fun r d => exists ls, tfs_read t r = Some (ZoneParseDenotes.render ls)
                                 /\ ZoneParseDenotes.lines_ok ip ZoneParseDenotes.sp_init ls
                                 /\ ZoneParseDenotes.denote ls = Some d) (tzone_seq a t) zdens ->
  Forall2 (fun r hf => tfs_read t r = Some (HostsSpec.render hf)
                       /\ Forall (fun le => HostsSpec.valid_line (fst le)) hf) (thosts_seq a t) hfiles ->
  exists zs hfl,
    load_text ip a t = Some zs
    /\ (f_wild hfl = [] /\
        forall p r, In (p, r) (f_norm hfl) <->
          (exists n x, merged_v4 hfiles n = Some x /\ labels n = p ++ [[]] /\ r = rec_v4 x) \/
          (exists n x, merged_v6 hfiles n = Some x /\ labels n = p ++ [[]] /\ r = rec_v6 x))
    /\ Forall soa_ok (map snd (text_inputs zdens hfl))
    /\ Forall (fun fa => NoDup (f_norm (fst fa)) /\ NoDup (f_wild (fst fa))) (map snd (text_inputs zdens hfl))
    /\ forall k,
         match alookup dname_eqb k zs, flat_chain (inputs_for k (text_inputs zdens hfl)) with
         | Some m, Some fm => z_apex m = k /\ zrepr m fm
         | None, None => inputs_for k (text_inputs zdens hfl) = []
         | _, _ => False
         end.
Proof. exact load_text_denotes. Qed.
Print Assumptions C12_load_text_denotes.

(* ... with the content of the chain spelled out on the denotations: an ordinary record is in the
   zone loaded for apex k iff some input with that apex denotes it -- except that an apex SOA record is
   there only if no later input supplies a SOA; a wildcard record iff some input denotes it; nothing is
   there twice; exactly one SOA record at the apex, that of the last input supplying one *)
Theorem C12_load_text_records : forall ip, ZoneRtLines.codec_rt ip -> forall a t zdens hfiles,
  (forall d, In d (a_zone_dirs a ++ a_hosts_dirs a) -> alookup leqb d (tfs_dirs t) <> None) ->
  Forall2 (zone_described ip t) (tzone_seq a t) zdens ->
  Forall2 (hosts_described t) (thosts_seq a t) hfiles ->
  exists zs hfl,
    load_text ip a t = Some zs /\ hosts_flat_denotes hfiles hfl /\
    forall k m, alookup dname_eqb k zs = Some m ->
      let l := inputs_for k (text_inputs zdens hfl) in
      exists fm, z_apex m = k /\ zrepr m fm /\
        (forall x, In x (f_norm fm) <-> exists pre fa post, l = pre ++ fa :: post /\ In x (f_norm (fst fa)) /\ survives x post) /\
        (forall x, In x (f_wild fm) <-> exists fa, In fa l /\ In x (f_wild (fst fa))) /\
        NoDup (f_norm fm) /\ NoDup (f_wild fm) /\
        (forall r, (In ([], r) (f_norm fm) /\ zr_type r = RT_SOA) <-> exists so, last_defined snd l = Some so /\ r = soa_zrec so).
Proof. exact load_text_records. Qed.
Print Assumptions C12_load_text_records.

(* for the codec the drivers run (std's address parsers as modelled in Ip/IpModel.v) nothing is assumed *)
Theorem C12_load_text_denotes_zf : forall a t zdens hfiles,
  (forall d, In d (a_zone_dirs a ++ a_hosts_dirs a) -> alookup leqb d (tfs_dirs t) <> None) ->
  Forall2 (zone_described ZfInstance.zf_codec t) (tzone_seq a t) zdens ->
  Forall2 (hosts_described t) (thosts_seq a t) hfiles ->
  exists zs hfl,
    load_text_zf a t = Some zs /\ hosts_flat_denotes hfiles hfl
    /\ Forall soa_ok (map snd (text_inputs zdens hfl))
    /\ Forall (fun fa => NoDup (f_norm (fst fa)) /\ NoDup (f_wild (fst fa))) (map snd (text_inputs zdens hfl))
    /\ forall k,
         match alookup dname_eqb k zs, flat_chain (inputs_for k (text_inputs zdens hfl)) with
         | Some m, Some fm => z_apex m = k /\ zrepr m fm
         | None, None => inputs_for k (text_inputs zdens hfl) = []
         | _, _ => False
         end.
Proof. exact (load_text_denotes ZfInstance.zf_codec ZoneRtCodec.zf_codec_rt). Qed.
Print Assumptions C12_load_text_denotes_zf.

(* the hypotheses are satisfiable: the zone file "e. 5 IN A 1.2.3.4" (no SOA: apex = the root) and
   the hosts file "1.2.3.4 h" load into ONE root zone answering for both names; with the zone file
   replaced by "$INCLUDE x" (rejected by Zone::deserialise) nothing loads *)
Example C12_text_example :
  option_map (fun zs => option_map (fun z => (zone_resolve z ex_apex RT_A, zone_resolve z ex_host RT_A)) (alookup dname_eqb root_domain zs))
             (load_text_zf ex_targs ex_tfs)
  = Some (Some (Some (Ok (ZAnswer [{| rr_name := ex_apex; rr_type := RT_A; rr_class := RC_IN; rr_ttl := 5; rr_data := RD_A 16909060 |}])),
                Some (Ok (ZAnswer [{| rr_name := ex_host; rr_type := RT_A; rr_class := RC_IN; rr_ttl := HOSTS_TTL; rr_data := RD_A 16909060 |}]))))
  /\ load_text_zf ex_targs ex_tfs_bad = None /\ text_config_bad ZfInstance.zf_codec ex_targs ex_tfs_bad.
Proof. split; [exact ex_text_loads|exact ex_text_bad]. Qed.
