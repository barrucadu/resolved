(* C04: encode-then-decode is the identity.

   [Parses bs m] (Wire/WireGrammar.v) is RFC 1035 section 4.1 written as a relation: the
   "independent decoder" of the property text.  [decode] is the model of
   Message::from_octets, [encode] the model of Message::to_octets. *)
From RV Require Import Base.Prelude Base.Cursor Name.NameModel Name.NameSpec
  Wire.WireTypes Wire.WireModel Wire.WireGrammar Wire.WireEncodeProofs Wire.WireDecodeProofs.

(* T1: the name -> pointer table *)

(* [wb_ok] (buffer length recorded correctly, octets are octets, every table entry sound, one
   entry per name) holds of the empty buffer and is preserved by every step of the encoder *)
Theorem C04_enc_table_inv :
  wb_ok wb_empty
  /\ (forall os b, bytes os -> wb_ok b -> wb_ok (write_octets os b))
  /\ (forall v b, wb_ok b -> wb_ok (write_u16 v b))
  /\ (forall v b, wb_ok b -> wb_ok (write_u32 v b))
  /\ (forall n c b, wf_name n -> wb_ok b -> wb_ok (encode_name n c b))
  /\ (forall ty d b, wf_rdata ty d -> wb_ok b -> wb_ok (encode_rdata d b))
  /\ (forall q b, wf_question q -> wb_ok b -> wb_ok (encode_question q b))
  /\ (forall h, wf_header h -> wb_ok (encode_header h wb_empty))
  /\ (forall r b b', wf_rr r -> wb_ok b -> encode_rr r b = Ok b' -> wb_ok b')
  /\ (forall rs b b', Forall wf_rr rs -> wb_ok b -> encode_rrs rs b = Ok b' -> wb_ok b').
Proof. exact enc_table_inv. Qed.
Print Assumptions C04_enc_table_inv.

(* what the invariant says of each entry (n, p): p = 0xC000 + off with off < 2^14, and at
   [off], entirely inside the buffer, the labels of n are written out in full (no pointer
   inside), so a name starting at [off] parses to n *)
Theorem C04_enc_table_entry : forall b n p, wb_ok b -> In (n, p) (wb_ptrs b) ->
  exists off, p = 49152 + off /\ off < 16384 /\ off < wb_len b /\ off + nlen n <= wb_len b
    /\ wf_name n /\ is_root n = false
    /\ PlainAt (wb_octets b) off (labels n)
    /\ NameAt (wb_octets b) off off (labels n) (off + nlen n)
    /\ NameIs (wb_octets b) off n (off + nlen n).
Proof. exact enc_table_inv_entry. Qed.
Print Assumptions C04_enc_table_entry.

Theorem C04_enc_table_keys : forall b, wb_ok b -> NoDup (map fst (wb_ptrs b)).
Proof. exact enc_table_inv_keys. Qed.
Print Assumptions C04_enc_table_keys.

(* the table only ever describes octets already written: facts about a prefix survive
   appending ... *)
Theorem C04_NameAt_stable : forall bs more s p ls nx,
  NameAt bs s p ls nx -> NameAt (bs ++ more) s p ls nx.
Proof. exact NameAt_app. Qed.
Print Assumptions C04_NameAt_stable.

(* ... and RDLENGTH back-patching replaces the two octets at its position and nothing else *)
Theorem C04_patch_local : forall b p v, wb_ok b -> p + 2 <= wb_len b ->
  (forall i, i < p \/ p + 2 <= i -> nthN (wb_octets (patch_u16 p v b)) i = nthN (wb_octets b) i)
  /\ (v < 65536 -> u16At (wb_octets (patch_u16 p v b)) p v).
Proof.
  intros b p v Hok Hp. split; [intros i Hi; now apply patch_u16_nth | now apply patch_u16_written].
Qed.
Print Assumptions C04_patch_local.

(* so it is the same as having written the length in the first place: the model's encode_rr,
   which overwrites the two placeholder octets afterwards, equals the patch-free function *)
Theorem C04_patch_free : forall r b, wb_ok b -> wf_rr r ->
  encode_rr r b =
    if rdata_len (rr_data r) <? 65536
    then Ok (encode_rdata (rr_data r) (write_u16 (rdata_len (rr_data r)) (rr_fixed r b)))
    else Err (CounterTooLarge (rdata_len (rr_data r))).
Proof. exact encode_rr_unpatched. Qed.
Print Assumptions C04_patch_free.

(* every compression pointer emitted addresses the start of an identical name written earlier,
   in full, and ending before the pointer *)
Theorem C04_pointer_target : forall b n p, wb_ok b -> alookup dname_eqb n (wb_ptrs b) = Some p ->
  exists off,
    wb_octets (encode_name n true b) = wb_octets b ++ [192 + off / 256; off mod 256]
    /\ off < 16384 /\ off + nlen n <= wb_len b
    /\ PlainAt (wb_octets b) off (labels n)
    /\ NameIs (wb_octets b) off n (off + nlen n).
Proof. exact encode_name_pointer. Qed.
Print Assumptions C04_pointer_target.

(* T2: what is written parses back *)

Theorem C04_encode_name_parses : forall n c b, wb_ok b -> wf_name n ->
  wb_ok (encode_name n c b)
  /\ NameIs (wb_octets (encode_name n c b)) (wb_len b) n (wb_len (encode_name n c b)).
Proof. exact encode_name_parses. Qed.
Print Assumptions C04_encode_name_parses.

Theorem C04_encode_question_parses : forall q b, wb_ok b -> wf_question q ->
  wb_ok (encode_question q b)
  /\ QuestionAt (wb_octets (encode_question q b)) (wb_len b) q (wb_len (encode_question q b)).
Proof. exact encode_question_parses. Qed.
Print Assumptions C04_encode_question_parses.

Theorem C04_encode_rr_parses : forall r b b', wb_ok b -> wf_rr r -> encode_rr r b = Ok b' ->
  wb_ok b' /\ RRAt (wb_octets b') (wb_len b) r (wb_len b').
Proof. exact encode_rr_parses. Qed.
Print Assumptions C04_encode_rr_parses.

(* T4: the two flag octets, read as the RFC numbers the bits, give back the header fields *)
Theorem C04_header_parses : forall h, wf_header h ->
  wb_ok (encode_header h wb_empty) /\ wb_len (encode_header h wb_empty) = 4
  /\ HeaderIs (wb_octets (encode_header h wb_empty)) h.
Proof. exact encode_header_ok. Qed.
Print Assumptions C04_header_parses.

(* the independent decoder: any well-formed message of any size (no 64 KiB hypothesis) *)
Theorem C04_encode_parses : forall m bs, wf_message m -> encode m = Ok bs -> Parses bs m.
Proof. exact encode_parses. Qed.
Print Assumptions C04_encode_parses.

Theorem C04_encode_bytes : forall m bs,
  wf_message m -> encode m = Ok bs -> Forall (fun b => b < 256) bs.
Proof. exact encode_bytes. Qed.
Print Assumptions C04_encode_bytes.

(* ... and nothing else: the grammar reads at most one message out of a byte string *)
Theorem C04_parses_unique : forall bs m m',
  Forall (fun b => b < 256) bs -> Parses bs m -> Parses bs m' -> m = m'.
Proof.
  intros bs m m' Hb P P'.
  pose proof (decode_complete bs m Hb P) as E. rewrite (decode_complete bs m' Hb P') in E.
  congruence.
Qed.
Print Assumptions C04_parses_unique.

(* the server's own decoder *)
Theorem C04_roundtrip : forall m bs, wf_message m -> encode m = Ok bs -> decode bs = Ok m.
Proof.
  intros m bs Hwf E. apply decode_complete; [eapply encode_bytes | eapply encode_parses]; eauto.
Qed.
Print Assumptions C04_roundtrip.

(* when encoding succeeds: exactly when the four section counts and every opaque RDATA length
   fit 16 bits ([encodable]) *)
Theorem C04_encode_ok_iff : forall m, wf_message m -> ((exists bs, encode m = Ok bs) <-> encodable m).
Proof. exact encode_ok_iff. Qed.
Print Assumptions C04_encode_ok_iff.

(* T3: re-encoding whatever decodes *)

(* against the grammar *)
Theorem C04_reencode_parses : forall bs m, bytes bs -> Parses bs m -> wf_message m ->
  exists bs', encode m = Ok bs' /\ Parses bs' m /\ bytes bs'.
Proof. exact reencode_parses. Qed.
Print Assumptions C04_reencode_parses.

(* with the model's decoder.  No side condition: encoding a decoded message always succeeds
   (section counts and opaque RDATA lengths were read from 16-bit fields; RDATA holding names
   that were compressed in the input grows when written in full, but is at most 530 octets) *)
Theorem C04_reencode : forall bs m, Forall (fun b => b < 256) bs -> decode bs = Ok m ->
  exists bs', encode m = Ok bs' /\ decode bs' = Ok m.
Proof.
  intros bs m Hb Hd.
  destruct (reencode_parses bs m Hb (decode_sound bs m Hb Hd) (decode_wf bs m Hb Hd))
    as (bs' & E & P & B).
  exists bs'. split; [exact E|]. now apply decode_complete.
Qed.
Print Assumptions C04_reencode.

(* the hypotheses are satisfiable *)

(* every record shape, repeated names, a 255-octet name, empty RDATA *)
Example C04_example : wf_message ex_msg
  /\ exists bs, encode ex_msg = Ok bs /\ llen bs = 859 /\ decode bs = Ok ex_msg.
Proof. split; [exact ex_msg_wf | exact ex_msg_roundtrip]. Qed.
Print Assumptions C04_example.

(* a name first written beyond offset 16383: never memoised, written in full every time *)
Example C04_example_big : wf_message ex_big
  /\ exists bs, encode ex_big = Ok bs /\ decode bs = Ok ex_big
       /\ llen bs = 12 + (17 + 4) + (2 + 10 + 17000) + 2 * (16 + 10 + 4) + (2 + 10 + 16).
Proof. split; [exact ex_big_wf | exact ex_big_roundtrip]. Qed.
Print Assumptions C04_example_big.
