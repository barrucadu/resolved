(* Base/Locks.v -- a generic small-step model of threads sharing ONE value behind a reader-writer lock
   (std::sync::Mutex = the special case without read sections; tokio::sync::RwLock as used for
   zones_lock in crates/resolved/src/main.rs), and the theorems that turn "for every sequential
   history" into "for every schedule":

   * a WRITE section (a SharedCache method; `*lock = zones` of reload_task) is
       acquire exclusively; run [wexec clock shared w], store the new value; release
     -- the body reads the clock and the shared value and writes the result back;
   * a READ section (resolve_and_build_response holding `zones_lock.read().await` across the whole
     resolution) is
       acquire shared; read the shared value any number of times, with steps of other threads in
       between; release; the caller's result is [rexec seen q], a function of the values seen.

   A schedule is an arbitrary list of events; an event that is not enabled (acquiring a held lock,
   stepping a thread that is idle, ...) leaves the state unchanged, so EVERY list is a schedule and
   the theorems quantify over all of them.  The lock admits MORE schedules than tokio's fair RwLock
   or a FIFO mutex (no fairness, no writer preference): safety proved here holds a fortiori there.

   What is modelled, not verified: that std's Mutex / tokio's RwLock provide exactly this exclusion,
   and that Rust's borrow checker confines access to the guarded value to the guard's lifetime.  The
   shape of the critical sections in the Rust source (one lock() per SharedCache method, one
   read().await before resolve(...), one write().await after load_zone_configuration) is read from
   the source by tools/tables.py on every run (Base/TablesOk.v). *)
From Coq Require Import List NArith Lia PeanoNat.
Import ListNotations.

Section RW.
Variables (S W Q O : Type).
Variable wexec : N -> S -> W -> S * O.
Variable rexec : list S -> Q -> O.

(* one executed write section: when, who, what, result *)
Record lin := { l_time : N; l_tid : nat; l_w : W; l_out : O }.

Inductive pc :=
| Idle
| WaitW (w : W) | HoldW (w : W) | DoneW (l : lin)
| WaitR (q : Q) | HoldR (q : Q) (seen : list S).

Inductive ev :=
| Tick (d : N)                 (* time passes *)
| CallW (t : nat) (w : W)      (* thread t starts a write section *)
| CallR (t : nat) (q : Q)      (* thread t starts a read section *)
| Acq (t : nat)                (* t tries to take the lock *)
| Step (t : nat)               (* t runs the next step of its section *)
| Rel (t : nat).               (* t drops its guard *)

Inductive ret :=
| WRet (l : lin)                                        (* a write section returned l_out l to l_tid l *)
| RRet (t : nat) (q : Q) (seen : list S) (o : O).       (* a read section returned o *)

Record sys := {
  clock : N;
  shared : S;
  writer : option nat;      (* lock state: the exclusive holder *)
  readers : list nat;       (* lock state: the shared holders *)
  pcs : nat -> pc;
  hist : list S;            (* every value the shared state has had, newest first *)
  wlog : list lin;          (* executed write sections, newest first *)
  rets : list ret }.        (* completed sections, newest first *)

Definition upd (f : nat -> pc) (t : nat) (v : pc) : nat -> pc :=
  fun t' => if Nat.eqb t' t then v else f t'.

Definition set_pc (s : sys) (t : nat) (v : pc) : sys :=
  {| clock := clock s; shared := shared s; writer := writer s; readers := readers s;
     pcs := upd (pcs s) t v; hist := hist s; wlog := wlog s; rets := rets s |}.

Definition remove_tid (t : nat) (l : list nat) : list nat := filter (fun x => negb (Nat.eqb x t)) l.

Definition sstep (s : sys) (e : ev) : sys :=
  match e with
  | Tick d =>
    {| clock := clock s + d; shared := shared s; writer := writer s; readers := readers s;
       pcs := pcs s; hist := hist s; wlog := wlog s; rets := rets s |}
  | CallW t w => match pcs s t with Idle => set_pc s t (WaitW w) | _ => s end
  | CallR t q => match pcs s t with Idle => set_pc s t (WaitR q) | _ => s end
  | Acq t =>
    match pcs s t with
    | WaitW w =>
      match writer s, readers s with
      | None, [] =>
        {| clock := clock s; shared := shared s; writer := Some t; readers := [];
           pcs := upd (pcs s) t (HoldW w); hist := hist s; wlog := wlog s; rets := rets s |}
      | _, _ => s
      end
    | WaitR q =>
      match writer s with
      | None =>
        {| clock := clock s; shared := shared s; writer := None; readers := t :: readers s;
           pcs := upd (pcs s) t (HoldR q []); hist := hist s; wlog := wlog s; rets := rets s |}
      | Some _ => s
      end
    | _ => s
    end
  | Step t =>
    match pcs s t with
    | HoldW w =>
      let r := wexec (clock s) (shared s) w in
      let l := {| l_time := clock s; l_tid := t; l_w := w; l_out := snd r |} in
      {| clock := clock s; shared := fst r; writer := writer s; readers := readers s;
         pcs := upd (pcs s) t (DoneW l); hist := fst r :: hist s; wlog := l :: wlog s; rets := rets s |}
    | HoldR q seen => set_pc s t (HoldR q (seen ++ [shared s]))
    | _ => s
    end
  | Rel t =>
    match pcs s t with
    | DoneW l =>
      {| clock := clock s; shared := shared s; writer := None; readers := readers s;
         pcs := upd (pcs s) t Idle; hist := hist s; wlog := wlog s; rets := WRet l :: rets s |}
    | HoldR q seen =>
      {| clock := clock s; shared := shared s; writer := writer s; readers := remove_tid t (readers s);
         pcs := upd (pcs s) t Idle; hist := hist s; wlog := wlog s;
         rets := RRet t q seen (rexec seen q) :: rets s |}
    | _ => s
    end
  end.

Definition run_sched (s : sys) (evs : list ev) : sys := fold_left sstep evs s.

Definition init_sys (s0 : S) : sys :=
  {| clock := 0; shared := s0; writer := None; readers := []; pcs := fun _ => Idle;
     hist := [s0]; wlog := []; rets := [] |}.

(* [replays ls s s']: executing the write sections ls (oldest first) one after the other from s, each at
   its recorded instant, gives s' and exactly the recorded results *)
Inductive replays : list lin -> S -> S -> Prop :=
| rp_nil : forall s, replays [] s s
| rp_cons : forall l ls s s',
    l_out l = snd (wexec (l_time l) s (l_w l)) ->
    replays ls (fst (wexec (l_time l) s (l_w l))) s' ->
    replays (l :: ls) s s'.

Fixpoint times_sorted (ls : list lin) : Prop :=   (* newest first: non-increasing *)
  match ls with
  | [] => True
  | l :: rest => match rest with [] => True | l' :: _ => (l_time l' <= l_time l)%N end /\ times_sorted rest
  end.

Definition holds_w (p : pc) : Prop := (exists w, p = HoldW w) \/ (exists l, p = DoneW l).
Definition holds_r (p : pc) : Prop := exists q seen, p = HoldR q seen.

(* the invariant of every reachable state, in two parts. What the program counters agree with: the
   lock, the shared value, the log of executed sections ... *)
Record pcs_ok (f : nat -> pc) (wr : option nat) (rd : list nat) (sh : S) (wl : list lin) : Prop := {
  i_writer : forall t, holds_w (f t) <-> wr = Some t;
  i_readers : forall t, holds_r (f t) <-> In t rd;
  i_excl : wr <> None -> rd = [];
  i_seen : forall t q seen, f t = HoldR q seen -> Forall (eq sh) seen;
  i_done : forall t l, f t = DoneW l -> In l wl /\ l_tid l = t
}.

(* ... and what the ghost logs say of the clock and the shared value *)
Record log_ok (s0 : S) (ck : N) (sh : S) (hs : list S) (wl : list lin) (rs : list ret) : Prop := {
  i_hist : exists tl, hs = sh :: tl;
  i_init : In s0 hs;
  i_replay : replays (rev wl) s0 sh;
  i_sorted : times_sorted wl;
  i_clock : forall l, In l wl -> (l_time l <= ck)%N;
  i_wrets : forall l, In (WRet l) rs -> In l wl;
  i_rrets : forall t q seen o, In (RRet t q seen o) rs ->
              o = rexec seen q /\ exists v, In v hs /\ Forall (eq v) seen;
  i_hist_w : forall v, In v hs -> v = s0 \/ exists l s1, In l wl /\ In s1 hs /\
                                             v = fst (wexec (l_time l) s1 (l_w l))
}.

Definition inv (s0 : S) (s : sys) : Prop :=
  pcs_ok (pcs s) (writer s) (readers s) (shared s) (wlog s) /\
  log_ok s0 (clock s) (shared s) (hist s) (wlog s) (rets s).

(* a property of every program counter survives the update of one of them *)
Lemma upd_ind (P : nat -> pc -> Prop) f t v :
  P t v -> (forall t', t' <> t -> P t' (f t')) -> forall t', P t' (upd f t v t').
Proof. intros Hv Hf t'. unfold upd. destruct (Nat.eqb_spec t' t) as [->|Hn]; auto. Qed.

(* which side of the lock a program counter is inside of: Some true = exclusive, Some false = shared *)
Definition mode (p : pc) : option bool :=
  match p with HoldW _ | DoneW _ => Some true | HoldR _ _ => Some false | _ => None end.

Lemma holds_w_mode p : holds_w p <-> mode p = Some true.
Proof.
  split.
  - intros [[w ->]|[l ->]]; reflexivity.
  - destruct p; try discriminate; intros _; [left|right]; eexists; reflexivity.
Qed.

Lemma holds_r_mode p : holds_r p <-> mode p = Some false.
Proof.
  split.
  - intros (q & sn & ->). reflexivity.
  - destruct p; try discriminate. intros _. eexists; eexists; reflexivity.
Qed.

Lemma in_remove_tid t x l : In x (remove_tid t l) <-> In x l /\ x <> t.
Proof.
  unfold remove_tid. rewrite filter_In. split; intros [H1 H2]; split; try assumption.
  - intro E. subst. rewrite Nat.eqb_refl in H2. discriminate.
  - destruct (Nat.eqb_spec x t); [contradiction|reflexivity].
Qed.

Lemma replays_snoc ls : forall s s' l,
  replays ls s s' -> l_out l = snd (wexec (l_time l) s' (l_w l)) ->
  replays (ls ++ [l]) s (fst (wexec (l_time l) s' (l_w l))).
Proof.
  induction ls as [|x xs IH]; intros s s' l H Hl; inversion H; subst; cbn [app].
  - apply rp_cons; [assumption|apply rp_nil].
  - apply rp_cons; [assumption|]. apply IH; assumption.
Qed.

Lemma inv_init s0 : inv s0 (init_sys s0).
Proof.
  split; constructor; cbn.
  - intro t. rewrite holds_w_mode. split; discriminate.
  - intro t. rewrite holds_r_mode. split; [discriminate|intros []].
  - reflexivity.
  - intros; discriminate.
  - intros; discriminate.
  - eexists; reflexivity.
  - left; reflexivity.
  - apply rp_nil.
  - exact I.
  - intros l [].
  - intros l [].
  - intros t q sn o [].
  - intros v [<-|[]]. left; reflexivity.
Qed.

Ltac pc_cases s t := destruct (pcs s t) as [|w0|w0|l0|q0|q0 seen0] eqn:Hpc.

(* Thread t moves from [f t] to v while the lock goes from (wr, rd) to (wr', rd'), the shared value from
   sh to sh' and the log from wl to wl': the threads other than t must agree with the new lock state as
   they did with the old, and v must. *)
Lemma pcs_step f t v wr wr' rd rd' sh sh' wl wl' :
  pcs_ok f wr rd sh wl ->
  (holds_w v <-> wr' = Some t) -> (holds_r v <-> In t rd') ->
  (forall t', t' <> t -> (wr = Some t' <-> wr' = Some t') /\ (In t' rd <-> In t' rd')) ->
  (wr' <> None -> rd' = []) ->
  (forall q sn, v = HoldR q sn -> Forall (eq sh') sn) -> (sh' = sh \/ rd = []) ->
  (forall l, v = DoneW l -> In l wl' /\ l_tid l = t) -> incl wl wl' ->
  pcs_ok (upd f t v) wr' rd' sh' wl'.
Proof.
  intros P Hw Hr Hf Hx Hs Hsh Hd Hwl. constructor; [| | exact Hx | |].
  - apply (upd_ind (fun t' p => holds_w p <-> wr' = Some t')); [assumption|]. intros t' Hn.
    rewrite (i_writer _ _ _ _ _ P). apply Hf, Hn.
  - apply (upd_ind (fun t' p => holds_r p <-> In t' rd')); [assumption|]. intros t' Hn.
    rewrite (i_readers _ _ _ _ _ P). apply Hf, Hn.
  - apply (upd_ind (fun _ p => forall q sn, p = HoldR q sn -> Forall (eq sh') sn)); [assumption|].
    intros t' _ q sn E. destruct Hsh as [->|Hrd]; [exact (i_seen _ _ _ _ _ P _ _ _ E)|].
    exfalso. assert (Hin : In t' rd) by (apply (i_readers _ _ _ _ _ P); rewrite E; do 2 eexists; reflexivity).
    rewrite Hrd in Hin. exact Hin.
  - apply (upd_ind (fun t' p => forall l, p = DoneW l -> In l wl' /\ l_tid l = t')); [assumption|].
    intros t' _ l E. destruct (i_done _ _ _ _ _ P _ _ E). auto.
Qed.

(* the same when the thread stays on its side of the lock, which then does not move *)
Lemma pcs_step_same f t v wr rd sh sh' wl wl' :
  pcs_ok f wr rd sh wl -> mode v = mode (f t) ->
  (forall q sn, v = HoldR q sn -> Forall (eq sh') sn) -> (sh' = sh \/ rd = []) ->
  (forall l, v = DoneW l -> In l wl' /\ l_tid l = t) -> incl wl wl' ->
  pcs_ok (upd f t v) wr rd sh' wl'.
Proof.
  intros P Hm. apply (pcs_step _ _ _ _ _ _ _ _ _ _ _ P); try assumption.
  - rewrite <- (i_writer _ _ _ _ _ P), !holds_w_mode, Hm. reflexivity.
  - rewrite <- (i_readers _ _ _ _ _ P), !holds_r_mode, Hm. reflexivity.
  - intros; split; reflexivity.
  - exact (i_excl _ _ _ _ _ P).
Qed.

(* expose the two parts of [inv] for a state given by its fields *)
Ltac open_inv := unfold inv, set_pc; cbn [clock shared writer readers pcs hist wlog rets].

Lemma sstep_inv s0 s e : inv s0 s -> inv s0 (sstep s e).
Proof.
  intros HI. pose proof HI as [P L]. destruct e as [d|t w|t q|t|t|t]; cbn [sstep]; [|pc_cases s t; try exact HI ..].
  - open_inv. split; [exact P|]. destruct L. constructor; cbn; try assumption.
    intros l Hl. specialize (i_clock0 l Hl). lia.
  - open_inv. split; [|exact L]. apply (pcs_step_same _ _ _ _ _ _ _ _ _ P); rewrite ?Hpc; auto using incl_refl; discriminate.
  - open_inv. split; [|exact L]. apply (pcs_step_same _ _ _ _ _ _ _ _ _ P); rewrite ?Hpc; auto using incl_refl; discriminate.
  - (* a writer gets in: nobody holds the lock *)
    destruct (writer s) as [t0|] eqn:Hwr; [exact HI|].
    destruct (readers s) as [|r rs] eqn:Hrd; [|exact HI].
    open_inv. split; [|exact L]. apply (pcs_step _ _ _ _ _ _ _ _ _ _ _ P);
      rewrite ?holds_w_mode, ?holds_r_mode; auto using incl_refl; try discriminate.
    + split; reflexivity.
    + split; [discriminate|intros []].
    + intros t' Hn. split; [split; congruence|reflexivity].
  - (* a reader gets in *)
    destruct (writer s) as [t0|] eqn:Hwr; [exact HI|].
    open_inv. split; [|exact L]. apply (pcs_step _ _ _ _ _ _ _ _ _ _ _ P);
      rewrite ?holds_w_mode, ?holds_r_mode; auto using incl_refl; try discriminate.
    + split; discriminate.
    + split; [left|]; reflexivity.
    + intros t' Hn. split; [reflexivity|]. cbn [In]. split; [auto|intros [E|H]; [congruence|exact H]].
    + intro H; contradiction.
    + intros q sn [= _ <-]. constructor.
  - (* the body of a write section runs; nobody else holds the lock *)
    assert (Hwr : writer s = Some t) by (apply (i_writer _ _ _ _ _ P); rewrite Hpc, holds_w_mode; reflexivity).
    assert (Hrd : readers s = []) by (apply (i_excl _ _ _ _ _ P); rewrite Hwr; discriminate).
    set (r := wexec (clock s) (shared s) w0).
    set (l := {| l_time := clock s; l_tid := t; l_w := w0; l_out := snd r |}).
    open_inv. split.
    + apply (pcs_step_same _ _ _ _ _ _ _ _ _ P); rewrite ?Hpc; auto using incl_tl, incl_refl; try discriminate.
      intros l' [= <-]. split; [left|]; reflexivity.
    + destruct L. constructor; cbn [clock shared hist wlog rets]; try assumption.
      * eexists; reflexivity.
      * right; assumption.
      * cbn [rev]. apply (replays_snoc (rev (wlog s)) s0 (shared s) l); [assumption|reflexivity].
      * split; [|assumption]. destruct (wlog s) as [|l' rest] eqn:Hlog; [exact I|]. apply i_clock0. left; reflexivity.
      * intros l' [<-|Hl]; [cbn; lia|apply i_clock0; assumption].
      * intros l' Hl. right. apply i_wrets0; assumption.
      * intros t' q sn o Hr. destruct (i_rrets0 _ _ _ _ Hr) as (Ho & v & Hv & Hf).
        split; [assumption|]. exists v. split; [right; assumption|assumption].
      * intros v [<-|Hv].
        -- right. exists l, (shared s). split; [left; reflexivity|]. split; [|reflexivity]. right.
           destruct i_hist0 as (tl & ->). left; reflexivity.
        -- destruct (i_hist_w0 v Hv) as [->|(l' & s1 & Hl & Hs1 & ->)]; [left; reflexivity|].
           right. exists l', s1. split; [right; assumption|]. split; [right; assumption|reflexivity].
  - (* one more read of the shared value *)
    open_inv. split; [|exact L]. apply (pcs_step_same _ _ _ _ _ _ _ _ _ P); rewrite ?Hpc; auto using incl_refl; try discriminate.
    intros q sn [= _ <-]. apply Forall_app. split; [exact (i_seen _ _ _ _ _ P _ _ _ Hpc)|]. constructor; [reflexivity|constructor].
  - (* a writer leaves *)
    assert (Hwr : writer s = Some t) by (apply (i_writer _ _ _ _ _ P); rewrite Hpc, holds_w_mode; reflexivity).
    open_inv. split.
    + apply (pcs_step _ _ _ _ _ _ _ _ _ _ _ P); rewrite ?holds_w_mode, ?holds_r_mode, ?Hwr; auto using incl_refl; try discriminate.
      * split; discriminate.
      * rewrite (i_excl _ _ _ _ _ P) by (rewrite Hwr; discriminate). split; [discriminate|intros []].
      * intros t' Hn. split; [split; congruence|reflexivity].
      * intro H; contradiction.
    + destruct L. constructor; cbn [clock shared hist wlog rets]; try assumption.
      * intros l [[= <-]|Hl]; [apply (i_done _ _ _ _ _ P t); assumption|apply i_wrets0; assumption].
      * intros t' q sn o [E|Hr]; [discriminate|]. apply (i_rrets0 _ _ _ _ Hr).
  - (* a reader leaves *)
    open_inv. split.
    + apply (pcs_step _ _ _ _ _ _ _ _ _ _ _ P); rewrite ?holds_w_mode, ?holds_r_mode, ?in_remove_tid; auto using incl_refl; try discriminate.
      * rewrite <- (i_writer _ _ _ _ _ P), Hpc, holds_w_mode. split; discriminate.
      * split; [discriminate|intros [_ H]; contradiction].
      * intros t' Hn. split; [reflexivity|]. rewrite in_remove_tid. tauto.
      * intro H. rewrite (i_excl _ _ _ _ _ P H). reflexivity.
    + destruct L. constructor; cbn [clock shared hist wlog rets]; try assumption.
      * intros l [E|Hl]; [discriminate|apply i_wrets0; assumption].
      * intros t' q sn o [[= <- <- <- <-]|Hr]; [|apply (i_rrets0 _ _ _ _ Hr)].
        split; [reflexivity|]. exists (shared s). split; [|exact (i_seen _ _ _ _ _ P _ _ _ Hpc)].
        destruct i_hist0 as (tl & ->). left; reflexivity.
Qed.

Theorem run_sched_inv s0 evs : forall s, inv s0 s -> inv s0 (run_sched s evs).
Proof.
  induction evs as [|e evs IH]; intros s I; [exact I|]. cbn [run_sched fold_left].
  apply IH. apply sstep_inv. exact I.
Qed.

Lemma reach_inv s0 evs : inv s0 (run_sched (init_sys s0) evs).
Proof. apply run_sched_inv, inv_init. Qed.

(* Linearisability of the write sections: after ANY schedule the shared value is the result of
   executing the completed bodies one after the other, in the order in which they ran (lock
   order), each at its own instant; the instants are non-decreasing; every result a caller got
   is the result of its section in that sequential execution. *)
Theorem writes_linearise s0 evs :
  let s := run_sched (init_sys s0) evs in
  replays (rev (wlog s)) s0 (shared s) /\ times_sorted (wlog s) /\
  (forall l, In (WRet l) (rets s) -> In l (wlog s)).
Proof.
  intro s. destruct (reach_inv s0 evs) as [_ []]. auto.
Qed.

(* Mutual exclusion: two threads never hold the exclusive lock together and a reader never
   coexists with a writer. *)
Theorem mutual_exclusion s0 evs :
  let s := run_sched (init_sys s0) evs in
  forall t1 t2, holds_w (pcs s t1) -> (holds_w (pcs s t2) -> t1 = t2) /\ ~ holds_r (pcs s t2).
Proof.
  intros s t1 t2 H1. destruct (reach_inv s0 evs) as [[] _]. apply i_writer0 in H1. split.
  - intro H2. apply i_writer0 in H2. rewrite H1 in H2. injection H2 as ->. reflexivity.
  - intro H2. apply i_readers0 in H2. rewrite i_excl0 in H2 by (rewrite H1; discriminate). exact H2.
Qed.

(* Read sections are consistent: everything one read section saw of the shared value, however many
   reads it made and whatever ran in between, is ONE value, and that value is the initial one or was
   produced by an executed write section. *)
Theorem reads_consistent s0 evs :
  let s := run_sched (init_sys s0) evs in
  forall t q seen o, In (RRet t q seen o) (rets s) ->
    o = rexec seen q /\ exists v, Forall (eq v) seen /\ In v (hist s) /\
      (v = s0 \/ exists l s1, In l (wlog s) /\ v = fst (wexec (l_time l) s1 (l_w l))).
Proof.
  intros s t q seen o H. destruct (reach_inv s0 evs) as [_ []]. destruct (i_rrets0 _ _ _ _ H) as (Ho & v & Hv & Hf).
  split; [assumption|]. exists v. split; [assumption|]. split; [assumption|].
  destruct (i_hist_w0 v Hv) as [->|(l & s1 & Hl & _ & ->)]; [left; reflexivity|right; eauto].
Qed.

(* The values the shared state has had: the current one heads the history, and each is the initial
   value or what an executed write section made of an earlier one. *)
Theorem hist_origin s0 evs :
  let s := run_sched (init_sys s0) evs in
  (exists tl, hist s = shared s :: tl) /\
  forall v, In v (hist s) -> v = s0 \/ exists l s1, In l (wlog s) /\ In s1 (hist s) /\
                                       v = fst (wexec (l_time l) s1 (l_w l)).
Proof. intro s. destruct (reach_inv s0 evs) as [_ []]. auto. Qed.

(* A predicate that holds initially and is preserved by every write body holds of the shared value
   after every schedule (at every instant: a prefix of a schedule is a schedule). *)
Theorem shared_invariant (P : S -> Prop) s0 evs :
  P s0 -> (forall now s w, P s -> P (fst (wexec now s w))) ->
  P (shared (run_sched (init_sys s0) evs)) /\ Forall P (hist (run_sched (init_sys s0) evs)).
Proof.
  intros H0 Hstep.
  assert (G : forall evs s, P (shared s) /\ Forall P (hist s) ->
              P (shared (run_sched s evs)) /\ Forall P (hist (run_sched s evs))).
  { clear evs. induction evs as [|e evs IH]; intros s Hs; [exact Hs|]. cbn [run_sched fold_left].
    apply IH. destruct Hs as [Hs Hh].
    destruct e as [d|t w|t q|t|t|t]; cbn [sstep]; try (split; assumption);
      destruct (pcs s t); cbn; try (split; assumption).
    - destruct (writer s); [split; assumption|]. destruct (readers s); cbn; split; assumption.
    - destruct (writer s); cbn; split; assumption.
    - split; [apply Hstep; assumption|constructor; [apply Hstep; assumption|assumption]]. }
  apply G. cbn. split; [assumption|constructor; [assumption|constructor]].
Qed.


Fixpoint sorted_from (n : N) (ls : list lin) : Prop :=
  match ls with [] => True | l :: r => (n <= l_time l)%N /\ sorted_from (l_time l) r end.

Fixpoint last_time (n : N) (ls : list lin) : N :=
  match ls with [] => n | l :: r => last_time (l_time l) r end.

Lemma last_time_snoc ls : forall n l, last_time n (ls ++ [l]) = l_time l.
Proof. induction ls as [|x xs IH]; intros n l; cbn; [reflexivity|apply IH]. Qed.

Lemma sorted_from_snoc ls : forall n l,
  sorted_from n ls -> (last_time n ls <= l_time l)%N -> sorted_from n (ls ++ [l]).
Proof.
  induction ls as [|x xs IH]; intros n l H Hl; cbn in *.
  - split; [assumption|exact I].
  - destruct H as [H1 H2]. split; [assumption|]. apply IH; assumption.
Qed.

Lemma times_sorted_rev ls : times_sorted ls -> sorted_from 0 (rev ls).
Proof.
  induction ls as [|l rest IH]; intro H; [exact I|]. cbn [rev]. destruct H as [H1 H2].
  apply sorted_from_snoc; [apply IH; assumption|].
  destruct rest as [|l' r']; [cbn; apply N.le_0_l|]. cbn [rev]. rewrite last_time_snoc. exact H1.
Qed.

(* The linearisation, oldest first: a sequential execution with non-decreasing instants. *)
Theorem writes_linearise_sorted s0 evs :
  let s := run_sched (init_sys s0) evs in
  replays (rev (wlog s)) s0 (shared s) /\ sorted_from 0 (rev (wlog s)).
Proof.
  intro s. destruct (writes_linearise s0 evs) as (H1 & H2 & _). fold s in H1, H2.
  split; [assumption|apply times_sorted_rev; assumption].
Qed.

(* the call a thread is waiting to run or running *)
Definition pending (p : pc) : option (W + Q) :=
  match p with
  | WaitW w | HoldW w => Some (inl w)
  | WaitR q | HoldR q _ => Some (inr q)
  | _ => None
  end.

Definition call_of (t : nat) (c : W + Q) : ev := match c with inl w => CallW t w | inr q => CallR t q end.

Record called (evs : list ev) (s : sys) : Prop := {
  c_pend : forall t c, pending (pcs s t) = Some c -> In (call_of t c) evs;
  c_wlog : forall l, In l (wlog s) -> In (CallW (l_tid l) (l_w l)) evs;
  c_rrets : forall t q sn o, In (RRet t q sn o) (rets s) -> In (CallR t q) evs
}.

Lemma run_sched_snoc s evs e : run_sched s (evs ++ [e]) = sstep (run_sched s evs) e.
Proof. unfold run_sched. rewrite fold_left_app. reflexivity. Qed.

(* thread t moves to a program counter whose pending call is the one it had, or the one just made *)
Lemma called_upd evs e s t v :
  (forall t c, pending (pcs s t) = Some c -> In (call_of t c) evs) ->
  (forall c, pending v = Some c -> pending (pcs s t) = Some c \/ call_of t c = e) ->
  forall t' c, pending (upd (pcs s) t v t') = Some c -> In (call_of t' c) (evs ++ [e]).
Proof.
  intros A Hv. apply (upd_ind (fun t' p => forall c, pending p = Some c -> In (call_of t' c) (evs ++ [e]))).
  - intros c E. apply in_or_app. destruct (Hv c E) as [H|H]; [left; apply A, H|right; left; symmetry; exact H].
  - intros t' _ c E. apply in_or_app. left. apply A, E.
Qed.

Lemma called_step evs s e : called evs s -> called (evs ++ [e]) (sstep s e).
Proof.
  intros [A C D].
  assert (U : called (evs ++ [e]) s) by (constructor; intros; apply in_or_app; left; eauto).
  pose proof U as [A' C' D'].
  pose proof (fun t v => called_upd evs e s t v A) as K.
  destruct e as [d|t w|t q|t|t|t]; cbn [sstep]; [constructor; assumption|pc_cases s t; try exact U ..].
  - constructor; cbn; try assumption. apply K. intros c [= <-]. right; reflexivity.
  - constructor; cbn; try assumption. apply K. intros c [= <-]. right; reflexivity.
  - destruct (writer s); [exact U|]. destruct (readers s); [|exact U].
    constructor; cbn; try assumption. apply K. rewrite Hpc. auto.
  - destruct (writer s); [exact U|].
    constructor; cbn; try assumption. apply K. rewrite Hpc. auto.
  - constructor; cbn; try assumption; [apply K; discriminate|].
    intros l [<-|Hl]; [|apply C', Hl]. apply (A' t (inl w0)). rewrite Hpc. reflexivity.
  - constructor; cbn; try assumption. apply K. rewrite Hpc. auto.
  - constructor; cbn; try assumption; [apply K; discriminate|].
    intros t' q' sn o [E|Hr]; [discriminate|eapply D'; eassumption].
  - constructor; cbn; try assumption; [apply K; discriminate|].
    intros t' q' sn o [[= <- <- _ _]|Hr]; [|eapply D'; eassumption].
    apply (A' t (inr q0)). rewrite Hpc. reflexivity.
Qed.

Theorem only_called_sections_run s0 evs :
  let s := run_sched (init_sys s0) evs in
  (forall l, In l (wlog s) -> In (CallW (l_tid l) (l_w l)) evs) /\
  (forall t q sn o, In (RRet t q sn o) (rets s) -> In (CallR t q) evs).
Proof.
  assert (G : called evs (run_sched (init_sys s0) evs)).
  { induction evs as [|e evs IH] using rev_ind.
    - constructor; cbn; [discriminate|contradiction..].
    - rewrite run_sched_snoc. apply called_step. exact IH. }
  intro s. destruct G. split; assumption.
Qed.

End RW.
