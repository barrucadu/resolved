(* Base/Cursor.v -- model of protocol/deserialise.rs ConsumableBuffer.
   A cursor is (position, octets from position on); the whole buffer is passed
   separately where [at_offset] needs it.  The decoders only hold cursors of the
   form [at_offset whole p], that is crest = skipn cpos whole; the wire proofs
   reason about cursors of that form (Base/PreludeFacts.v). *)
From RV Require Import Base.Prelude.

Record cur := { cpos : N; crest : list byte }.

Definition cur_new (bs : list byte) : cur := {| cpos := 0; crest := bs |}.

Definition at_offset (bs : list byte) (p : N) : cur :=
  {| cpos := p; crest := skipn (N.to_nat p) bs |}.

Definition next_u8 (c : cur) : option (N * cur) :=
  match crest c with
  | b :: r => Some (b, {| cpos := cpos c + 1; crest := r |})
  | [] => None
  end.

Definition next_u16 (c : cur) : option (N * cur) :=
  match crest c with
  | a :: b :: r => Some (u16_be a b, {| cpos := cpos c + 2; crest := r |})
  | _ => None
  end.

Definition next_u32 (c : cur) : option (N * cur) :=
  match crest c with
  | a :: b :: c' :: d :: r => Some (u32_be a b c' d, {| cpos := cpos c + 4; crest := r |})
  | _ => None
  end.

(* split off exactly n elements, None if fewer are available *)
Fixpoint split_exact {A} (n : nat) (l : list A) : option (list A * list A) :=
  match n with
  | O => Some ([], l)
  | S n' => match l with
            | [] => None
            | x :: t => match split_exact n' t with
                        | Some (a, b) => Some (x :: a, b)
                        | None => None
                        end
            end
  end.

Definition take (size : N) (c : cur) : option (list byte * cur) :=
  match split_exact (N.to_nat size) (crest c) with
  | Some (a, b) => Some (a, {| cpos := cpos c + size; crest := b |})
  | None => None
  end.
