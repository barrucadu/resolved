(* Association lists (alookup / areplace / ainsert / aremove of Base/Prelude.v) over a
   key type whose boolean equality reflects equality, and the few list facts used with them. *)
From Coq Require Import Permutation Sorting.Sorted.
From RV Require Import Base.Prelude.

Lemma NoDup_snoc {A} (l : list A) x : NoDup l -> ~ In x l -> NoDup (l ++ [x]).
Proof.
  intros Hl Hx. apply (Permutation_NoDup (l := x :: l)); [apply Permutation_cons_append|].
  constructor; assumption.
Qed.

Lemma nodup_app {A} (a b : list A) :
  NoDup a -> NoDup b -> (forall x, In x a -> In x b -> False) -> NoDup (a ++ b).
Proof.
  intros Ha Hb Hd. induction Ha as [|x a Hx Ha IH]; [exact Hb|]. cbn [app]. constructor.
  - intro Hin. apply in_app_or in Hin as [Hin|Hin]; [contradiction|]. apply (Hd x); [left; reflexivity|exact Hin].
  - apply IH. intros y Hy. apply Hd. right. exact Hy.
Qed.

Lemma map_flat_map {A B C} (g : B -> C) (f : A -> list B) l :
  map g (flat_map f l) = flat_map (fun x => map g (f x)) l.
Proof. induction l as [|x l IH]; cbn [flat_map map]; [reflexivity|]. rewrite map_app, IH. reflexivity. Qed.

Section AssocFacts.
  Context {K V : Type} (keqb : K -> K -> bool).
  Hypothesis keqb_eq : forall a b, keqb a b = true <-> a = b.

  Lemma keqb_refl k : keqb k k = true.
  Proof. apply keqb_eq. reflexivity. Qed.
  Lemma keqb_neq a b : a <> b -> keqb a b = false.
  Proof. intro H. destruct (keqb a b) eqn:E; [apply keqb_eq in E; contradiction | reflexivity]. Qed.
  Lemma keqb_false a b : keqb a b = false -> a <> b.
  Proof. intros E ->. rewrite keqb_refl in E. discriminate. Qed.
  Lemma keqb_sym a b : keqb a b = keqb b a.
  Proof.
    destruct (keqb a b) eqn:E.
    - apply keqb_eq in E. subst. symmetry. apply keqb_refl.
    - symmetry. apply keqb_neq. intro H. subst. rewrite keqb_refl in E. discriminate.
  Qed.

  Lemma alookup_in k (v : V) m : alookup keqb k m = Some v -> In (k, v) m.
  Proof.
    induction m as [|[k' v'] m IH]; cbn [alookup]; [discriminate|].
    destruct (keqb k k') eqn:E.
    - apply keqb_eq in E. subst. intro H; inversion H; subst. left; reflexivity.
    - intro H. right. apply IH, H.
  Qed.

  Lemma alookup_none_iff k (m : list (K * V)) : alookup keqb k m = None <-> ~ In k (map fst m).
  Proof.
    induction m as [|[k' v'] m IH]; cbn [alookup map fst In]; [tauto|].
    destruct (keqb k k') eqn:E.
    - apply keqb_eq in E. subst. split; [discriminate | intro H; exfalso; apply H; left; reflexivity].
    - apply keqb_false in E. rewrite IH. split; [intros H [H1|H1]; [congruence | tauto] | tauto].
  Qed.
  Lemma alookup_none_notin k m : alookup keqb k m = None -> ~ In k (map (@fst K V) m).
  Proof. apply alookup_none_iff. Qed.
  Lemma alookup_notin_none k m : ~ In k (map (@fst K V) m) -> alookup keqb k m = None.
  Proof. apply alookup_none_iff. Qed.

  Lemma in_alookup k v (m : list (K * V)) : NoDup (map fst m) -> In (k, v) m -> alookup keqb k m = Some v.
  Proof.
    induction m as [|[k' v'] m IH]; cbn [alookup map fst In]; [tauto|].
    intros Hnd [H|H].
    - inversion H; subst. rewrite keqb_refl. reflexivity.
    - inversion Hnd as [|? ? Hni Hnd']; subst.
      destruct (keqb k k') eqn:E.
      + apply keqb_eq in E. subst. exfalso. apply Hni. apply (in_map fst) in H. exact H.
      + apply IH; assumption.
  Qed.

  (* the split form of a successful lookup *)
  Lemma alookup_split k (m : list (K * V)) v :
    alookup keqb k m = Some v ->
    exists pre suf, m = pre ++ (k, v) :: suf /\ alookup keqb k pre = None /\
      (forall v', areplace keqb k v' m = pre ++ (k, v') :: suf) /\ aremove keqb k m = pre ++ suf.
  Proof.
    induction m as [|[k' v0] m IH]; cbn [alookup areplace aremove]; [discriminate|].
    destruct (keqb k k') eqn:E.
    - apply keqb_eq in E. subst. intro H; inversion H; subst.
      exists [], m. cbn [app alookup]. auto.
    - intro H. destruct (IH H) as (pre & suf & -> & Hn & Hr & Hd).
      exists ((k', v0) :: pre), suf. cbn [app alookup]. rewrite E.
      split; [reflexivity|]. split; [exact Hn|]. split.
      + intro v'. rewrite Hr. reflexivity.
      + rewrite Hd. reflexivity.
  Qed.

  Lemma alookup_app k (a b : list (K * V)) :
    alookup keqb k (a ++ b) = match alookup keqb k a with Some v => Some v | None => alookup keqb k b end.
  Proof.
    induction a as [|[k' v'] a IH]; cbn [app alookup]; [reflexivity|].
    destruct (keqb k k'); [reflexivity | exact IH].
  Qed.
  Lemma alookup_app_new k (v : V) m : alookup keqb k m = None -> alookup keqb k (m ++ [(k, v)]) = Some v.
  Proof. intro H. rewrite alookup_app, H. cbn [alookup]. rewrite keqb_refl. reflexivity. Qed.
  Lemma alookup_app_other k k' (v : V) m : k' <> k -> alookup keqb k' (m ++ [(k, v)]) = alookup keqb k' m.
  Proof.
    intro H. rewrite alookup_app. cbn [alookup]. rewrite (keqb_neq _ _ H). destruct (alookup keqb k' m); reflexivity.
  Qed.

  Lemma alookup_forall (P : K * V -> Prop) k v (m : list (K * V)) :
    Forall P m -> alookup keqb k m = Some v -> P (k, v).
  Proof. intros H Hl. apply alookup_in in Hl. rewrite Forall_forall in H. apply H, Hl. Qed.

  (* two duplicate-free association lists with the same entries at a key agree there *)
  Lemma alookup_ext_key (m1 m2 : list (K * V)) k :
    NoDup (map fst m1) -> NoDup (map fst m2) -> (forall v, In (k, v) m1 <-> In (k, v) m2) ->
    alookup keqb k m1 = alookup keqb k m2.
  Proof.
    intros H1 H2 H. destruct (alookup keqb k m1) eqn:E1.
    - symmetry. apply in_alookup; [exact H2|]. apply H. apply alookup_in. exact E1.
    - destruct (alookup keqb k m2) eqn:E2; [|reflexivity].
      apply alookup_in, H, (in_alookup _ _ _ H1) in E2. congruence.
  Qed.

  Lemma areplace_keys k (v : V) m : map fst (areplace keqb k v m) = map fst m.
  Proof.
    induction m as [|[k' v'] m IH]; cbn [areplace map fst]; [reflexivity|].
    destruct (keqb k k'); cbn [map fst]; [reflexivity | rewrite IH; reflexivity].
  Qed.

  Lemma alookup_areplace k' k v (m : list (K * V)) :
    alookup keqb k' (areplace keqb k v m) =
    if keqb k' k then match alookup keqb k m with Some _ => Some v | None => None end else alookup keqb k' m.
  Proof.
    induction m as [|[k0 v0] m IH]; cbn [areplace alookup].
    - destruct (keqb k' k); reflexivity.
    - destruct (keqb k k0) eqn:E; cbn [alookup].
      + apply keqb_eq in E. subst k0. destruct (keqb k' k); reflexivity.
      + destruct (keqb k' k0) eqn:E2.
        * apply keqb_eq in E2. subst k0. rewrite (keqb_sym k' k), E. reflexivity.
        * exact IH.
  Qed.
  Lemma alookup_areplace_same k (v v' : V) m :
    alookup keqb k m = Some v -> alookup keqb k (areplace keqb k v' m) = Some v'.
  Proof.
    induction m as [|[k0 v0] m IH]; cbn [alookup areplace]; [discriminate|].
    destruct (keqb k k0) eqn:E; cbn [alookup]; rewrite E; [reflexivity|exact IH].
  Qed.
  Lemma alookup_areplace_other k k' (v' : V) m :
    k' <> k -> alookup keqb k' (areplace keqb k v' m) = alookup keqb k' m.
  Proof. intro H. rewrite alookup_areplace, (keqb_neq _ _ H). reflexivity. Qed.

  Lemma areplace_forall (P : K * V -> Prop) k v (m : list (K * V)) :
    Forall P m -> P (k, v) -> Forall P (areplace keqb k v m).
  Proof.
    induction m as [|[k0 v0] m IH]; cbn [areplace]; intros H Hp; [constructor|].
    inversion H; subst. destruct (keqb k k0) eqn:E.
    - apply keqb_eq in E. subst. constructor; assumption.
    - constructor; [assumption | apply IH; assumption].
  Qed.

  Lemma alookup_aremove k' k (m : list (K * V)) : NoDup (map fst m) ->
    alookup keqb k' (aremove keqb k m) = if keqb k' k then None else alookup keqb k' m.
  Proof.
    induction m as [|[k0 v0] m IH]; cbn [aremove alookup map fst]; intro Hnd.
    - destruct (keqb k' k); reflexivity.
    - inversion Hnd as [|? ? Hni Hnd']; subst.
      destruct (keqb k k0) eqn:E.
      + apply keqb_eq in E. subst k0. destruct (keqb k' k) eqn:E2; [|reflexivity].
        apply keqb_eq in E2. subst k'. apply alookup_none_iff. exact Hni.
      + cbn [alookup]. destruct (keqb k' k0) eqn:E2.
        * apply keqb_eq in E2. subst k0. rewrite (keqb_sym k' k), E. reflexivity.
        * apply IH. exact Hnd'.
  Qed.

  Lemma aremove_incl k (m : list (K * V)) e : In e (aremove keqb k m) -> In e m.
  Proof.
    induction m as [|[k0 v0] m IH]; cbn [aremove In]; [tauto|].
    destruct (keqb k k0); cbn [In]; tauto.
  Qed.
  Lemma aremove_nodup k (m : list (K * V)) : NoDup (map fst m) -> NoDup (map fst (aremove keqb k m)).
  Proof.
    induction m as [|[k0 v0] m IH]; cbn [aremove map fst]; intro Hnd; [constructor|].
    inversion Hnd as [|? ? Hni Hnd']; subst.
    destruct (keqb k k0); [exact Hnd'|]. cbn [map fst]. constructor; [|apply IH, Hnd'].
    intro H. apply Hni. apply in_map_iff in H. destruct H as ([k1 v1] & <- & H).
    apply aremove_incl in H. apply (in_map fst) in H. exact H.
  Qed.
  Lemma aremove_forall (P : K * V -> Prop) k (m : list (K * V)) : Forall P m -> Forall P (aremove keqb k m).
  Proof. intro H. apply Forall_forall. intros e He. apply aremove_incl in He. eapply Forall_forall in H; eauto. Qed.

  Lemma ainsert_none k v (m : list (K * V)) : alookup keqb k m = None -> ainsert keqb k v m = m ++ [(k, v)].
  Proof. unfold ainsert. intros ->. reflexivity. Qed.
  Lemma ainsert_some k v v0 (m : list (K * V)) : alookup keqb k m = Some v0 -> ainsert keqb k v m = areplace keqb k v m.
  Proof. unfold ainsert. intros ->. reflexivity. Qed.

  Lemma alookup_ainsert k' k v (m : list (K * V)) :
    alookup keqb k' (ainsert keqb k v m) = if keqb k' k then Some v else alookup keqb k' m.
  Proof.
    unfold ainsert. destruct (alookup keqb k m) eqn:E.
    - rewrite alookup_areplace, E. reflexivity.
    - rewrite alookup_app. cbn [alookup]. destruct (keqb k' k) eqn:E2.
      + apply keqb_eq in E2. subst. rewrite E. reflexivity.
      + destruct (alookup keqb k' m); reflexivity.
  Qed.
  Lemma ainsert_nodup k v (m : list (K * V)) : NoDup (map fst m) -> NoDup (map fst (ainsert keqb k v m)).
  Proof.
    unfold ainsert. intro H. destruct (alookup keqb k m) eqn:E.
    - rewrite areplace_keys. exact H.
    - rewrite map_app. apply NoDup_snoc; [exact H|]. apply alookup_none_iff, E.
  Qed.
  Lemma ainsert_forall (P : K * V -> Prop) k v (m : list (K * V)) :
    Forall P m -> P (k, v) -> Forall P (ainsert keqb k v m).
  Proof.
    unfold ainsert. intros H Hp. destruct (alookup keqb k m).
    - apply areplace_forall; assumption.
    - apply Forall_app. split; [assumption | constructor; [assumption | constructor]].
  Qed.
End AssocFacts.

Lemma areplace_id {K V} (keqb : K -> K -> bool) k (v : V) m : alookup keqb k m = Some v -> areplace keqb k v m = m.
Proof.
  induction m as [|[k' v'] m IH]; cbn [alookup areplace]; [reflexivity|].
  destruct (keqb k k'); [intro H; inversion H; reflexivity|intro H; rewrite (IH H); reflexivity].
Qed.

(* insertion sort by a boolean total order: the sorted arrangement exists and is unique *)
Section InsertSort.
  Context {A : Type} (leb : A -> A -> bool).
  Hypothesis leb_total : forall a b, leb a b = false -> leb b a = true.
  Hypothesis leb_trans : forall a b c, leb a b = true -> leb b c = true -> leb a c = true.
  Hypothesis leb_antisym : forall a b, leb a b = true -> leb b a = true -> a = b.

  Definition isort_insert : A -> list A -> list A :=
    fix ins (x : A) (l : list A) : list A :=
      match l with [] => [x] | y :: t => if leb x y then x :: l else y :: ins x t end.
  Definition isort (l : list A) : list A := fold_right isort_insert [] l.
  Definition isort_le (a b : A) : Prop := leb a b = true.

  Lemma isort_insert_perm x l : Permutation (x :: l) (isort_insert x l).
  Proof.
    induction l as [|y t IH]; cbn [isort_insert]; [reflexivity|].
    destruct (leb x y); [reflexivity|].
    eapply perm_trans; [apply perm_swap|]. apply perm_skip. exact IH.
  Qed.

  Lemma isort_perm l : Permutation l (isort l).
  Proof.
    induction l as [|x t IH]; cbn [isort fold_right]; [reflexivity|].
    eapply perm_trans; [apply perm_skip; exact IH|]. apply isort_insert_perm.
  Qed.

  Lemma isort_insert_sorted x l : StronglySorted isort_le l -> StronglySorted isort_le (isort_insert x l).
  Proof.
    induction l as [|y t IH]; cbn [isort_insert]; intro H.
    - constructor; constructor.
    - destruct (leb x y) eqn:E.
      + constructor; [exact H|]. inversion H; subst. constructor; [exact E|].
        eapply Forall_impl; [|eassumption]. intros a Ha. exact (leb_trans _ _ _ E Ha).
      + inversion H; subst. constructor; [apply IH; assumption|].
        eapply Permutation_Forall; [apply isort_insert_perm|]. constructor; [|assumption].
        apply leb_total. exact E.
  Qed.

  Lemma isort_sorted l : StronglySorted isort_le (isort l).
  Proof.
    induction l as [|x t IH]; cbn [isort fold_right]; [constructor|]. apply isort_insert_sorted. exact IH.
  Qed.

  (* the sorted arrangement of a list is unique *)
  Lemma sorted_perm_unique l : forall l', StronglySorted isort_le l -> StronglySorted isort_le l' -> Permutation l l' -> l = l'.
  Proof.
    induction l as [|x t IH]; intros l' Hs Hs' Hp.
    - apply Permutation_nil in Hp. subst. reflexivity.
    - destruct l' as [|y t']; [apply Permutation_sym, Permutation_nil in Hp; discriminate|].
      inversion Hs as [|? ? Hst Hfx]; subst. inversion Hs' as [|? ? Hst' Hfy]; subst.
      assert (x = y).
      { assert (Hx : In x (y :: t')) by (eapply Permutation_in; [exact Hp|left; reflexivity]).
        assert (Hy : In y (x :: t)) by (eapply Permutation_in; [apply Permutation_sym; exact Hp|left; reflexivity]).
        destruct Hx as [->|Hx]; [reflexivity|]. destruct Hy as [->|Hy]; [reflexivity|].
        rewrite Forall_forall in Hfx, Hfy. apply leb_antisym; [apply Hfx; exact Hy|apply Hfy; exact Hx]. }
      subst y. f_equal. apply IH; try assumption. eapply Permutation_cons_inv. exact Hp.
  Qed.
End InsertSort.
