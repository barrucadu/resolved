(* Lemmas about the definitions of Base/Prelude.v and Base/Cursor.v. *)
From Coq Require Import PeanoNat.
From RV Require Import Base.Prelude Base.Cursor.

(* close a goal with a hypothesis that differs only in position arithmetic *)
Ltac plia H :=
  exact H ||
  (match type of H with
   | ?P => match goal with
           | |- ?G => let e := fresh "e" in
                      assert (e : P = G) by (f_equal; lia); rewrite <- e; exact H
           end
   end).

Lemma llen_nil {A} : llen (@nil A) = 0.
Proof. reflexivity. Qed.

Lemma llen_cons {A} (x : A) l : llen (x :: l) = 1 + llen l.
Proof. unfold llen. cbn [length]. lia. Qed.

Lemma llen_app {A} (a b : list A) : llen (a ++ b) = llen a + llen b.
Proof. unfold llen. rewrite app_length. lia. Qed.

Lemma llen_map {A B} (f : A -> B) l : llen (map f l) = llen l.
Proof. unfold llen. rewrite map_length. reflexivity. Qed.

Lemma llen_to_nat {A} (l : list A) : N.to_nat (llen l) = length l.
Proof. apply Nat2N.id. Qed.

Lemma leqb_eq a b : leqb a b = true <-> a = b.
Proof.
  revert b; induction a as [|x a IH]; intros [|y b]; cbn [leqb]; split; intro H;
    try reflexivity; try discriminate.
  - apply andb_true_iff in H as [H1 H2]. apply N.eqb_eq in H1. apply IH in H2. congruence.
  - inversion H; subst. apply andb_true_iff; split; [apply N.eqb_refl | apply IH; reflexivity].
Qed.

Lemma lleqb_eq a b : lleqb a b = true <-> a = b.
Proof.
  revert b; induction a as [|x a IH]; intros [|y b]; cbn [lleqb]; split; intro H;
    try reflexivity; try discriminate.
  - apply andb_true_iff in H as [H1 H2]. apply leqb_eq in H1. apply IH in H2. congruence.
  - inversion H; subst. apply andb_true_iff; split; [apply leqb_eq; reflexivity | apply IH; reflexivity].
Qed.

Lemma leqb_false a b : a <> b -> leqb a b = false.
Proof. intro H. destruct (leqb a b) eqn:E; [|reflexivity]. apply leqb_eq in E. contradiction. Qed.

Lemma lleqb_false a b : a <> b -> lleqb a b = false.
Proof. intro H. destruct (lleqb a b) eqn:E; [|reflexivity]. apply lleqb_eq in E. contradiction. Qed.

Lemma leqb_refl a : leqb a a = true.
Proof. apply leqb_eq. reflexivity. Qed.

Lemma lleqb_refl a : lleqb a a = true.
Proof. apply lleqb_eq. reflexivity. Qed.

Lemma is_upper_true b : is_upper b = true <-> 65 <= b <= 90.
Proof. unfold is_upper. rewrite andb_true_iff, !N.leb_le. reflexivity. Qed.

Lemma is_upper_false b : is_upper b = false <-> (b < 65 \/ 90 < b).
Proof. unfold is_upper. rewrite andb_false_iff, !N.leb_gt. reflexivity. Qed.

Lemma lower_upper b : 65 <= b <= 90 -> lower b = b + 32.
Proof. intro H. unfold lower. apply is_upper_true in H. rewrite H. reflexivity. Qed.

Lemma lower_id b : is_upper b = false -> lower b = b.
Proof. intro H. unfold lower. rewrite H. reflexivity. Qed.

Lemma lower_cases b : (65 <= b <= 90 /\ lower b = b + 32) \/ ((b < 65 \/ 90 < b) /\ lower b = b).
Proof.
  destruct (is_upper b) eqn:E.
  - left. apply is_upper_true in E. split; [assumption|]. apply lower_upper; assumption.
  - right. split; [apply is_upper_false; assumption | apply lower_id; assumption].
Qed.

Lemma lower_small b : b < 256 -> lower b < 256.
Proof. destruct (lower_cases b) as [[H ->]|[H ->]]; lia. Qed.

Lemma lower_not_upper b : is_upper (lower b) = false.
Proof. apply is_upper_false. destruct (lower_cases b) as [[H ->]|[H ->]]; lia. Qed.

Lemma lower_idem b : lower (lower b) = lower b.
Proof. apply lower_id, lower_not_upper. Qed.

Lemma map_lower_idem l : map lower (map lower l) = map lower l.
Proof. rewrite map_map. apply map_ext. intro; apply lower_idem. Qed.

Lemma map_lower_id l : Forall (fun b => is_upper b = false) l -> map lower l = l.
Proof.
  induction 1 as [|b l Hb _ IH]; [reflexivity|]. cbn [map]. rewrite IH, lower_id by assumption. reflexivity.
Qed.

(* a predicate on the numbers below [k] holds if running through them finds no exception *)
Lemma N_lt_sweep (P : N -> bool) (k : nat) :
  forallb P (map N.of_nat (seq 0 k)) = true -> forall x, x < N.of_nat k -> P x = true.
Proof.
  intros H x Hx. rewrite forallb_forall in H. apply H.
  apply in_map_iff. exists (N.to_nat x). split; [lia|]. apply in_seq. lia.
Qed.

Lemma skipn_nth {A} n : forall (l : list A),
  skipn n l = match nth_error l n with Some x => x :: skipn (S n) l | None => [] end.
Proof.
  induction n as [|n IH]; intros [|x t]; try reflexivity.
  cbn [nth_error]. rewrite <- IH. reflexivity.
Qed.

Lemma skipn_add {A} a c : forall l : list A, skipn (a + c) l = skipn c (skipn a l).
Proof.
  induction a as [|a IH]; intros l; [reflexivity|].
  destruct l; cbn [Nat.add skipn]; [now rewrite skipn_nil | apply IH].
Qed.

Lemma skipn_app_exact {A} (pre l : list A) : skipn (length pre) (pre ++ l) = l.
Proof. induction pre; cbn; auto. Qed.

Lemma firstn_app_exact {A} (os l : list A) : firstn (length os) (os ++ l) = os.
Proof. induction os; cbn; [reflexivity | f_equal; auto]. Qed.

Lemma Forall_skipn {A} (P : A -> Prop) n : forall l, Forall P l -> Forall P (skipn n l).
Proof.
  induction n as [|n IH]; intros l H; [exact H|].
  destruct l as [|x t]; [exact H|]. cbn [skipn]. apply IH. apply Forall_cons_iff in H. tauto.
Qed.

Lemma Forall_firstn {A} (P : A -> Prop) n l : Forall P l -> Forall P (firstn n l).
Proof. intro H. rewrite <- (firstn_skipn n l) in H. apply Forall_app in H. tauto. Qed.

Lemma nthN_app_l {A} (l l' : list A) i x : nthN l i = Some x -> nthN (l ++ l') i = Some x.
Proof.
  unfold nthN; intros H. rewrite nth_error_app1; auto.
  apply nth_error_Some. congruence.
Qed.

Lemma nthN_app_r {A} (pre post : list A) i : nthN (pre ++ post) (llen pre + i) = nthN post i.
Proof. unfold nthN, llen. rewrite nth_error_app2 by lia. f_equal. lia. Qed.

Lemma nthN_app_mid {A} (pre : list A) x post : nthN (pre ++ x :: post) (llen pre) = Some x.
Proof. replace (llen pre) with (llen pre + 0) by lia. rewrite nthN_app_r. reflexivity. Qed.

Lemma nthN_Some_lt {A} (l : list A) i x : nthN l i = Some x -> i < llen l.
Proof.
  unfold nthN, llen. intros H.
  assert (N.to_nat i < length l)%nat by (apply nth_error_Some; congruence). lia.
Qed.

Lemma sliceN_spec {A} (l : list A) i n os :
  sliceN l i n = Some os -> llen os = n /\ i + n <= llen l /\ exists pre post, l = pre ++ os ++ post.
Proof.
  unfold sliceN. destruct (N.leb_spec (i + n) (llen l)) as [Hle|]; [|discriminate].
  intros [= <-]. split; [|split; [exact Hle|]].
  - unfold llen in *. rewrite firstn_length, skipn_length. lia.
  - exists (firstn (N.to_nat i) l), (skipn (N.to_nat n) (skipn (N.to_nat i) l)).
    rewrite firstn_skipn, firstn_skipn. reflexivity.
Qed.

Lemma sliceN_app_l {A} (l l' : list A) i n os :
  sliceN l i n = Some os -> sliceN (l ++ l') i n = Some os.
Proof.
  unfold sliceN. destruct (i + n <=? llen l) eqn:E; [|discriminate].
  intros [= <-]. apply N.leb_le in E.
  rewrite (proj2 (N.leb_le _ _)) by (rewrite llen_app; lia).
  f_equal. rewrite skipn_app, firstn_app.
  replace (N.to_nat n - length (skipn (N.to_nat i) l))%nat with 0%nat
    by (rewrite skipn_length; unfold llen in E; lia).
  cbn [firstn]. now rewrite app_nil_r.
Qed.

Lemma sliceN_app_mid {A} (pre os post : list A) :
  sliceN (pre ++ os ++ post) (llen pre) (llen os) = Some os.
Proof.
  unfold sliceN. rewrite (proj2 (N.leb_le _ _)) by (rewrite !llen_app; lia).
  f_equal. unfold llen. rewrite !Nat2N.id, skipn_app_exact, firstn_app_exact. reflexivity.
Qed.

(* The decoders only ever hold cursors of the form [at_offset bs p]: what the cursor
   operations do on those, in terms of the buffer [bs]. *)
Lemma crest_at bs p :
  crest (at_offset bs p)
  = match nthN bs p with Some b => b :: crest (at_offset bs (p + 1)) | None => [] end.
Proof.
  unfold at_offset, nthN. cbn [crest]. rewrite skipn_nth.
  replace (N.to_nat (p + 1)) with (S (N.to_nat p)) by lia. reflexivity.
Qed.

Lemma next_u8_nth bs p :
  next_u8 (at_offset bs p)
  = match nthN bs p with Some b => Some (b, at_offset bs (p + 1)) | None => None end.
Proof. unfold next_u8. rewrite crest_at. destruct (nthN bs p); reflexivity. Qed.

Lemma next_u16_nth bs p :
  next_u16 (at_offset bs p)
  = match nthN bs p, nthN bs (p + 1) with
    | Some a, Some b => Some (u16_be a b, at_offset bs (p + 2))
    | _, _ => None
    end.
Proof.
  unfold next_u16. rewrite crest_at. destruct (nthN bs p); [|reflexivity].
  rewrite crest_at. destruct (nthN bs (p + 1)); [|reflexivity].
  cbn [cpos at_offset]. replace (p + 1 + 1) with (p + 2) by lia. reflexivity.
Qed.

Lemma next_u32_nth bs p :
  next_u32 (at_offset bs p)
  = match nthN bs p, nthN bs (p + 1), nthN bs (p + 2), nthN bs (p + 3) with
    | Some a, Some b, Some c, Some d => Some (u32_be a b c d, at_offset bs (p + 4))
    | _, _, _, _ => None
    end.
Proof.
  unfold next_u32. rewrite crest_at. destruct (nthN bs p); [|reflexivity].
  rewrite crest_at. destruct (nthN bs (p + 1)); [|reflexivity].
  replace (p + 1 + 1) with (p + 2) by lia.
  rewrite crest_at. destruct (nthN bs (p + 2)); [|reflexivity].
  replace (p + 2 + 1) with (p + 3) by lia.
  rewrite crest_at. destruct (nthN bs (p + 3)); [|reflexivity].
  cbn [cpos at_offset]. replace (p + 3 + 1) with (p + 4) by lia. reflexivity.
Qed.

Lemma split_exact_firstn {A} k : forall (l : list A),
  split_exact k l = if Nat.leb k (length l) then Some (firstn k l, skipn k l) else None.
Proof.
  induction k as [|k IH]; intros l; [reflexivity|].
  destruct l as [|x t]; [reflexivity|]. cbn [split_exact length Nat.leb firstn skipn].
  rewrite IH. destruct (Nat.leb k (length t)); reflexivity.
Qed.

Lemma take_at bs p n : p <= llen bs ->
  take n (at_offset bs p)
  = match sliceN bs p n with Some os => Some (os, at_offset bs (p + n)) | None => None end.
Proof.
  intro Hp. unfold take, sliceN. rewrite split_exact_firstn. cbn [crest cpos at_offset].
  rewrite skipn_length.
  destruct (N.leb_spec (p + n) (llen bs)) as [Hle|Hgt].
  - rewrite (proj2 (Nat.leb_le _ _)) by (unfold llen in *; lia).
    rewrite <- skipn_add. replace (N.to_nat p + N.to_nat n)%nat with (N.to_nat (p + n)) by lia.
    reflexivity.
  - rewrite (proj2 (Nat.leb_gt _ _)) by (unfold llen in *; lia). reflexivity.
Qed.

Lemma take_at_slice bs p n os : sliceN bs p n = Some os ->
  take n (at_offset bs p) = Some (os, at_offset bs (p + n)).
Proof.
  intro H. rewrite take_at, H; [reflexivity|]. apply sliceN_spec in H. lia.
Qed.

(* a compression pointer's high octet: the mask 0x3F of the code removes the two top bits *)
Lemma land_63 s : 192 <= s -> s < 256 -> N.land s 63 = s - 192.
Proof.
  intros H1 H2. change 63 with (N.ones 6). rewrite N.land_ones. change (2 ^ 6) with 64.
  symmetry. apply N.mod_unique with (q := 3); lia.
Qed.

Lemma land_63_le s : N.land s 63 <= 63.
Proof.
  change 63 with (N.ones 6) at 1. rewrite N.land_ones. change (2 ^ 6) with 64.
  pose proof (N.mod_lt s 64). lia.
Qed.

(* decimal rendering ([show_dec], Display for the unsigned integers): digits, at least one *)
Lemma is_digit_range c : is_digit c = true <-> 48 <= c <= 57.
Proof. unfold is_digit. rewrite andb_true_iff, !N.leb_le. tauto. Qed.

Lemma dec_digits_fuel_acc fuel : forall n acc,
  dec_digits_fuel fuel n acc = dec_digits_fuel fuel n [] ++ acc.
Proof.
  induction fuel as [|f IH]; intros n acc; cbn [dec_digits_fuel]; cbv zeta; [reflexivity|].
  destruct (n <? 10); [reflexivity|].
  rewrite (IH (n / 10) (_ :: acc)), (IH (n / 10) [_]). rewrite <- app_assoc. reflexivity.
Qed.

Lemma dec_digits_fuel_digits f : forall n acc,
  Forall (fun c => is_digit c = true) acc -> Forall (fun c => is_digit c = true) (dec_digits_fuel f n acc).
Proof.
  induction f as [|f IH]; intros n acc Ha; cbn [dec_digits_fuel]; cbv zeta; [exact Ha|].
  assert (Hc : Forall (fun c => is_digit c = true) (48 + n mod 10 :: acc)).
  { constructor; [|exact Ha]. cbv beta. apply (proj2 (is_digit_range _)). assert (H : n mod 10 < 10) by (apply N.mod_lt; discriminate).
    set (m := n mod 10) in *. clearbody m. lia. }
  destruct (n <? 10); [exact Hc|apply IH; exact Hc].
Qed.

Lemma dec_digits_fuel_ne f n acc : dec_digits_fuel (S f) n acc <> [].
Proof.
  cbn [dec_digits_fuel]; cbv zeta. destruct (n <? 10); [discriminate|].
  rewrite dec_digits_fuel_acc. intro H. apply app_eq_nil in H as [_ H]. discriminate.
Qed.

Lemma show_dec_digits n : Forall (fun c => is_digit c = true) (show_dec n).
Proof. unfold show_dec. apply dec_digits_fuel_digits. constructor. Qed.

Lemma show_dec_ne n : show_dec n <> [].
Proof. unfold show_dec. apply (dec_digits_fuel_ne 39). Qed.
